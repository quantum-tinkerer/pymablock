(** Finite sums over lists in an [Ncring] ring (setoid equality).

    Index arithmetic is kept out of this file: the [Ncring] notations capture
    [+ - * 0 1] at every type. *)
Require Import Ncring Ncring_tac Setoid Morphisms List Permutation.
Import ListNotations.
Set Implicit Arguments.

Section BigSum.
Context {T : Type} `{Rg : Ring T}.

Fixpoint bigsum {A} (f : A -> T) (l : list A) : T :=
  match l with [] => 0 | a :: l' => f a + bigsum f l' end.

Lemma bigsum_nil {A} (f : A -> T) : bigsum f [] = 0.
Proof. reflexivity. Qed.

Lemma bigsum_cons {A} (f : A -> T) a l : bigsum f (a :: l) = f a + bigsum f l.
Proof. reflexivity. Qed.

Lemma bigsum_ext {A} (f g : A -> T) l :
  (forall a, In a l -> f a == g a) -> bigsum f l == bigsum g l.
Proof.
  induction l as [|a l IH]; cbn [bigsum]; intros H. reflexivity.
  rewrite (H a), IH. reflexivity. intros; apply H; now right. now left.
Qed.

Global Instance bigsum_Proper {A} :
  Proper (pointwise_relation A ring_eq ==> eq ==> ring_eq) (@bigsum A).
Proof. intros f g H l l' <-. apply bigsum_ext. intros; apply H. Qed.

Lemma bigsum_app {A} (f : A -> T) l1 l2 :
  bigsum f (l1 ++ l2) == bigsum f l1 + bigsum f l2.
Proof.
  induction l1 as [|a l IH]; cbn [bigsum app]. non_commutative_ring.
  rewrite IH. non_commutative_ring.
Qed.

Lemma bigsum_perm {A} (f : A -> T) l1 l2 :
  Permutation l1 l2 -> bigsum f l1 == bigsum f l2.
Proof.
  induction 1; cbn [bigsum]. reflexivity. rewrite IHPermutation; reflexivity.
  non_commutative_ring. etransitivity; eauto.
Qed.

Lemma bigsum_single1 {A} (f : A -> T) a : bigsum f [a] == f a.
Proof. cbn [bigsum]. non_commutative_ring. Qed.

Lemma bigsum_mul_l {A} (f : A -> T) c l :
  c * bigsum f l == bigsum (fun a => c * f a) l.
Proof.
  induction l; cbn [bigsum]. non_commutative_ring.
  rewrite <- IHl. non_commutative_ring.
Qed.

Lemma bigsum_mul_r {A} (f : A -> T) c l :
  bigsum f l * c == bigsum (fun a => f a * c) l.
Proof.
  induction l; cbn [bigsum]. non_commutative_ring.
  rewrite <- IHl. non_commutative_ring.
Qed.

Lemma bigsum_add {A} (f g : A -> T) l :
  bigsum (fun a => f a + g a) l == bigsum f l + bigsum g l.
Proof.
  induction l; cbn [bigsum]. non_commutative_ring.
  rewrite IHl. non_commutative_ring.
Qed.

Lemma bigsum_opp {A} (f : A -> T) l :
  bigsum (fun a => - f a) l == - bigsum f l.
Proof.
  induction l; cbn [bigsum]. non_commutative_ring.
  rewrite IHl. non_commutative_ring.
Qed.

Lemma bigsum_sub {A} (f g : A -> T) l :
  bigsum (fun a => f a - g a) l == bigsum f l - bigsum g l.
Proof.
  induction l; cbn [bigsum]. non_commutative_ring.
  rewrite IHl. non_commutative_ring.
Qed.

Lemma bigsum_flat_map {A B} (f : B -> T) (g : A -> list B) l :
  bigsum f (flat_map g l) == bigsum (fun a => bigsum f (g a)) l.
Proof.
  induction l; cbn [bigsum flat_map]. reflexivity.
  rewrite bigsum_app, IHl. reflexivity.
Qed.

Lemma bigsum_map {A B} (f : B -> T) (g : A -> B) l :
  bigsum f (map g l) == bigsum (fun a => f (g a)) l.
Proof. induction l; cbn [bigsum map]. reflexivity. rewrite IHl. reflexivity. Qed.

Lemma bigsum_zero {A} (f : A -> T) l :
  (forall a, In a l -> f a == 0) -> bigsum f l == 0.
Proof.
  induction l; cbn [bigsum]; intros H. reflexivity.
  rewrite (H a), IHl. non_commutative_ring.
  intros; apply H; now right. now left.
Qed.

Lemma bigsum_const0 {A} (l : list A) : bigsum (fun _ => 0) l == 0.
Proof. apply bigsum_zero. reflexivity. Qed.

(** exchange of two finite sums *)
Lemma bigsum_exchange {A B} (f : A -> B -> T) la lb :
  bigsum (fun a => bigsum (fun b => f a b) lb) la
  == bigsum (fun b => bigsum (fun a => f a b) la) lb.
Proof.
  induction la as [|a la IH]; cbn [bigsum].
  - symmetry. apply bigsum_const0.
  - rewrite IH, <- bigsum_add. reflexivity.
Qed.

(** sum over the sub-list selected by a predicate *)
Lemma bigsum_filter {A} (P : A -> bool) (f : A -> T) l :
  bigsum f (filter P l) == bigsum (fun a => if P a then f a else 0) l.
Proof.
  induction l as [|a l IH]; cbn [bigsum filter]. reflexivity.
  destruct (P a); cbn [bigsum]; rewrite IH; non_commutative_ring.
Qed.

Lemma bigsum_split {A} (P : A -> bool) (f : A -> T) l :
  bigsum f l == bigsum f (filter P l) + bigsum f (filter (fun a => negb (P a)) l).
Proof.
  rewrite !bigsum_filter, <- bigsum_add. apply bigsum_ext. intros a _.
  destruct (P a); cbn [negb]; non_commutative_ring.
Qed.

(** a sum over a duplicate-free list with a single non-zero term *)
Lemma bigsum_single {A} (f : A -> T) x l :
  NoDup l -> In x l -> (forall a, In a l -> a <> x -> f a == 0) ->
  bigsum f l == f x.
Proof.
  induction 1 as [|a l Hn Hl IH]; cbn [bigsum In]; intros Hin Hz. contradiction.
  destruct Hin as [->|Hin].
  - rewrite bigsum_zero. non_commutative_ring.
    intros b Hb. apply Hz. now right. intros ->. contradiction.
  - rewrite IH, (Hz a); auto. non_commutative_ring.
    intros ->. contradiction.
Qed.

(** sum over a duplicate-free list where the non-zero terms are those satisfying a
    decidable predicate that singles out at most the element [x] *)
Lemma bigsum_pick {A} (f : A -> T) (P : A -> bool) x l :
  NoDup l -> In x l -> (forall a, In a l -> (P a = true <-> a = x)) ->
  bigsum (fun a => if P a then f a else 0) l == f x.
Proof.
  intros Hn Hin HP.
  rewrite (@bigsum_single _ (fun a => if P a then f a else 0) x l Hn Hin).
  - destruct (P x) eqn:E. reflexivity.
    assert (P x = true) by (apply HP; auto). congruence.
  - intros a Ha Hne. destruct (P a) eqn:E; [|reflexivity].
    apply HP in E; auto. contradiction.
Qed.

End BigSum.

Arguments bigsum : simpl never.

(** Additive maps commute with finite sums. *)
Section Morph.
Context {T : Type} `{Rg : Ring T}.
Context {U : Type} {u0 u1 : U} {uadd umul usub : U -> U -> U} {uopp : U -> U}
        {ueq : U -> U -> Prop}
        {Uo : @Ring_ops U u0 u1 uadd umul usub uopp ueq} {Ug : @Ring U _ _ _ _ _ _ _ Uo}.

Lemma additive_zero (phi : T -> U) :
  (forall x y, phi (x + y) == phi x + phi y) ->
  Proper (_==_ ==> _==_) phi -> phi 0 == 0.
Proof.
  intros Hadd HP.
  assert (H : phi 0 == phi 0 + phi 0).
  { rewrite <- Hadd. apply HP. non_commutative_ring. }
  transitivity ((phi 0 + phi 0) - phi 0). non_commutative_ring.
  rewrite <- H. non_commutative_ring.
Qed.

Lemma bigsum_morph {A} (phi : T -> U) (f : A -> T) l :
  phi 0 == 0 -> (forall x y, phi (x + y) == phi x + phi y) ->
  phi (bigsum f l) == bigsum (fun a => phi (f a)) l.
Proof.
  intros H0 Hadd. induction l as [|a l IH]. exact H0.
  rewrite !bigsum_cons, Hadd, IH. reflexivity.
Qed.
End Morph.

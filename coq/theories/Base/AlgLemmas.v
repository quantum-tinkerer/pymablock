(** Derived facts of a [BlockAlg]: additive maps, halving, the eliminated part [Rp],
    the positive-order part [Pos], and the contraction principle. *)
Require Import Ncring Ncring_tac Setoid Morphisms ZArith Lia.
From PV.Base Require Import Classes BigSum.
Set Implicit Arguments.

Section Lemmas.
Context {T : Type} `{Rg : Ring T} {BA : BlockAlg T}.

(** additive maps *)
Lemma am_zero (f : T -> T) {Hf : AddMap f} : f 0 == 0.
Proof. apply additive_zero. apply am_add. apply am_P. Qed.
Lemma am_sub (f : T -> T) {Hf : AddMap f} x y : f (x - y) == f x - f y.
Proof. rewrite !ring_sub_def, am_add, am_opp. reflexivity. Qed.

Lemma nmul_am (f : T -> T) {Hf : AddMap f} n x : f (nmul n x) == nmul n (f x).
Proof. induction n as [|n IH]; cbn [nmul]. apply am_zero; assumption. rewrite am_add, IH. reflexivity. Qed.
Lemma zmul_am (f : T -> T) {Hf : AddMap f} k x : f (zmul k x) == zmul k (f x).
Proof. destruct k; cbn [zmul]. apply am_zero; assumption. apply nmul_am; assumption.
  rewrite am_opp, nmul_am by assumption. reflexivity. Qed.
#[global] Instance nmul_P n : Proper (_==_ ==> _==_) (nmul n).
Proof. intros x y E. induction n as [|n IH]; cbn [nmul]. reflexivity. apply ring_plus_comp; assumption. Qed.
#[global] Instance zmul_P k : Proper (_==_ ==> _==_) (zmul k).
Proof. intros x y E. destruct k; cbn [zmul]. reflexivity. apply nmul_P; exact E. apply ring_opp_comp. apply nmul_P; exact E. Qed.
Lemma nmul_add n x y : nmul n (x + y) == nmul n x + nmul n y.
Proof. induction n as [|n IH]; cbn [nmul]. non_commutative_ring. rewrite IH. non_commutative_ring. Qed.
Lemma nmul_opp n x : nmul n (- x) == - nmul n x.
Proof. induction n as [|n IH]; cbn [nmul]. non_commutative_ring. rewrite IH. non_commutative_ring. Qed.
Lemma zmul_add k x y : zmul k (x + y) == zmul k x + zmul k y.
Proof. destruct k; cbn [zmul]. non_commutative_ring. apply nmul_add. rewrite nmul_add. non_commutative_ring. Qed.

(** division: [divz (zmul k x) k == x], hence every additive map commutes with division *)
Lemma divz_proper k x y : x == y -> divz x k == divz y k.
Proof. intros E. apply (divz_P k). exact E. Qed.
#[global] Instance divz_P2 : Proper (_==_ ==> Logic.eq ==> _==_) divz.
Proof. intros x y E k k' <-. apply divz_proper. exact E. Qed.
Lemma divz_nmul k n x : divz (nmul n x) k == nmul n (divz x k).
Proof. induction n as [|n IH]; cbn [nmul].
  - apply (additive_zero (phi := fun y => divz y k)). apply divz_add. apply divz_P.
  - rewrite divz_add, IH. reflexivity.
Qed.
Lemma divz_zmul k j x : divz (zmul j x) k == zmul j (divz x k).
Proof. destruct j; cbn [zmul].
  - exact (divz_nmul k O x).
  - apply divz_nmul.
  - rewrite divz_opp, divz_nmul. reflexivity.
Qed.
Lemma divz_cancel k x : k <> 0%Z -> divz (zmul k x) k == x.
Proof. intros Hk. rewrite divz_zmul. apply divz_spec. exact Hk. Qed.
Lemma divz_am (f : T -> T) {Hf : AddMap f} k x : k <> 0%Z -> f (divz x k) == divz (f x) k.
Proof.
  intros Hk. rewrite <- (divz_cancel (f (divz x k)) Hk).
  apply divz_proper. rewrite <- zmul_am by assumption. apply am_P. apply divz_spec. exact Hk.
Qed.
Lemma divz_sub k x y : divz (x - y) k == divz x k - divz y k.
Proof. rewrite !ring_sub_def. rewrite divz_add, divz_opp. reflexivity. Qed.

(** halving *)
Definition half (x : T) : T := divz x 2.
#[global] Instance half_P : Proper (_==_ ==> _==_) half.
Proof. intros x y E. unfold half. apply divz_proper. exact E. Qed.
Lemma half_add x y : half (x + y) == half x + half y. Proof. apply divz_add. Qed.
Lemma half_opp x : half (- x) == - half x. Proof. apply divz_opp. Qed.
Lemma half_sub x y : half (x - y) == half x - half y. Proof. apply divz_sub. Qed.
Lemma half_dbl x : half x + half x == x.
Proof. pose proof (@divz_spec _ _ _ _ _ _ _ _ _ BA 2%Z x) as E. cbn in E.
  assert (E' : half x + half x == half x + (half x + 0)) by non_commutative_ring.
  rewrite E'. apply E. discriminate. Qed.
Lemma half_twice x : half (x + x) == x.
Proof. rewrite half_add. apply half_dbl. Qed.
Lemma half_am (f : T -> T) {Hf : AddMap f} x : f (half x) == half (f x).
Proof. apply divz_am. assumption. discriminate. Qed.
Lemma divz_m2 x : divz x (-2) == - half x.
Proof.
  assert (Hm : (-2 <> 0)%Z) by discriminate.
  rewrite <- (divz_cancel (- half x) Hm). apply divz_proper.
  cbn. assert (E : - (- half x + (- half x + 0)) == half x + half x) by non_commutative_ring.
  rewrite E. symmetry. apply half_dbl.
Qed.
Lemma dbl_inj x y : x + x == y + y -> x == y.
Proof. intros E. rewrite <- (half_twice x), <- (half_twice y), E. reflexivity. Qed.
Lemma ord_half k x : ord k x -> ord k (half x). Proof. apply ord_divz. Qed.

(** block parts *)
Definition Od (x : T) : T := Up x + Lo x.
Definition Rp (x : T) : T := x - Sel x.
Definition Pos (x : T) : T := x - Zc x.
Definition comm (a b : T) : T := a * b - b * a.

#[global] Instance Rp_P : Proper (_==_ ==> _==_) Rp.
Proof. intros x y E. unfold Rp. rewrite E. reflexivity. Qed.
#[global] Instance Pos_P : Proper (_==_ ==> _==_) Pos.
Proof. intros x y E. unfold Pos. rewrite E. reflexivity. Qed.
#[global] Instance comm_P : Proper (_==_ ==> _==_ ==> _==_) comm.
Proof. intros x y E x' y' E'. unfold comm. rewrite E, E'. reflexivity. Qed.
#[global] Instance Od_P : Proper (_==_ ==> _==_) Od.
Proof. intros x y E. unfold Od. rewrite E. reflexivity. Qed.

Lemma adj_add x y : adj (x + y) == adj x + adj y. Proof. apply am_add. Qed.
Lemma adj_opp x : adj (- x) == - adj x. Proof. apply am_opp. Qed.
Lemma adj_sub x y : adj (x - y) == adj x - adj y. Proof. apply am_sub; apply adj_am. Qed.
Lemma adj_zero : adj 0 == 0. Proof. apply am_zero; apply adj_am. Qed.
Lemma half_adj x : adj (half x) == half (adj x). Proof. apply half_am; apply adj_am. Qed.
Lemma Sel_add x y : Sel (x + y) == Sel x + Sel y. Proof. apply am_add. Qed.
Lemma Sel_opp x : Sel (- x) == - Sel x. Proof. apply am_opp. Qed.
Lemma Sel_sub x y : Sel (x - y) == Sel x - Sel y. Proof. apply am_sub; apply Sel_am. Qed.
Lemma Sel_zero : Sel 0 == 0. Proof. apply am_zero; apply Sel_am. Qed.
Lemma Sel_half x : Sel (half x) == half (Sel x). Proof. apply half_am; apply Sel_am. Qed.
Lemma Sel_Rp x : Sel (Rp x) == 0.
Proof. unfold Rp. rewrite Sel_sub, Sel_idem. non_commutative_ring. Qed.
Lemma Rp_Sel x : Rp (Sel x) == 0.
Proof. unfold Rp. rewrite Sel_idem. non_commutative_ring. Qed.
Lemma Rp_Rp x : Rp (Rp x) == Rp x.
Proof. unfold Rp at 1. rewrite Sel_Rp. non_commutative_ring. Qed.
Lemma Rp_adj x : Rp (adj x) == adj (Rp x).
Proof. unfold Rp. rewrite adj_sub, Sel_adj. reflexivity. Qed.
Lemma Rp_add x y : Rp (x + y) == Rp x + Rp y.
Proof. unfold Rp. rewrite Sel_add. non_commutative_ring. Qed.
Lemma Rp_opp x : Rp (- x) == - Rp x.
Proof. unfold Rp. rewrite Sel_opp. non_commutative_ring. Qed.
Lemma Rp_sub x y : Rp (x - y) == Rp x - Rp y.
Proof. unfold Rp. rewrite Sel_sub. non_commutative_ring. Qed.
Lemma Rp_zero : Rp 0 == 0.
Proof. unfold Rp. rewrite Sel_zero. non_commutative_ring. Qed.
Lemma split_SR x : x == Sel x + Rp x.
Proof. unfold Rp. non_commutative_ring. Qed.
#[global] Instance Rp_am : AddMap Rp.
Proof. split. exact Rp_P. exact Rp_add. exact Rp_opp. Qed.

Lemma Zc_zero : Zc 0 == 0. Proof. apply am_zero; apply Zc_am. Qed.
Lemma Zc_sub x y : Zc (x - y) == Zc x - Zc y. Proof. apply am_sub; apply Zc_am. Qed.
Lemma Zc_Pos x : Zc (Pos x) == 0.
Proof. unfold Pos. rewrite Zc_sub, Zc_idem. non_commutative_ring. Qed.
Lemma Pos_of_ord1 x : ord 1 x -> Pos x == x.
Proof. intros H. apply Zc_ord in H. unfold Pos. rewrite H. non_commutative_ring. Qed.
Lemma ord1_Pos x : ord 1 (Pos x).
Proof. apply Zc_ord. apply Zc_Pos. Qed.
Lemma ord_sub k x y : ord k x -> ord k y -> ord k (x - y).
Proof. intros Hx Hy. rewrite ring_sub_def. apply ord_add. exact Hx. apply ord_opp. exact Hy. Qed.
Lemma ord_le k j x : (j <= k)%nat -> ord k x -> ord j x.
Proof. induction 1 as [|k Hle IH]. trivial. intros H. apply IH. apply ord_S. exact H. Qed.
Lemma ord_mul_l k x y : ord 1 x -> ord k y -> ord (S k) (x * y).
Proof. intros Hx Hy. change (S k) with (Nat.add 1 k). apply ord_mul; assumption. Qed.
Lemma ord_mul_r k x y : ord k x -> ord 1 y -> ord (S k) (x * y).
Proof. intros Hx Hy. replace (S k) with (Nat.add k 1) by lia. apply ord_mul; assumption. Qed.
Lemma ord1_mul x y : ord 1 x -> ord 1 y -> ord 1 (x * y).
Proof. intros Hx Hy. apply (ord_le (k:=2)). auto. apply ord_mul_l; assumption. Qed.
Lemma ord_mul_any_l k x y : ord k x -> ord k (x * y).
Proof. intros H. rewrite (plus_n_O k). apply ord_mul. exact H. apply ord_O. Qed.
Lemma ord_mul_any_r k x y : ord k y -> ord k (x * y).
Proof. intros H. change k with (Nat.add 0 k). apply ord_mul. apply ord_O. exact H. Qed.
Lemma ord_Rp k x : ord k x -> ord k (Rp x).
Proof. intros H. unfold Rp. apply ord_sub. exact H. apply ord_Sel. exact H. Qed.
Lemma ord_eq_zero x : (forall k, ord k x -> ord (S k) x) -> x == 0.
Proof. intros H. apply ord_sep. intros k. induction k as [|k IH]. apply ord_O. apply H. exact IH. Qed.
Lemma eq_of_ord x y : (forall k, ord k (x - y)) -> x == y.
Proof. intros H. assert (E : x - y == 0) by (apply ord_sep; exact H).
  assert (E' : x == (x - y) + y) by non_commutative_ring. rewrite E', E. non_commutative_ring. Qed.

(** contraction principle: D = -1/2 (p D + D q) with p, q of positive order forces D = 0 *)
Lemma contraction p q D : ord 1 p -> ord 1 q -> D == - half (p * D + D * q) -> D == 0.
Proof.
  intros Hp Hq E. apply ord_eq_zero. intros k Hk. rewrite E.
  apply ord_opp, ord_half, ord_add. apply ord_mul_l; assumption. apply ord_mul_r; assumption.
Qed.

Lemma add0r (x : T) : x + 0 == x. Proof. non_commutative_ring. Qed.
Lemma half_zero : half 0 == 0.
Proof. assert (E : (0:T) == 0 + 0) by non_commutative_ring. rewrite E at 1. apply half_twice. Qed.
Lemma Pos_adj x : adj (Pos x) == Pos (adj x).
Proof. unfold Pos. rewrite adj_sub, Zc_adj. reflexivity. Qed.
Lemma Rw_zero : Rw 0 == 0. Proof. apply am_zero; apply Rw_am. Qed.
Lemma Rw_Sel_herm x : adj x == x -> adj (Rw (Sel x)) == Rw (Sel x).
Proof. intros E. assert (E1 : Sel x == Dg (Sel x)) by (symmetry; apply Dg_Sel).
  rewrite E1 at 1. rewrite <- Rw_adj_Dg, <- Dg_adj, <- Sel_adj, E, Dg_Sel. reflexivity. Qed.

(** block parts, continued *)
Lemma Dg_zero : Dg 0 == 0. Proof. apply am_zero; apply Dg_am. Qed.
Lemma Up_zero : Up 0 == 0. Proof. apply am_zero; apply Up_am. Qed.
Lemma Lo_zero : Lo 0 == 0. Proof. apply am_zero; apply Lo_am. Qed.
Lemma Dg_sub x y : Dg (x - y) == Dg x - Dg y. Proof. apply am_sub; apply Dg_am. Qed.
Lemma Up_sub x y : Up (x - y) == Up x - Up y. Proof. apply am_sub; apply Up_am. Qed.
Lemma Lo_sub x y : Lo (x - y) == Lo x - Lo y. Proof. apply am_sub; apply Lo_am. Qed.
Lemma Up_Sel x : Up (Sel x) == 0.
Proof. rewrite <- (Dg_Sel x). apply Up_Dg. Qed.
Lemma Lo_Sel x : Lo (Sel x) == 0.
Proof. rewrite <- (Dg_Sel x). apply Lo_Dg. Qed.
Lemma Up_Rp x : Up (Rp x) == Up x.
Proof. unfold Rp. rewrite Up_sub, Up_Sel. non_commutative_ring. Qed.
Lemma Lo_Rp x : Lo (Rp x) == Lo x.
Proof. unfold Rp. rewrite Lo_sub, Lo_Sel. non_commutative_ring. Qed.
Lemma Dg_Rp x : Dg (Rp x) == Dg x - Sel x.
Proof. unfold Rp. rewrite Dg_sub, Dg_Sel. reflexivity. Qed.
Lemma adj_Up x : adj (Up x) == Lo (adj x).
Proof. rewrite Lo_adj. reflexivity. Qed.
Lemma adj_Lo x : adj (Lo x) == Up (adj x).
Proof. rewrite Up_adj. reflexivity. Qed.

(** a triangular (marker) definition determines the series from its upper part *)
Lemma tri_herm s b : s == Dg b + Up b + adj (Up s) -> s == Dg b + Up b + adj (Up b).
Proof.
  intros E. assert (U : Up s == Up b).
  { rewrite E at 1. rewrite !am_add, Up_Dg, Up_Up, adj_Up, Up_Lo. non_commutative_ring. }
  rewrite E at 1. rewrite U. reflexivity.
Qed.
Lemma tri_antiherm s b : s == Dg b + Up b + - adj (Up s) -> s == Dg b + Up b + - adj (Up b).
Proof.
  intros E. assert (U : Up s == Up b).
  { rewrite E at 1. rewrite !am_add, am_opp, Up_Dg, Up_Up, adj_Up, Up_Lo. non_commutative_ring. }
  rewrite E at 1. rewrite U. reflexivity.
Qed.
Lemma full_of_herm b : adj b == b -> Dg b + Up b + adj (Up b) == b.
Proof. intros E. rewrite adj_Up, E. symmetry. apply blk_split. Qed.
Lemma full_of_antiherm b : adj b == - b -> Dg b + Up b + - adj (Up b) == b.
Proof. intros E. rewrite adj_Up, E, am_opp.
  assert (E' : Dg b + Up b + - - Lo b == Dg b + Up b + Lo b) by non_commutative_ring.
  rewrite E'. symmetry. apply blk_split. Qed.


(** a series defined with start = 0 under a (anti)hermitian marker, all of whose lines are of positive order *)
Lemma marker_herm s b : ord 1 s -> ord 1 b -> s == Pos (Dg b + Up b + adj (Up s)) -> s == Dg b + Up b + adj (Up b).
Proof.
  intros Hs Hb E. apply tri_herm. rewrite E at 1. apply Pos_of_ord1.
  apply ord_add. apply ord_add. apply ord_Dg, Hb. apply ord_Up, Hb. apply ord_adj, ord_Up, Hs.
Qed.
Lemma marker_antiherm s b : ord 1 s -> ord 1 b -> s == Pos (Dg b + Up b + - adj (Up s)) -> s == Dg b + Up b + - adj (Up b).
Proof.
  intros Hs Hb E. apply tri_antiherm. rewrite E at 1. apply Pos_of_ord1.
  apply ord_add. apply ord_add. apply ord_Dg, Hb. apply ord_Up, Hb. apply ord_opp, ord_adj, ord_Up, Hs.
Qed.

(** with two blocks, a product of two block-off-diagonal elements is block diagonal *)
Lemma odd_odd_of : (forall x y, Up x * Up y == 0) -> (forall x y, Lo x * Lo y == 0) ->
  (forall x y, Dg (Up x * Lo y) == Up x * Lo y) -> (forall x y, Dg (Lo x * Up y) == Lo x * Up y) ->
  forall x y, Dg (Od x * Od y) == Od x * Od y.
Proof.
  intros Z1 Z2 Z3 Z4 x y. unfold Od.
  assert (E : (Up x + Lo x) * (Up y + Lo y) == Up x * Lo y + Lo x * Up y).
  { assert (E1 : (Up x + Lo x) * (Up y + Lo y) == Up x * Up y + Up x * Lo y + (Lo x * Up y + Lo x * Lo y)) by non_commutative_ring.
    rewrite E1, Z1, Z2. non_commutative_ring. }
  rewrite E, am_add, Z3, Z4. reflexivity.
Qed.

End Lemmas.

(** side conditions "this expression has order >= k" are closed by [auto with ord] *)
Create HintDb ord discriminated.
#[export] Hint Resolve ord_add ord_sub ord_opp ord_half ord_adj ord_divz ord_Sel ord_Rp ord_Dg ord_Up ord_Lo ord_Rw
  ord1_mul ord1_Pos ord_zero : ord.

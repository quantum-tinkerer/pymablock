(** Non-Hermitian counterpart of Alg/TruncTie.v: if [check_alg] accepts the implementation's
    tables for [nonhermitian_alg], then U_inv U = U U_inv = 1 and the gauge condition hold for the
    denotations of those tables up to total order N (no side condition: these three clauses of C05
    are unconditional). *)
Require Import List ZArith Arith Bool String Ncring Ncring_tac Setoid Morphisms.
From PV.Base Require Import Classes AlgLemmas.
From PV.Series Require Import MultiIndex Cauchy Lift Inst ExecIdx Exec SylvInst.
From PV.Block Require Import Mat Masks CoefAlg BlockSel ExecScalar QLemmas QInst.
From PV.DSL Require Import Syntax Sem.
From PV.Gen Require Import Algorithms_gen.
From PV.Alg Require Import MainLift NonHerm SemExec SemExecSound Trunc TruncMain TruncTie GqInv.
Open Scope string_scope.

Section TieNH.
Variables D k N : nat.
Variable bl : list nat.
Variable msk : list (list bool).
Variable cb : list bool.
Variable El : list gq.
Variable tb : bool.
Variable sols : list (string * tser gq).

Let blk := mk_blk bl.
Let keep := mk_keep bl msk.
Let cm := mk_cm bl cb.
Let ksym := mk_keep_sym bl msk.
Let kblk := mk_keep_blk bl msk.
Let cblk := mk_cm_blk bl cb.

Local Notation TT := (T D k gq).
Local Notation BA0 := (BAi D k bl msk cb).
Local Hint Extern 0 (BlockAlg _) => exact BA0 : typeclass_instances.
Local Notation sol := (asol D k sols).
Local Notation rfl := (arflag D k bl msk cb).
Local Notation fen := (afenv D k El).
Local Notation M := (S N).
Local Notation hst := (hsum_trunc_i D k N bl msk cb).
Local Notation Ef := (Efun El).

Hypothesis Hcheck : check_alg D k N bl msk cb El tb sols nonhermitian_alg = true.

Lemma nh_trunc_solution :
  @solution TT _ _ _ _ _ _ (teq M) (trunc_ops M) (BAt M hst) (SemExec.gflag tb) rfl fen sol nonhermitian_alg.
Proof. exact (check_solution D k N bl msk cb El sols tb nonhermitian_alg Hcheck). Qed.

Lemma nsylv_P_t : Proper (teq M ==> teq M) (nsylv fen).
Proof.
  intros x y E. unfold teq in *. unfold nsylv. cbn [afenv].
  assert (Z : SylvInst.sylv Ef gq_inv0 x - SylvInst.sylv Ef gq_inv0 y == SylvInst.sylv (D := D) (k := k) Ef gq_inv0 (x - y)).
  { symmetry. apply AlgLemmas.am_sub. exact (SylvInst.sylv_am D k (Rg := gq_Ring) Ef gq_inv0). }
  rewrite Z. apply (SylvInst.sylv_ord (keep_sym := ksym) (keep_blk := kblk) (cm_blk := cblk) Ef gq_inv0). exact E.
Qed.
Lemma nsylv_ord_t : forall m y, tord M m y -> tord M m (nsylv fen y).
Proof.
  intros m y Hy. unfold tord in *. unfold nsylv. cbn [afenv].
  apply (SylvInst.sylv_ord (keep_sym := ksym) (keep_blk := kblk) (cm_blk := cblk) Ef gq_inv0). exact Hy.
Qed.

Theorem nh_tie_conclusions :
  eqN D k N (sol "U†" * sol "U") 1 /\
  eqN D k N (sol "U" * sol "U†") 1 /\
  eqN D k N (Sel (sol "U" - sol "U†")) 0.
Proof.
  refine (Logic.conj _ (Logic.conj _ _)); apply (teq_eqN D k N bl msk cb).
  - exact (@nh_inverse_l TT _ _ _ _ _ _ (teq M) (trunc_ops M) (Rgt M) (BAt M hst) _ _ _ _ nh_trunc_solution).
  - exact (@nh_inverse_r TT _ _ _ _ _ _ (teq M) (trunc_ops M) (Rgt M) (BAt M hst) _ _ _ _ nh_trunc_solution).
  - exact (@nh_gauge TT _ _ _ _ _ _ (teq M) (trunc_ops M) (Rgt M) (BAt M hst) _ _ _ _ nh_trunc_solution
             nsylv_P_t nsylv_ord_t).
Qed.

(** ** the similarity clauses, inside the class where they hold: every kept matrix element connects
    equal unperturbed energies ([central_ok]; outside it the property is false on the unchanged
    code - known finding C05-kept-distinct-energies) *)
Definition central_ok : bool :=
  forallb (fun p => forallb (fun q => implb (keep p q) (gq_eqb (Ef p) (Ef q))) (range D)) (range D).
Definition nh_inputs_ok : bool :=
  refl_ok D bl msk && distinct_ok D bl msk El && central_ok && zero_ok D k N bl msk cb El sols.

Hypothesis Hin : nh_inputs_ok = true.

Lemma nh_parts : refl_ok D bl msk = true /\ distinct_ok D bl msk El = true /\ central_ok = true /\ zero_ok D k N bl msk cb El sols = true.
Proof.
  pose proof Hin as H. unfold nh_inputs_ok in H.
  apply andb_prop in H. destruct H as [H H4]. apply andb_prop in H. destruct H as [H H3].
  apply andb_prop in H. destruct H as [H1 H2]. repeat split; assumption.
Qed.
Lemma n_kept_equal : forall p q, (p < D)%nat -> (q < D)%nat -> keep p q = true -> Ef p == Ef q.
Proof.
  destruct nh_parts as (_ & _ & H & _). unfold central_ok in H. rewrite forallb_forall in H.
  intros p q Hp Hq Hk.
  specialize (H p (proj2 (in_range D p) Hp)). rewrite forallb_forall in H.
  specialize (H q (proj2 (in_range D q) Hq)). rewrite Hk in H. cbn [implb] in H.
  apply gq_eqb_sound. exact H.
Qed.
Lemma n_H_zero : eqN D k N (Zc (sol "H")) (SylvInst.H0 D k Ef).
Proof. apply H_zero_of, nh_parts. Qed.
Local Notation H0c := (SylvInst.H0 D k Ef).
Local Notation tz := (proj2 (teq_eqN D k N bl msk cb _ _) n_H_zero).

Lemma n_Sel_H0 : Sel H0c == H0c.
Proof. apply Sel_H0_of, nh_parts. Qed.
Lemma n_spec y : Rp (AlgLemmas.comm H0c (MainLift.sylv fen y)) == Rp y.
Proof.
  unfold MainLift.sylv. cbn [afenv].
  apply (SylvInst.sylv_spec (k := k) blk keep cm ksym kblk cblk Ef gq_inv0). apply inv_spec_of, nh_parts.
Qed.
Lemma t_kept : teq M (Sel (Zc (sol "H"))) (Zc (sol "H")).
Proof. exact (tH0_kept M _ _ n_Sel_H0 tz). Qed.
Lemma t_Sel_ad : forall x, teq M (Sel (AlgLemmas.comm (Zc (sol "H")) x)) (AlgLemmas.comm (Zc (sol "H")) (Sel x)).
Proof. exact (tH0_Sel_ad M _ _ (SylvInst.Sel_comm_H0 (k := k) blk keep cm ksym kblk cblk Ef) tz). Qed.
Lemma t_spec : forall y, teq M (Rp (AlgLemmas.comm (Zc (sol "H")) (nsylv fen y))) (Rp y).
Proof. exact (tH0_spec M fen _ _ n_spec tz). Qed.
Lemma t_central : forall x, teq M (AlgLemmas.comm (Zc (sol "H")) (Sel x)) 0.
Proof.
  intros x. apply (teq_trans M _ (AlgLemmas.comm H0c (Sel x))).
  { apply (teq_comm M). exact tz. apply (teq_refl M). }
  apply lift_teq. apply (SylvInst.central_H0 D k blk keep cm ksym kblk cblk Ef n_kept_equal).
Qed.

Theorem nh_tie_similarity :
  eqN D k N (Sel (sol "U†" * sol "H" * sol "U")) (sol "H_tilde") /\
  eqN D k N (Rp (sol "U†" * sol "H" * sol "U")) 0.
Proof.
  refine (Logic.conj _ _); apply (teq_eqN D k N bl msk cb).
  - exact (@nh_kept_partial TT _ _ _ _ _ _ (teq M) (trunc_ops M) (Rgt M) (BAt M hst) _ _ _ _ nh_trunc_solution
             nsylv_P_t nsylv_ord_t t_kept t_Sel_ad t_spec t_central).
  - exact (@nh_eliminated_partial TT _ _ _ _ _ _ (teq M) (trunc_ops M) (Rgt M) (BAt M hst) _ _ _ _ nh_trunc_solution
             nsylv_P_t nsylv_ord_t t_kept t_Sel_ad t_spec t_central).
Qed.
End TieNH.

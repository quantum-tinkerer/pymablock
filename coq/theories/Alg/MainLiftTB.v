(** The two-block optimisation of the Hermitian algorithm ([two_block_optimized = True]: exactly
    two blocks, no fully_diagonalize), from the meaning of the GENERATED program [main_alg] to the
    symmetric equations consumed by Alg/MainAlgebra.v.

    What does not depend on the flag (the equations of the series other than Yadj and W, the
    solution of V from a Hermitian Yadj, Hermiticity of W from the half-sum) is taken from
    Alg/MainLift.v; the wiring hypotheses are explained there.  Here: Yadj = Lo X + adj (Lo X),
    W = -1/2 hsum, the parity calculus of a 2x2 block structure, and X = [U', H_0 + H'_diag]
    by a contraction on the diagonal and upper parts separately. *)
Require Import Ncring Ncring_tac Setoid Morphisms ZArith String List.
From PV.Base Require Import Classes AlgLemmas.
From PV.DSL Require Import Syntax Sem.
From PV.Gen Require Import Algorithms_gen.
From PV.Alg Require Import MainAlgebra MainLift.
Import ListNotations.
Open Scope string_scope.

Definition gflag_of (tb : bool) (n : string) : bool :=
  if String.eqb n "two_block_optimized" then tb else false.

Section Common.
Context {T : Type} `{Rg : Ring T} {BA : BlockAlg T}.
Variable tb : bool.
Variable rflag : string -> T -> T.
Variable fenv : string -> list T -> T.
Variable sol : string -> T.
Hypothesis Hsol : solution (gflag_of tb) rflag fenv sol main_alg.

Definition sylv (y : T) : T := fenv "solve_sylvester" [y].

Let H := sol "H".   Let Hd := sol "H'_diag".   Let Ho := sol "H'_offdiag".
Let V := sol "V".   Let W := sol "W".   Let Y := sol "Yadj".
Let U' := sol "U'". Let Ud' := sol "U'†". Let X := sol "X". Let B := sol "B".
Let P := sol "U'† @ U'". Let A := sol "H'_offdiag @ U'". Let UdB := sol "U'† @ B".
Let VH := sol "V @ H'_diag".

(* what Alg/MainLift.v derives for both wirings, in the names of this section *)
Ltac common L := eapply L; eassumption.
Lemma Hd_alt : Hd == Sel (Pos H). Proof. common MainLift.Hd_alt. Qed.
Lemma H_split : H == Zc H + Hd + Ho. Proof. common MainLift.H_split. Qed.
Lemma Hd_S : Sel Hd == Hd. Proof. common MainLift.Hd_S. Qed.
Lemma Ho_S : Sel Ho == 0. Proof. common MainLift.Ho_S. Qed.

Hypothesis H_herm : adj H == H.
Lemma Hd_h : adj Hd == Hd. Proof. common MainLift.Hd_h. Qed.
Lemma Ho_h : adj Ho == Ho. Proof. common MainLift.Ho_h. Qed.
Lemma H0_h : adj (Zc H) == Zc H. Proof. common MainLift.H0_h. Qed.

Lemma oV : ord 1 V. Proof. common MainLift.oV. Qed.
Lemma oW : ord 1 W. Proof. common MainLift.oW. Qed.
Lemma oY : ord 1 Y. Proof. common MainLift.oY. Qed.
Lemma oX : ord 1 X. Proof. common MainLift.oX. Qed.
Lemma eU' : U' == W + V. Proof. common MainLift.eU'. Qed.
Lemma eUd' : Ud' == W - V. Proof. common MainLift.eUd'. Qed.
Lemma oU' : ord 1 U'. Proof. common MainLift.oU'. Qed.
Lemma oUd' : ord 1 Ud'. Proof. common MainLift.oUd'. Qed.
Lemma eU : sol "U" == 1 + U'. Proof. common MainLift.eU. Qed.
Lemma eUd : sol "U†" == 1 + Ud'. Proof. common MainLift.eUd. Qed.
Lemma eA : A == Ho * U'. Proof. common MainLift.eA. Qed.
Lemma eUdB : UdB == Ud' * B. Proof. common MainLift.eUdB. Qed.
Lemma eVH : VH == V * Hd. Proof. common MainLift.eVH. Qed.
Lemma eX : X == B + Ho + A. Proof. common MainLift.eX. Qed.
Local Hint Resolve oV oW oY oX oU' oUd' : ord.

(* wiring *)
Hypothesis Hrf : forall x, rflag "commuting_blocks" x == Rw x.
Context {sylv_P : Proper (_==_ ==> _==_) sylv}.
Hypothesis sylv_ord : forall k y, ord k y -> ord k (sylv y).
Hypothesis sylv_adj : forall y, sylv (adj y) == - adj (sylv y).

Lemma Rw_Sel_herm x : adj x == x -> adj (Rw (Sel x)) == Rw (Sel x).
Proof. apply AlgLemmas.Rw_Sel_herm. Qed.

Let yy := half (adj X + X).
Lemma yy_herm : adj yy == yy.
Proof. apply MainLift.yy_herm. Qed.

Lemma eB : B == Sel (- half (UdB - adj UdB + A + adj A)) + (Sel (VH + adj VH) - Rw (Sel (VH + adj VH))) - Rp UdB.
Proof. common MainLift.eB. Qed.
Lemma eHt : sol "H_tilde" == Zc H + Sel (Hd + half (A + adj A) - half (UdB + adj UdB) - Y).
Proof. common MainLift.eHt. Qed.

(** * Two-block wiring: two_block_optimized = True *)
Hypothesis tb_true : tb = true.
Hypothesis Sel_Dg_all : forall x, Sel x == Dg x.
Hypothesis Rw_Dg_id : forall x, Rw (Dg x) == Dg x.
Hypothesis odd_odd : forall x y, Dg (Od x * Od y) == Od x * Od y.
Hypothesis up_dg_up : forall x y, Up (Dg x * Up y) == Dg x * Up y.
Hypothesis up_up_dg : forall x y, Up (Up x * Dg y) == Up x * Dg y.
Hypothesis lo_dg_lo : forall x y, Lo (Dg x * Lo y) == Dg x * Lo y.
Hypothesis lo_lo_dg : forall x y, Lo (Lo x * Dg y) == Lo x * Dg y.

Ltac getSt name H := pose proof (solution_series Hsol name eq_refl) as H; unfold gflag_of in H; sem_unfold H;
  rewrite tb_true in H; rewrite ?Lo_zero, ?ring_add_0_l, ?add0r in H.

(** parity calculus *)
Local Notation ev x := (Dg x == x) (only parsing).
Local Notation od x := (Dg x == 0) (only parsing).
Lemma Rp_Od x : Rp x == Od x.
Proof. unfold Rp, Od. rewrite Sel_Dg_all. rewrite (blk_split x) at 1. non_commutative_ring. Qed.
Lemma od_split x : od x -> x == Od x.
Proof. intros H1. unfold Od. rewrite (blk_split x) at 1. rewrite H1. non_commutative_ring. Qed.
Lemma ev_mul x y : ev x -> ev y -> ev (x * y).
Proof. intros Hx Hy. rewrite <- Hx at 1. rewrite Dg_mul_l, Hx, Hy. reflexivity. Qed.
Lemma ev_od x y : ev x -> od y -> od (x * y).
Proof. intros Hx Hy. rewrite <- Hx. rewrite Dg_mul_l, Hy. non_commutative_ring. Qed.
Lemma od_ev x y : od x -> ev y -> od (x * y).
Proof. intros Hx Hy. rewrite <- Hy. rewrite Dg_mul_r, Hx. non_commutative_ring. Qed.
Lemma od_od x y : od x -> od y -> ev (x * y).
Proof. intros Hx Hy. rewrite (od_split _ Hx), (od_split _ Hy). apply odd_odd. Qed.
Lemma ev_add x y : ev x -> ev y -> ev (x + y).
Proof. intros Hx Hy. rewrite am_add, Hx, Hy. reflexivity. Qed.
Lemma ev_opp x : ev x -> ev (- x).
Proof. intros Hx. rewrite am_opp, Hx. reflexivity. Qed.
Lemma ev_sub x y : ev x -> ev y -> ev (x - y).
Proof. intros Hx Hy. rewrite Dg_sub, Hx, Hy. reflexivity. Qed.
Lemma od_add x y : od x -> od y -> od (x + y).
Proof. intros Hx Hy. rewrite am_add, Hx, Hy. non_commutative_ring. Qed.
Lemma od_opp x : od x -> od (- x).
Proof. intros Hx. rewrite am_opp, Hx. non_commutative_ring. Qed.
Lemma od_sub x y : od x -> od y -> od (x - y).
Proof. intros Hx Hy. rewrite Dg_sub, Hx, Hy. non_commutative_ring. Qed.
Lemma ev_half x : ev x -> ev (half x).
Proof. intros Hx. rewrite (half_am (f:=Dg)), Hx. reflexivity. Qed.
Lemma ev_adj x : ev x -> ev (adj x).
Proof. intros Hx. rewrite Dg_adj, Hx. reflexivity. Qed.
Lemma od_adj x : od x -> od (adj x).
Proof. intros Hx. rewrite Dg_adj, Hx. apply adj_zero. Qed.
Lemma ev_Up x : ev x -> Up x == 0.
Proof. intros Hx. rewrite <- Hx. apply Up_Dg. Qed.
Lemma ev_Lo x : ev x -> Lo x == 0.
Proof. intros Hx. rewrite <- Hx. apply Lo_Dg. Qed.
Lemma od_Rp x : od (Rp x).
Proof. rewrite Dg_Rp, Sel_Dg_all. non_commutative_ring. Qed.
Lemma Up_ev_up x y : ev x -> Up y == y -> Up (x * y) == x * y.
Proof. intros Hx Hy. rewrite <- Hx, <- Hy. apply up_dg_up. Qed.
Lemma Up_up_ev x y : Up x == x -> ev y -> Up (x * y) == x * y.
Proof. intros Hx Hy. rewrite <- Hx, <- Hy. apply up_up_dg. Qed.
Lemma Up_lo_ev x y : Lo x == x -> ev y -> Up (x * y) == 0.
Proof. intros Hx Hy. rewrite <- Hx, <- Hy. rewrite <- lo_lo_dg. apply Up_Lo. Qed.
Lemma Up_ev_lo x y : ev x -> Lo y == y -> Up (x * y) == 0.
Proof. intros Hx Hy. rewrite <- Hx, <- Hy. rewrite <- lo_dg_lo. apply Up_Lo. Qed.

(* Yadj *)
Lemma Y_tb : Y == Lo X + adj (Lo X).
Proof.
  getSt "Yadj" E. fold Y X in E. change (divz (adj X + X) 2) with yy in E.
  rewrite !Hrf, Rw_zero, ring_add_0_l in E.
  set (y := Rp (adj X) + Sel (yy - Rw yy)) in E.
  assert (Ey : y == Od (adj X)).
  { unfold y. rewrite Sel_sub, Rw_Sel, !Sel_Dg_all, Rw_Dg_id, Rp_Od. non_commutative_ring. }
  assert (oy : ord 1 y) by (rewrite Ey; unfold Od; auto with ord).
  apply (marker_herm _ _ oY oy) in E. rewrite E, Ey.
  assert (E1 : Dg (Od (adj X)) == 0) by (unfold Od; rewrite am_add, Dg_Up, Dg_Lo; non_commutative_ring).
  assert (E2 : Up (Od (adj X)) == adj (Lo X)) by (unfold Od; rewrite am_add, Up_Up, Up_Lo, Up_adj; non_commutative_ring).
  rewrite E1, E2, adj_inv. non_commutative_ring.
Qed.
Lemma Y_herm : adj Y == Y.
Proof. rewrite Y_tb, adj_add, adj_inv. non_commutative_ring. Qed.
Lemma Y_od : od Y.
Proof. rewrite Y_tb, am_add, Dg_Lo, Dg_adj, Dg_Lo, adj_zero. non_commutative_ring. Qed.

(* V, as in the general wiring *)
Let arg := Y - VH - adj VH.
Lemma V_general : V == - Rp (sylv arg).
Proof. eapply MainLift.V_solved; try eassumption. exact Y_herm. Qed.
Lemma V_anti : adj V == - V.
Proof. eapply MainLift.V_anti_of; try eassumption. exact Y_herm. Qed.
Lemma V_od : od V.
Proof. rewrite V_general, am_opp. rewrite (od_Rp (sylv arg)). non_commutative_ring. Qed.

(* W and the Hermitian-declared product *)
Let F := Ud' * U'.
Let hs := hsum Ud' U'.
Lemma Dg_hs : Dg hs == hs. Proof. apply hsum_Dg. Qed.
Lemma Up_hs : Up hs == 0. Proof. rewrite <- Dg_hs. apply Up_Dg. Qed.
Lemma Lo_hs : Lo hs == 0. Proof. rewrite <- Dg_hs. apply Lo_Dg. Qed.
Lemma DgP : Dg P == hs. Proof. common MainLift.DgP. Qed.
Lemma ohs : ord 1 hs. Proof. common MainLift.ohs. Qed.
Lemma W_form : W == - half hs.
Proof.
  getSt "W" E. fold W P in E. rewrite Rp_zero, add0r in E.
  assert (Ew : Sel (divz P (-2)) == - half hs).
  { rewrite divz_m2, Sel_opp, Sel_half, Sel_Dg_all, DgP. reflexivity. }
  rewrite Ew in E.
  assert (ob : ord 1 (- half hs)) by (pose proof ohs; auto with ord).
  apply (marker_herm _ _ oW ob) in E. rewrite E.
  assert (E1 : Dg (- half hs) == - half hs) by (rewrite am_opp, (half_am (f:=Dg)), Dg_hs; reflexivity).
  assert (E2 : Up (- half hs) == 0) by (rewrite am_opp, (half_am (f:=Up)), Up_hs, half_zero; non_commutative_ring).
  rewrite E1, E2, adj_zero. non_commutative_ring.
Qed.
Lemma W_ev : ev W.
Proof. rewrite W_form, am_opp, (half_am (f:=Dg)), Dg_hs. reflexivity. Qed.

Lemma EW_form : adj W - W == half (hs - adj hs).
Proof. rewrite W_form. rewrite adj_opp, half_adj, half_sub. non_commutative_ring. Qed.
Lemma W_herm : adj W == W.
Proof. eapply MainLift.W_herm_of; try eassumption. exact V_anti. exact EW_form. Qed.
Lemma hs_full : hs == Dg F.
Proof. eapply MainLift.W_herm_of; try eassumption. exact V_anti. exact EW_form. Qed.

(* [W, V] = 0 by contraction, hence U'† U' is block diagonal *)
Let C := comm W V.
Lemma F_expand : F == W * W - V * V + C.
Proof. unfold F, C, comm. rewrite eUd', eU'. non_commutative_ring. Qed.
Lemma DgF : Dg F == W * W - V * V.
Proof.
  rewrite F_expand, am_add, Dg_sub.
  rewrite (ev_mul _ _ W_ev W_ev), (od_od _ _ V_od V_od).
  assert (EC : Dg C == 0).
  { unfold C, comm. rewrite Dg_sub, (ev_od _ _ W_ev V_od), (od_ev _ _ V_od W_ev). non_commutative_ring. }
  rewrite EC. non_commutative_ring.
Qed.
Lemma twoW : W + W == - (W * W - V * V).
Proof.
  rewrite W_form at 1 2. rewrite hs_full, DgF.
  assert (E : - half (W * W - V * V) + - half (W * W - V * V) == - (half (W * W - V * V) + half (W * W - V * V))) by non_commutative_ring.
  rewrite E, half_dbl. reflexivity.
Qed.
Lemma C_zero : C == 0.
Proof.
  apply (contraction _ _ _ oW oW).
  apply dbl_inj.
  assert (E1 : C + C == comm (W + W) V) by (unfold C, comm; non_commutative_ring).
  rewrite E1, twoW.
  assert (E2 : - half (W * C + C * W) + - half (W * C + C * W) == - (half (W * C + C * W) + half (W * C + C * W))) by non_commutative_ring.
  rewrite E2, half_dbl. unfold C, comm. non_commutative_ring.
Qed.
Lemma F_ev : F == Dg F.
Proof. rewrite DgF, F_expand, C_zero. non_commutative_ring. Qed.
Lemma W_tb : W == - half ((W - V) * (W + V)).
Proof.
  rewrite W_form at 1. rewrite hs_full, <- F_ev. unfold F. rewrite eUd', eU'. reflexivity.
Qed.

(** * Assembly *)
Hypothesis H0_S : Sel (Zc H) == Zc H.
Hypothesis S_adH0 : forall x, Sel (comm (Zc H) x) == comm (Zc H) (Sel x).
Hypothesis sylv_spec : forall y, Rp (comm (Zc H) (sylv y)) == Rp y.

Lemma Hd_ev : ev Hd.
Proof. rewrite Hd_alt. apply Dg_Sel. Qed.
Lemma H0_ev : ev (Zc H).
Proof. rewrite <- H0_S. apply Dg_Sel. Qed.
Lemma VH_od : od VH.
Proof. rewrite eVH. apply od_ev. apply V_od. apply Hd_ev. Qed.
Lemma S_vh : Sel (VH + adj VH) == 0.
Proof. rewrite Sel_Dg_all. apply od_add. apply VH_od. apply od_adj, VH_od. Qed.
Lemma hSY' : Sel Y == Sel (V * Hd + adj (V * Hd)).
Proof. rewrite <- eVH, S_vh, Sel_Dg_all. apply Y_od. Qed.
Lemma hB' : B == Sel (- half ((W - V) * B - adj ((W - V) * B) + Ho * (W + V) + adj (Ho * (W + V))))
               + Sel (V * Hd + adj (V * Hd)) - Rp ((W - V) * B).
Proof.
  rewrite eB at 1. rewrite S_vh, Rw_zero. rewrite <- eVH, S_vh. rewrite eUdB, eA, eUd', eU'. non_commutative_ring.
Qed.
Lemma hX' : X == B + Ho + Ho * (W + V).
Proof. rewrite eX at 1. rewrite eA, eU'. reflexivity. Qed.
Lemma hV' : V == - Rp (sylv (Y - V * Hd - adj (V * Hd))).
Proof. rewrite V_general at 1. unfold arg. rewrite eVH. reflexivity. Qed.
Lemma hHt' : sol "H_tilde" == Zc H + Sel (Hd + half (Ho * (W + V) + adj (Ho * (W + V)))
                                          - half ((W - V) * B + adj ((W - V) * B)) - Y).
Proof. rewrite eHt. rewrite eA, eUdB, eUd', eU'. reflexivity. Qed.

(* as in Alg/MainLift.v: each premise of a MainAlgebra theorem is the lemma of this section under the same name *)
Ltac facts := first [exact H0_S | exact Hd_S | exact Ho_S | exact H0_h | exact Hd_h | exact Ho_h | exact S_adH0
  | exact sylv_spec | exact oW | exact oV | exact W_herm | exact V_anti | exact W_tb | exact hSY' | exact hV'
  | exact hX' | exact hB' | exact sylv_P ].

Let HS := Zc H + Hd.
Let Xh := comm (W + V) HS.
Let D := X - Xh.
Let G := Dg D.
Let Dl := Up X - adj (Lo X).

Lemma g_Y_is_comm : comm V HS == Y.
Proof. eapply Y_is_comm. all: try facts. Qed.
Lemma g_twoZ : X - adj X == - ((W - V) * X) + adj X * (W + V).
Proof. eapply twoZ with (Hs := Hd) (Hr := Ho) (B := B). all: try facts. Qed.
Lemma g_twoZh : comm (W + W) HS == - ((W - V) * Xh) + adj Xh * (W + V).
Proof. eapply twoZh. all: try facts. Qed.
Lemma g_SXherm : Sel (half (adj X + X)) == Sel (V * Hd + adj (V * Hd)).
Proof. eapply SXherm with (Hr := Ho). all: try facts. Qed.

Lemma HS_ev : ev HS. Proof. apply ev_add. apply H0_ev. apply Hd_ev. Qed.
Lemma HS_herm : adj HS == HS. Proof. unfold HS. rewrite adj_add, H0_h, Hd_h. reflexivity. Qed.
Lemma cW_ev : ev (comm W HS).
Proof. unfold comm. apply ev_sub; apply ev_mul; first [apply W_ev | apply HS_ev]. Qed.
Lemma Xh_split : Xh == comm W HS + Y.
Proof. rewrite <- g_Y_is_comm. unfold Xh, comm. non_commutative_ring. Qed.
Lemma adj_cW : adj (comm W HS) == - comm W HS.
Proof. unfold comm. rewrite adj_sub, !adj_mul, HS_herm, W_herm. non_commutative_ring. Qed.
Lemma Up_Y : Up Y == adj (Lo X).
Proof. rewrite Y_tb, am_add, Up_Lo, Up_adj, Lo_Lo. non_commutative_ring. Qed.
Lemma Lo_Y : Lo Y == Lo X.
Proof. rewrite Y_tb, am_add, Lo_Lo, Lo_adj, Up_Lo, adj_zero. non_commutative_ring. Qed.
Lemma D_split : D == G + Dl.
Proof.
  unfold G, Dl. rewrite (blk_split D) at 1.
  assert (EU : Up D == Up X - adj (Lo X)).
  { unfold D. rewrite Xh_split, Up_sub, am_add, (ev_Up _ cW_ev), Up_Y. non_commutative_ring. }
  assert (EL : Lo D == 0).
  { unfold D. rewrite Xh_split, Lo_sub, am_add, (ev_Lo _ cW_ev), Lo_Y. non_commutative_ring. }
  rewrite EU, EL. non_commutative_ring.
Qed.
Lemma Dl_up : Up Dl == Dl.
Proof. unfold Dl. rewrite Up_sub, Up_Up, Up_adj, Lo_Lo. reflexivity. Qed.
Lemma Dl_od : od Dl.
Proof. unfold Dl. rewrite Dg_sub, Dg_Up, Dg_adj, Dg_Lo, adj_zero. non_commutative_ring. Qed.
Lemma aDl_lo : Lo (adj Dl) == adj Dl.
Proof. rewrite Lo_adj, Dl_up. reflexivity. Qed.
Lemma G_ev : ev G. Proof. unfold G. apply Dg_Dg. Qed.
Lemma DgX_anti : adj (Dg X) == - Dg X.
Proof.
  assert (E : Dg (adj X + X) == 0).
  { apply dbl_inj. rewrite <- (half_dbl (Dg (adj X + X))) at 1.
    assert (E0 : half (Dg (adj X + X)) == 0).
    { rewrite <- (half_am (f:=Dg)), <- Sel_Dg_all, g_SXherm, <- eVH. apply S_vh. }
    rewrite E0. rewrite <- (half_dbl (Dg (adj X + X))), E0. non_commutative_ring. }
  rewrite am_add, Dg_adj in E.
  assert (E' : adj (Dg X) == (adj (Dg X) + Dg X) - Dg X) by non_commutative_ring.
  rewrite E', E. non_commutative_ring.
Qed.
Lemma G_anti : adj G == - G.
Proof.
  unfold G, D. rewrite Xh_split, Dg_sub, am_add, cW_ev, Y_od.
  rewrite !adj_sub, adj_add, DgX_anti, adj_cW, adj_zero. non_commutative_ring.
Qed.
Lemma star : D - adj D == - ((W - V) * D) + adj D * (W + V).
Proof.
  assert (E : D - adj D == (X - adj X) - comm (W + W) HS).
  { unfold D. rewrite adj_sub, Xh_split, adj_add, adj_cW, Y_herm. unfold comm. non_commutative_ring. }
  rewrite E, g_twoZ, g_twoZh. unfold D. rewrite adj_sub. non_commutative_ring.
Qed.
Lemma adjD : adj D == - G + adj Dl.
Proof. rewrite D_split at 1. rewrite adj_add, G_anti. reflexivity. Qed.

Lemma aDl_od : od (adj Dl). Proof. apply od_adj, Dl_od. Qed.
Lemma V_split : V == Up V + Lo V.
Proof. rewrite (blk_split V) at 1. rewrite V_od. non_commutative_ring. Qed.

(* the identity [star] in terms of G and Dl, split into its block-diagonal and block-off-diagonal parts *)
Lemma star_split : G + Dl - (- G + adj Dl)
  == (- (W * G) - G * W + V * Dl + adj Dl * V) + (- (W * Dl) + V * G - G * V + adj Dl * W).
Proof. pose proof star as S. rewrite adjD in S. rewrite D_split in S. rewrite S. non_commutative_ring. Qed.
Lemma split_ev : ev (- (W * G) - G * W + V * Dl + adj Dl * V).
Proof.
  apply ev_add. apply ev_add. apply ev_sub. apply ev_opp, ev_mul. apply W_ev. apply G_ev.
  apply ev_mul. apply G_ev. apply W_ev. apply od_od. apply V_od. apply Dl_od. apply od_od. apply aDl_od. apply V_od.
Qed.
Lemma split_od : od (- (W * Dl) + V * G - G * V + adj Dl * W).
Proof.
  apply od_add. apply od_sub. apply od_add. apply od_opp, ev_od. apply W_ev. apply Dl_od.
  apply od_ev. apply V_od. apply G_ev. apply ev_od. apply G_ev. apply V_od. apply od_ev. apply aDl_od. apply W_ev.
Qed.
Lemma E_even : G + G == - (W * G) - G * W + V * Dl + adj Dl * V.
Proof.
  assert (L : Dg (G + Dl - (- G + adj Dl)) == G + G).
  { rewrite Dg_sub, !am_add, am_opp, G_ev, Dl_od, aDl_od. non_commutative_ring. }
  rewrite <- L, star_split, am_add, split_ev, split_od. non_commutative_ring.
Qed.
Lemma E_up : Dl == - (W * Dl) + Up V * G - G * Up V.
Proof.
  assert (L : Up (G + Dl - (- G + adj Dl)) == Dl).
  { rewrite Up_sub, !am_add, am_opp, (ev_Up _ G_ev), Dl_up. rewrite <- aDl_lo, Up_Lo. non_commutative_ring. }
  etransitivity; [symmetry; exact L|].
  rewrite star_split, am_add, (ev_Up _ split_ev).
  assert (EVG : V * G == Up V * G + Lo V * G) by (rewrite V_split at 1; non_commutative_ring).
  assert (EGV : G * V == G * Up V + G * Lo V) by (rewrite V_split at 1; non_commutative_ring).
  rewrite EVG, EGV, !am_add, Up_sub, !am_add, am_opp.
  rewrite (Up_ev_up _ _ W_ev Dl_up), (Up_up_ev _ _ (Up_Up V) G_ev), (Up_lo_ev _ _ (Lo_Lo V) G_ev).
  rewrite (Up_ev_up _ _ G_ev (Up_Up V)), (Up_ev_lo _ _ G_ev (Lo_Lo V)), (Up_lo_ev _ _ aDl_lo W_ev).
  non_commutative_ring.
Qed.
Lemma GD_step k : ord k G /\ ord k Dl -> ord (S k) G /\ ord (S k) Dl.
Proof.
  intros [HG HD]. split.
  - rewrite <- (half_twice G). apply ord_half. rewrite E_even.
    apply ord_add. apply ord_add. apply ord_sub. apply ord_opp. apply ord_mul_l. apply oW. exact HG.
    apply ord_mul_r. exact HG. apply oW. apply ord_mul_l. apply oV. exact HD.
    apply ord_mul_r. apply ord_adj, HD. apply oV.
  - assert (Hr : ord (S k) (- (W * Dl) + Up V * G - G * Up V)).
    { apply ord_sub. apply ord_add. apply ord_opp. apply ord_mul_l. apply oW. exact HD.
      apply ord_mul_l. apply ord_Up, oV. exact HG. apply ord_mul_r. exact HG. apply ord_Up, oV. }
    rewrite <- E_up in Hr. exact Hr.
Qed.
Lemma GD_all k : ord k G /\ ord k Dl.
Proof. induction k as [|k IH]. split; apply ord_O. apply GD_step. exact IH. Qed.
Lemma hXc' : X == comm (W + V) HS.
Proof.
  assert (EG : G == 0) by (apply ord_sep; intros k; apply (GD_all k)).
  assert (ED : Dl == 0) by (apply ord_sep; intros k; apply (GD_all k)).
  assert (E : D == 0) by (rewrite D_split, EG, ED; non_commutative_ring).
  assert (E' : X == D + Xh) by (unfold D; non_commutative_ring).
  rewrite E', E. fold Xh. non_commutative_ring.
Qed.

Ltac facts2 := first [exact hXc' | exact hHt' | facts].
Let Ufull := sol "U".  Let Udfull := sol "U†".  Let Htl := sol "H_tilde".

Theorem tb_unitary_l : Udfull * Ufull == 1.
Proof. unfold Udfull, Ufull. rewrite eU, eUd, eU', eUd'. eapply unitary. exact W_tb. Qed.
Theorem tb_unitary_r : Ufull * Udfull == 1.
Proof. unfold Udfull, Ufull. rewrite eU, eUd, eU', eUd'. eapply unitary_r_c. all: try facts2. Qed.
Theorem tb_adjoint : adj Ufull == Udfull.
Proof. eapply MainLift.adjoint_of; try eassumption. exact W_herm. exact V_anti. Qed.
Theorem tb_kept : Sel (Udfull * H * Ufull) == Htl.
Proof.
  unfold Udfull, Ufull, Htl. rewrite eU, eUd, eU', eUd'. rewrite H_split at 1.
  eapply kept_c. all: try facts2.
Qed.
Theorem tb_eliminated : Rp (Udfull * H * Ufull) == 0.
Proof.
  unfold Udfull, Ufull. rewrite eU, eUd, eU', eUd'. rewrite H_split at 1.
  eapply eliminated_c. all: try facts2.
Qed.
Theorem tb_Ht_herm : adj Htl == Htl.
Proof. eapply MainLift.Ht_herm_of; try eassumption. exact tb_adjoint. exact tb_kept. Qed.
Theorem tb_gauge : Sel (half ((Ufull - 1) - adj (Ufull - 1))) == 0.
Proof.
  eapply MainLift.gauge_of; try eassumption. exact W_herm. exact V_anti.
  change (Sel V == 0). rewrite hV', Sel_opp, Sel_Rp. non_commutative_ring.
Qed.

End Common.

(** Uniqueness of a similarity transformation in a fixed gauge.

    [pair_stepD], [pair_stepE]: two pairs (1 + A_i, 1 + B_i), each an inverse pair that eliminates the selected
    part of H, whose differences A_i - B_i have the same kept part, agree order by order (given
    that the Sylvester operator x |-> [H0, x] is injective on eliminated elements, witnessed by a
    left inverse).  The Hermitian case B = adj A is the least-action uniqueness below; the general
    one is Alg/UniqueNH.v. *)
Require Import Ncring Ncring_tac Setoid Morphisms ZArith.
From PV.Base Require Import Classes AlgLemmas.
Set Implicit Arguments.

Section Pair.
Context {T : Type} `{Rg : Ring T} {BA : BlockAlg T}.
Variable H : T.
Let H0 := Zc H.
Let H' := Pos H.
Hypothesis S_adH0 : forall x, Sel (comm H0 x) == comm H0 (Sel x).
Variable sylv : T -> T.
Hypothesis sylv_ord : forall k y, ord k y -> ord k (sylv y).
Hypothesis sylv_left : forall x, Rp (sylv (comm H0 (Rp x))) == Rp x.

Variables A1 B1 A2 B2 : T.
Hypothesis oB1 : ord 1 B1.
Hypothesis oA2 : ord 1 A2.
Hypothesis inv1 : B1 + A1 + B1 * A1 == 0.
Hypothesis inv2 : B2 + A2 + B2 * A2 == 0.
Hypothesis elim1 : Rp (H + B1 * H + H * A1 + B1 * H * A1) == 0.
Hypothesis elim2 : Rp (H + B2 * H + H * A2 + B2 * H * A2) == 0.
Let D := A1 - A2.   Let E := B1 - B2.
Hypothesis gauge : Sel (D - E) == 0.

Variable k : nat.
Hypothesis HD : ord k D.
Hypothesis HE : ord k E.

Lemma step_sum : ord (S k) (E + D).
Proof.
  assert (Eq : E + D == - (B1 * D + E * A2)).
  { assert (E0 : E + D + (B1 * D + E * A2) == (B1 + A1 + B1 * A1) - (B2 + A2 + B2 * A2)) by (unfold D, E; non_commutative_ring).
    rewrite inv1, inv2 in E0.
    assert (E1 : E + D == (E + D + (B1 * D + E * A2)) - (B1 * D + E * A2)) by non_commutative_ring.
    rewrite E1, E0. non_commutative_ring. }
  rewrite Eq. apply ord_opp, ord_add.
  apply ord_mul_l. apply oB1. exact HD. apply ord_mul_r. exact HE. apply oA2.
Qed.

(* the difference of the two elimination conditions is [H0, D] up to terms of higher order *)
Lemma diff_id (h h0 h' b1 b2 a1 a2 : T) : h == h0 + h' ->
  (h + b1 * h + h * a1 + b1 * h * a1) - (h + b2 * h + h * a2 + b2 * h * a2)
  == comm h0 (a1 - a2) + ((b1 - b2) * h' + h' * (a1 - a2) + b1 * (h * (a1 - a2)) + (b1 - b2) * h * a2
                          + ((b1 - b2) + (a1 - a2)) * h0).
Proof.
  intros E0.
  assert (E1 : (h + b1 * h + h * a1 + b1 * h * a1) - (h + b2 * h + h * a2 + b2 * h * a2)
               == ((b1 - b2) * h + h * (a1 - a2)) + (b1 * (h * (a1 - a2)) + (b1 - b2) * h * a2)) by non_commutative_ring.
  assert (E2 : (b1 - b2) * h + h * (a1 - a2) == (b1 - b2) * (h0 + h') + (h0 + h') * (a1 - a2)) by (rewrite E0; reflexivity).
  rewrite E1, E2. unfold comm. non_commutative_ring.
Qed.
Lemma step_comm : ord (S k) (Rp (comm H0 D)).
Proof.
  set (rest := E * H' + H' * D + B1 * (H * D) + E * H * A2 + (E + D) * H0).
  assert (E1 : (H + B1 * H + H * A1 + B1 * H * A1) - (H + B2 * H + H * A2 + B2 * H * A2) == comm H0 D + rest).
  { apply diff_id. unfold H', Pos, H0. non_commutative_ring. }
  assert (E2 : Rp (comm H0 D) == - Rp rest).
  { assert (E0 : Rp (comm H0 D + rest) == 0) by (rewrite <- E1, Rp_sub, elim1, elim2; non_commutative_ring).
    rewrite Rp_add in E0.
    assert (E3 : Rp (comm H0 D) == (Rp (comm H0 D) + Rp rest) - Rp rest) by non_commutative_ring.
    rewrite E3, E0. non_commutative_ring. }
  rewrite E2. apply ord_opp, ord_Rp. unfold rest.
  apply ord_add. apply ord_add. apply ord_add. apply ord_add.
  - apply ord_mul_r. exact HE. apply ord1_Pos.
  - apply ord_mul_l. apply ord1_Pos. exact HD.
  - apply ord_mul_l. apply oB1. apply ord_mul_any_r, HD.
  - apply ord_mul_r. apply ord_mul_any_l, HE. apply oA2.
  - apply ord_mul_any_l, step_sum.
Qed.

Lemma pair_stepD : ord (S k) D.
Proof.
  rewrite (split_SR D). apply ord_add.
  - assert (E1 : Sel D == half (Sel (E + D))).
    { rewrite <- (half_twice (Sel D)). apply half_P.
      assert (Ex : Sel D + Sel D == Sel (E + D) + Sel (D - E)) by (rewrite <- !Sel_add; apply am_P; non_commutative_ring).
      rewrite Ex, gauge. non_commutative_ring. }
    rewrite E1. apply ord_half, ord_Sel, step_sum.
  - rewrite <- sylv_left. apply ord_Rp, sylv_ord.
    assert (Ec : comm H0 (Rp D) == Rp (comm H0 D)) by (unfold Rp; rewrite S_adH0; unfold comm; non_commutative_ring).
    rewrite Ec. apply step_comm.
Qed.
Lemma pair_stepE : ord (S k) E.
Proof.
  assert (Ex : E == (E + D) - D) by non_commutative_ring. rewrite Ex.
  apply ord_sub. apply step_sum. apply pair_stepD.
Qed.
End Pair.

(** Least-action uniqueness: a unitary that eliminates the selected part of H and whose
    anti-Hermitian part has no kept element is unique. *)
Section Unique.
Context {T : Type} `{Rg : Ring T} {BA : BlockAlg T}.
Variable H : T.
Let H0 := Zc H.
Hypothesis S_adH0 : forall x, Sel (comm H0 x) == comm H0 (Sel x).
Variable sylv : T -> T.
Hypothesis sylv_ord : forall k y, ord k y -> ord k (sylv y).
Hypothesis sylv_left : forall x, Rp (sylv (comm H0 (Rp x))) == Rp x.

Definition least_action (U : T) : Prop :=
  ord 1 (U - 1) /\ adj U * U == 1 /\ Rp (adj U * H * U) == 0
  /\ Sel (half ((U - 1) - adj (U - 1))) == 0.

Variables U1 U2 : T.
Hypothesis L1 : least_action U1.
Hypothesis L2 : least_action U2.

Let A := U1 - 1.  Let B := U2 - 1.  Let D := A - B.

(* the conditions on U = 1 + A in terms of A *)
Lemma la_inv U : least_action U -> adj (U - 1) + (U - 1) + adj (U - 1) * (U - 1) == 0.
Proof.
  intros (_ & h & _). rewrite adj_sub, adj_one.
  assert (E : adj U - 1 + (U - 1) + (adj U - 1) * (U - 1) == adj U * U - 1) by non_commutative_ring.
  rewrite E, h. non_commutative_ring.
Qed.
Lemma la_elim U : least_action U ->
  Rp (H + adj (U - 1) * H + H * (U - 1) + adj (U - 1) * H * (U - 1)) == 0.
Proof.
  intros (_ & _ & h & _). rewrite adj_sub, adj_one.
  assert (E : H + (adj U - 1) * H + H * (U - 1) + (adj U - 1) * H * (U - 1) == adj U * H * U) by non_commutative_ring.
  rewrite E. exact h.
Qed.
Lemma la_gauge U : least_action U -> Sel ((U - 1) - adj (U - 1)) == 0.
Proof.
  intros (_ & _ & _ & h). rewrite Sel_half in h.
  rewrite <- (half_dbl (Sel _)), h. non_commutative_ring.
Qed.

Section Step.
Variable k : nat.
Hypothesis HD : ord k D.

Lemma step : ord (S k) D.
Proof.
  assert (oA : ord 1 A) by apply L1. assert (oB : ord 1 B) by apply L2.
  apply (pair_stepD H S_adH0 sylv sylv_ord sylv_left A (adj A) B (adj B)).
  - apply ord_adj, oA.
  - exact oB.
  - apply la_inv, L1.
  - apply la_inv, L2.
  - apply la_elim, L1.
  - apply la_elim, L2.
  - assert (E : A - B - (adj A - adj B) == (A - adj A) - (B - adj B)) by non_commutative_ring.
    rewrite E, Sel_sub. unfold A, B. rewrite (la_gauge L1), (la_gauge L2). non_commutative_ring.
  - exact HD.
  - rewrite <- adj_sub. apply ord_adj, HD.
Qed.
End Step.

Theorem least_action_unique : U1 == U2.
Proof.
  assert (E : D == 0) by (apply ord_eq_zero; exact step).
  assert (E' : U1 == D + U2) by (unfold D, A, B; non_commutative_ring).
  rewrite E', E. non_commutative_ring.
Qed.

End Unique.

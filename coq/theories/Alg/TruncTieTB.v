(** Two-block counterpart of Alg/TruncTie.v (two_block_optimized = True: block labels 0 and 1 only, no
    fully_diagonalize): [check_alg ... true ...] and [inputs_ok && tb_ok] imply the conclusions of
    C01/C02/C03 for the implementation's tables up to total order N. *)
Require Import List ZArith Arith Bool String Ncring Ncring_tac Setoid Morphisms Lia.
From PV.Base Require Import Classes AlgLemmas.
From PV.Series Require Import MultiIndex Cauchy Lift Inst ExecIdx Exec SylvInst Wiring.
From PV.Block Require Import Mat Masks CoefAlg BlockSel ExecScalar QLemmas QInst.
From PV.DSL Require Import Syntax Sem.
From PV.Gen Require Import Algorithms_gen.
From PV.Alg Require Import MainLift MainCorrect SemExec SemExecSound Trunc TruncMain GqInv TruncTie.
Open Scope string_scope.

Section TieTB.
Variables D k N : nat.
Variable bl : list nat.
Variable msk : list (list bool).
Variable cb : list bool.
Variable El : list gq.
Variable sols : list (string * tser gq).

Let blk := mk_blk bl.
Let keep := mk_keep bl msk.
Let cm := mk_cm bl cb.
Let ksym := mk_keep_sym bl msk.
Let kblk := mk_keep_blk bl msk.
Let cblk := mk_cm_blk bl cb.

Local Notation TT := (T D k gq).
Local Notation BA0 := (BAi D k bl msk cb).
Local Hint Extern 0 (BlockAlg _) => exact BA0 : typeclass_instances.
Local Notation sol := (asol D k sols).
Local Notation rfl := (arflag D k bl msk cb).
Local Notation fen := (afenv D k El).
Local Notation M := (S N).
Local Notation hst := (hsum_trunc_i D k N bl msk cb).
Local Notation Ef := (Efun El).

Definition two_ok : bool := forallb (fun p => Nat.ltb (blk p) 2) (range D).
Definition full_ok : bool :=
  forallb (fun p => forallb (fun q => Bool.eqb (keep p q) (Nat.eqb (blk p) (blk q))) (range D)) (range D).
Definition cm_ok : bool := forallb cm (range D).
Definition tb_ok : bool := two_ok && full_ok && cm_ok.

Hypothesis Hcheck : check_alg D k N bl msk cb El true sols main_alg = true.
Hypothesis Hin : inputs_ok D k N bl msk cb El sols = true.
Hypothesis Htb : tb_ok = true.

Lemma tb_parts : two_ok = true /\ full_ok = true /\ cm_ok = true.
Proof.
  pose proof Htb as H. unfold tb_ok in H. apply andb_prop in H. destruct H as [H H3].
  apply andb_prop in H. destruct H as [H1 H2]. repeat split; assumption.
Qed.
Lemma two_blocks : forall p, (p < D)%nat -> (blk p < 2)%nat.
Proof.
  destruct tb_parts as (H & _). unfold two_ok in H. rewrite forallb_forall in H.
  intros p Hp. apply Nat.ltb_lt. apply H. apply in_range. exact Hp.
Qed.
Lemma keep_full : forall p q, (p < D)%nat -> (q < D)%nat -> keep p q = Nat.eqb (blk p) (blk q).
Proof.
  destruct tb_parts as (_ & H & _). unfold full_ok in H. rewrite forallb_forall in H.
  intros p q Hp Hq. specialize (H p (proj2 (in_range D p) Hp)). rewrite forallb_forall in H.
  specialize (H q (proj2 (in_range D q) Hq)). apply Bool.eqb_prop. exact H.
Qed.
Lemma cm_all : forall p, (p < D)%nat -> cm p = true.
Proof.
  destruct tb_parts as (_ & _ & H). unfold cm_ok in H. rewrite forallb_forall in H.
  intros p Hp. apply H. apply in_range. exact Hp.
Qed.

Lemma b_Sel_Dg : forall x : TT, Sel x == Dg x.
Proof.
  intros x n _ p q Hp Hq.
  change (Sel x n p q) with (if keep p q then x n p q else 0).
  change (Dg x n p q) with (if Nat.eqb (blk p) (blk q) then x n p q else 0).
  rewrite (keep_full p q Hp Hq). reflexivity.
Qed.
Lemma b_Rw_Dg : forall x : TT, Rw (Dg x) == Dg x.
Proof.
  intros x n _ p q Hp Hq.
  change (Rw (Dg x) n p q) with (if cm p then Dg x n p q else 0).
  rewrite (cm_all p Hp). reflexivity.
Qed.
Lemma b_odd_odd : forall x y : TT, Dg (Od x * Od y) == Od x * Od y.
Proof.
  apply odd_odd_of.
  - exact (Up_Up_zero blk keep cm ksym kblk cblk two_blocks).
  - exact (Lo_Lo_zero blk keep cm ksym kblk cblk two_blocks).
  - exact (Dg_Up_Lo blk keep cm ksym kblk cblk two_blocks).
  - exact (Dg_Lo_Up blk keep cm ksym kblk cblk two_blocks).
Qed.

Lemma trunc_solution_tb :
  @solution TT _ _ _ _ _ _ (teq M) (trunc_ops M) (BAt M hst) (gflag_of true) rfl fen sol main_alg.
Proof. exact (check_solution D k N bl msk cb El sols true main_alg Hcheck). Qed.

Lemma Wtb : @wiring_tb TT _ _ _ _ _ _ (teq M) (trunc_ops M) (BAt M hst) rfl fen (sol "H").
Proof.
  apply (trunc_wiring_tb M hst _ _ _ (Wt D k N bl msk cb El sols Hin) b_Sel_Dg b_Rw_Dg b_odd_odd).
  - exact (Up_Dg_Up blk keep cm ksym kblk cblk).
  - exact (Up_Up_Dg blk keep cm ksym kblk cblk).
  - exact (Lo_Dg_Lo blk keep cm ksym kblk cblk).
  - exact (Lo_Lo_Dg blk keep cm ksym kblk cblk).
Qed.

Theorem tie_conclusions_tb :
  eqN D k N (Sel (sol "U†" * sol "H" * sol "U")) (sol "H_tilde") /\
  eqN D k N (Rp (sol "U†" * sol "H" * sol "U")) 0 /\
  eqN D k N (sol "U†" * sol "U") 1 /\
  eqN D k N (sol "U" * sol "U†") 1 /\
  eqN D k N (adj (sol "U")) (sol "U†") /\
  eqN D k N (adj (sol "H_tilde")) (sol "H_tilde") /\
  eqN D k N (Sel (half ((sol "U" - 1) - adj (sol "U" - 1)))) 0.
Proof.
  refine (Logic.conj _ (Logic.conj _ (Logic.conj _ (Logic.conj _ (Logic.conj _ (Logic.conj _ _)))))); apply (teq_eqN D k N bl msk cb).
  - exact (@kept_tb TT _ _ _ _ _ _ (teq M) (trunc_ops M) (Rgt M) (BAt M hst) rfl fen sol trunc_solution_tb Wtb).
  - exact (@eliminated_tb TT _ _ _ _ _ _ (teq M) (trunc_ops M) (Rgt M) (BAt M hst) rfl fen sol trunc_solution_tb Wtb).
  - exact (@unitary_l_tb TT _ _ _ _ _ _ (teq M) (trunc_ops M) (Rgt M) (BAt M hst) rfl fen sol trunc_solution_tb Wtb).
  - exact (@unitary_r_tb TT _ _ _ _ _ _ (teq M) (trunc_ops M) (Rgt M) (BAt M hst) rfl fen sol trunc_solution_tb Wtb).
  - exact (@adjoint_tb TT _ _ _ _ _ _ (teq M) (trunc_ops M) (Rgt M) (BAt M hst) rfl fen sol trunc_solution_tb Wtb).
  - exact (@Ht_herm_tb TT _ _ _ _ _ _ (teq M) (trunc_ops M) (Rgt M) (BAt M hst) rfl fen sol trunc_solution_tb Wtb).
  - exact (@gauge_tb TT _ _ _ _ _ _ (teq M) (trunc_ops M) (Rgt M) (BAt M hst) rfl fen sol trunc_solution_tb Wtb).
Qed.
End TieTB.

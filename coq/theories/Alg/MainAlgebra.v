(** Correctness of the Hermitian recurrences in an arbitrary [BlockAlg], from the SYMMETRIC
    form of the defining equations (hypotheses hW ... hHt).  Alg/MainLift.v derives these
    hypotheses from the semantics of the generated term [main_alg]. *)
Require Import Ncring Ncring_tac Setoid Morphisms ZArith.
From PV.Base Require Import Classes AlgLemmas.
Set Implicit Arguments.

Section Main.
Context {T : Type} `{Rg : Ring T} {BA : BlockAlg T}.

Variables H0 Hs Hr : T.
Hypothesis H0_S : Sel H0 == H0.  Hypothesis Hs_S : Sel Hs == Hs.  Hypothesis Hr_S : Sel Hr == 0.
Hypothesis H0_h : adj H0 == H0. Hypothesis Hs_h : adj Hs == Hs. Hypothesis Hr_h : adj Hr == Hr.
Hypothesis S_adH0 : forall x, Sel (comm H0 x) == comm H0 (Sel x).
Variable sylv : T -> T.
Context {sylv_P : Proper (_==_ ==> _==_) sylv}.
Hypothesis sylv_spec : forall y, Rp (comm H0 (sylv y)) == Rp y.

Variables W V X B Yadj Ht : T.
Let U := W + V.  Let Ud := W - V.
Let A := Hr * U. Let UdB := Ud * B. Let VH := V * Hs.
Hypothesis oW : ord 1 W. Hypothesis oV : ord 1 V.
Hypothesis hWh : adj W == W. Hypothesis hVa : adj V == - V.
Hypothesis hW : W == - half (Ud * U).
Hypothesis hV : V == - Rp (sylv (Yadj - VH - adj VH)).
Hypothesis hX : X == B + Hr + A.
Hypothesis hB : B == Sel (- half (UdB - adj UdB + A + adj A)) + Sel (VH + adj VH) - Rp UdB.
Hypothesis hHt : Ht == H0 + Sel (Hs + half (A + adj A) - half (UdB + adj UdB) - Yadj).

Lemma oU : ord 1 U. Proof. apply ord_add; assumption. Qed.
Lemma oUd : ord 1 Ud. Proof. apply ord_sub; assumption. Qed.
Lemma contr : forall D, D == - half (Ud * D + D * U) -> D == 0.
Proof. intros D. apply contraction. apply oUd. apply oU. Qed.

Lemma Ud_adj : adj U == Ud.
Proof. unfold U, Ud. rewrite adj_add, hWh, hVa. non_commutative_ring. Qed.

Lemma unitary : (1 + Ud) * (1 + U) == 1.
Proof.
  assert (E : (1+Ud)*(1+U) == 1 + (W + W) + Ud*U) by (unfold U, Ud; non_commutative_ring).
  rewrite E. rewrite <- (half_dbl (Ud*U)).
  assert (E2: W + W == - half (Ud*U) + - half (Ud*U)) by (rewrite <- hW; reflexivity).
  rewrite E2. non_commutative_ring.
Qed.

Lemma Rp_adH0 x : Rp (comm H0 x) == comm H0 (Rp x).
Proof. unfold Rp. rewrite S_adH0. unfold comm. non_commutative_ring. Qed.
Lemma adj_U : adj Ud == U.
Proof. rewrite <- Ud_adj. apply adj_inv. Qed.
Lemma adj_A : adj A == Ud * Hr.
Proof. unfold A. rewrite adj_mul, Hr_h, Ud_adj. reflexivity. Qed.
Lemma adj_UdB : adj UdB == adj B * U.
Proof. unfold UdB. rewrite adj_mul, adj_U. reflexivity. Qed.
Lemma adj_VH : adj VH == - (Hs * V).
Proof. unfold VH. rewrite adj_mul, Hs_h, hVa. non_commutative_ring. Qed.
Lemma VH_comm : VH + adj VH == comm V Hs.
Proof. rewrite adj_VH. unfold VH, comm. non_commutative_ring. Qed.

Let HS := H0 + Hs.
Lemma HS_h : adj HS == HS. Proof. unfold HS. rewrite adj_add, H0_h, Hs_h. reflexivity. Qed.

Lemma SV : Sel V == 0.
Proof. rewrite hV, Sel_opp, Sel_Rp. non_commutative_ring. Qed.

(* S-part of B and of Yadj *)
Let P := Sel UdB. Let Q := Sel A.
Lemma SB : Sel B == - half (P - adj P + Q + adj Q) + Sel (VH + adj VH).
Proof.
  rewrite hB at 1. rewrite Sel_sub, Sel_add, !Sel_idem, Sel_Rp, Sel_opp, Sel_half.
  rewrite !Sel_add, Sel_sub, !Sel_adj. fold P Q. non_commutative_ring.
Qed.
Lemma RB : Rp B == - Rp UdB.
Proof.
  rewrite hB at 1. rewrite Rp_sub, Rp_add, !Rp_Sel, Rp_Rp. non_commutative_ring.
Qed.
Lemma herm_VH : adj (VH + adj VH) == VH + adj VH.
Proof. rewrite adj_add, adj_inv. non_commutative_ring. Qed.

Lemma SX : Sel X == Sel B + Q.
Proof. rewrite hX at 1. rewrite !Sel_add, Hr_S. fold Q. non_commutative_ring. Qed.

Lemma SXherm : Sel (half (adj X + X)) == Sel (VH + adj VH).
Proof.
  rewrite Sel_half, Sel_add, Sel_adj, SX, SB.
  rewrite !adj_add, adj_opp, half_adj, !adj_add, adj_sub, !adj_inv.
  rewrite <- Sel_adj, herm_VH.
  set (K := Sel (VH + adj VH)).
  assert (E: - half (adj P - P + adj Q + Q) + K + adj Q + (- half (P - adj P + Q + adj Q) + K + Q)
             == (K + K) + (Q + adj Q) - (half (adj P - P + adj Q + Q) + half (P - adj P + Q + adj Q)))
    by non_commutative_ring.
  rewrite E. rewrite <- half_add.
  assert (E2: adj P - P + adj Q + Q + (P - adj P + Q + adj Q) == (Q + adj Q) + (Q + adj Q)) by non_commutative_ring.
  rewrite E2, half_twice.
  assert (E3: K + K + (Q + adj Q) - (Q + adj Q) == K + K) by non_commutative_ring.
  rewrite E3. apply half_twice.
Qed.
(* first of the two facts about Yadj that depend on the wiring (general / two-block) *)
Hypothesis hSY : Sel Yadj == Sel (VH + adj VH).
(* Step 1: hermitian part *)
Lemma commVH0 : comm V H0 == Rp Yadj - Rp (comm V Hs).
Proof.
  assert (E: comm V H0 == - comm H0 V) by (unfold comm; non_commutative_ring).
  rewrite E. rewrite hV at 1.
  assert (E1: comm H0 (- Rp (sylv (Yadj - VH - adj VH))) == - comm H0 (Rp (sylv (Yadj - VH - adj VH))))
    by (unfold comm; non_commutative_ring).
  rewrite E1, <- Rp_adH0, sylv_spec.
  assert (E2: Yadj - VH - adj VH == Yadj - (VH + adj VH)) by non_commutative_ring.
  rewrite E2, VH_comm. unfold Rp. rewrite !Sel_sub. non_commutative_ring.
Qed.
Lemma Y_is_comm : comm V HS == Yadj.
Proof.
  assert (E: comm V HS == comm V H0 + comm V Hs) by (unfold comm, HS; non_commutative_ring).
  rewrite E, commVH0. rewrite (split_SR Yadj) at 2. rewrite hSY, VH_comm.
  unfold Rp. non_commutative_ring.
Qed.

(* Step 2: antihermitian part and contraction *)
Lemma BmadjB : B - adj B == - (UdB - adj UdB).
Proof.
  rewrite (split_SR B) at 1. rewrite (split_SR (adj B)).
  rewrite Sel_adj, Rp_adj, SB, RB.
  rewrite !adj_add, !adj_opp, half_adj, !adj_add, adj_sub, !adj_inv, <- Sel_adj, herm_VH, <- Rp_adj.
  set (K := Sel (VH + adj VH)).
  assert (E : - half (P - adj P + Q + adj Q) + K + - Rp UdB - (- half (adj P - P + adj Q + Q) + K + - Rp (adj UdB))
          == (half (adj P - P + adj Q + Q) - half (P - adj P + Q + adj Q)) - (Rp UdB - Rp (adj UdB))) by non_commutative_ring.
  rewrite E, <- half_sub.
  assert (E2: adj P - P + adj Q + Q - (P - adj P + Q + adj Q) == (adj P - P) + (adj P - P)) by non_commutative_ring.
  rewrite E2, half_twice. unfold P. rewrite <- Sel_adj. unfold Rp. non_commutative_ring.
Qed.

Let Xh := comm U HS.
Lemma adj_Xh : adj Xh == - comm Ud HS.
Proof. unfold Xh, comm. rewrite adj_sub, !adj_mul, HS_h, Ud_adj. non_commutative_ring. Qed.

Lemma twoZ : X - adj X == - (Ud * X) + adj X * U.
Proof.
  rewrite hX. rewrite !adj_add, Hr_h.
  assert (E: B + Hr + A - (adj B + Hr + adj A) == (B - adj B) + (A - adj A)) by non_commutative_ring.
  rewrite E, BmadjB, adj_UdB, adj_A. unfold UdB, A. non_commutative_ring.
Qed.
Lemma unit' : Ud + U + Ud * U == 0.
Proof.
  assert (E: Ud + U + Ud*U == (1+Ud)*(1+U) - 1) by non_commutative_ring.
  rewrite E, unitary. non_commutative_ring.
Qed.
Lemma twoZh : comm (W+W) HS == - (Ud * Xh) + adj Xh * U.
Proof.
  assert (E: W + W == - (Ud * U)).
  { assert (E0: W + W == Ud + U) by (unfold U, Ud; non_commutative_ring).
    rewrite E0. assert (E1: Ud + U == (Ud + U + Ud*U) - Ud*U) by non_commutative_ring.
    rewrite E1, unit'. non_commutative_ring. }
  rewrite E, adj_Xh. unfold Xh, comm. non_commutative_ring.
Qed.
(* second fact: the claim X = [U', H_0 + H'_S], proved per wiring *)
Hypothesis hXc : X == comm U HS.

(* Step 3: similarity *)
Let Htot := (1 + Ud) * (HS + Hr) * (1 + U).
Lemma Htot_eq : Htot == HS - B - UdB.
Proof.
  assert (E: Htot == HS + (Ud + U + Ud*U) * HS - comm U HS - Ud * comm U HS + (1+Ud)*Hr*(1+U))
    by (unfold Htot, comm; non_commutative_ring).
  rewrite E, unit', <- hXc. rewrite hX at 1 2.
  assert (E2: (1 + Ud) * Hr * (1 + U) == Hr + A + Ud*Hr + Ud * A) by (unfold A; non_commutative_ring).
  rewrite E2. unfold UdB, A. non_commutative_ring.
Qed.
Theorem eliminated_c : Rp Htot == 0.
Proof.
  rewrite Htot_eq. unfold Rp at 1. rewrite !Sel_sub. 
  assert (E: HS - B - UdB - (Sel HS - Sel B - Sel UdB) == (HS - Sel HS) - Rp B - Rp UdB) by (unfold Rp; non_commutative_ring).
  rewrite E, RB. unfold HS. rewrite Sel_add, H0_S, Hs_S. non_commutative_ring.
Qed.
Theorem kept_c : Sel Htot == Ht.
Proof.
  rewrite Htot_eq, hHt, !Sel_sub, SB. unfold HS. rewrite !Sel_add, H0_S, Hs_S.
  rewrite ?Sel_sub, ?Sel_half, ?Sel_add, ?Sel_adj, hSY, ?Hs_S. fold P Q.
  set (K := Sel (VH + adj VH)).
  rewrite ?half_add, ?half_sub.
  assert (EK : K == Sel VH + adj (Sel VH)) by (unfold K; rewrite Sel_add, Sel_adj; reflexivity).
  rewrite EK. rewrite <- (half_dbl P) at 3. non_commutative_ring.
Qed.

(* U U† = 1 as well: [W,V] = 0 by contraction *)
Lemma WV_comm : comm W V == 0.
Proof.
  apply contr.
  assert (E2 : W + W == - (Ud * U)).
  { rewrite hW at 1 2.
    assert (E : - half (Ud * U) + - half (Ud * U) == - (half (Ud * U) + half (Ud * U))) by non_commutative_ring.
    rewrite E, half_dbl. reflexivity. }
  assert (E3 : comm W V + comm W V == comm (W + W) V) by (unfold comm; non_commutative_ring).
  apply dbl_inj. rewrite E3, E2.
  assert (E4 : - half (Ud * comm W V + comm W V * U) + - half (Ud * comm W V + comm W V * U)
               == - (half (Ud * comm W V + comm W V * U) + half (Ud * comm W V + comm W V * U))) by non_commutative_ring.
  rewrite E4, half_dbl. unfold comm, Ud, U. non_commutative_ring.
Qed.
Theorem unitary_r_c : (1 + U) * (1 + Ud) == 1.
Proof.
  assert (E : (1 + U) * (1 + Ud) == (1 + Ud) * (1 + U) - (comm W V + comm W V)) by (unfold comm, U, Ud; non_commutative_ring).
  rewrite E, unitary, WV_comm. non_commutative_ring.
Qed.
Theorem gauge_c : Sel V == 0.
Proof. exact SV. Qed.
Theorem Htot_herm_c : adj Htot == Htot.
Proof.
  unfold Htot. rewrite !adj_mul, !adj_add, adj_one, Ud_adj, adj_U, HS_h, Hr_h. non_commutative_ring.
Qed.
Theorem Ht_herm_c : adj Ht == Ht.
Proof. rewrite <- kept_c, <- Sel_adj, Htot_herm_c. reflexivity. Qed.
End Main.

(** General wiring: Yadj is the Hermitian part of X. *)
Section GeneralY.
Context {T : Type} `{Rg : Ring T} {BA : BlockAlg T}.
Variables H0 Hs Hr : T.
Hypothesis H0_S : Sel H0 == H0.  Hypothesis Hs_S : Sel Hs == Hs.  Hypothesis Hr_S : Sel Hr == 0.
Hypothesis H0_h : adj H0 == H0. Hypothesis Hs_h : adj Hs == Hs. Hypothesis Hr_h : adj Hr == Hr.
Hypothesis S_adH0 : forall x, Sel (comm H0 x) == comm H0 (Sel x).
Variable sylv : T -> T.
Context {sylv_P : Proper (_==_ ==> _==_) sylv}.
Hypothesis sylv_spec : forall y, Rp (comm H0 (sylv y)) == Rp y.
Variables W V X B Yadj Ht : T.
Let U := W + V.  Let Ud := W - V.
Let A := Hr * U. Let UdB := Ud * B. Let VH := V * Hs.
Hypothesis oW : ord 1 W. Hypothesis oV : ord 1 V.
Hypothesis hWh : adj W == W. Hypothesis hVa : adj V == - V.
Hypothesis hW : W == - half (Ud * U).
Hypothesis hYadj : Yadj == half (adj X + X).
Hypothesis hV : V == - Rp (sylv (Yadj - VH - adj VH)).
Hypothesis hX : X == B + Hr + A.
Hypothesis hB : B == Sel (- half (UdB - adj UdB + A + adj A)) + Sel (VH + adj VH) - Rp UdB.
Hypothesis hHt : Ht == H0 + Sel (Hs + half (A + adj A) - half (UdB + adj UdB) - Yadj).
Let HS := H0 + Hs.

Lemma gen_hSY : Sel Yadj == Sel (VH + adj VH).
Proof. rewrite hYadj. eapply SXherm; [exact Hr_S | exact hX | exact hB]. Qed.

(* Section Main is re-entered with Y given by its general-wiring equation: each hypothesis of Main is the
   hypothesis or lemma of this section under the same name, and [gfacts] picks it. *)
Ltac gfacts := first [exact H0_S | exact Hs_S | exact Hr_S | exact H0_h | exact Hs_h | exact Hr_h | exact S_adH0
  | exact sylv_spec | exact oW | exact oV | exact hWh | exact hVa | exact hW | exact hV | exact hX | exact hB
  | exact gen_hSY | exact sylv_P ].

Let Xh := comm U HS.
Let D := X - Xh.
Lemma g_Y_is_comm : comm V HS == Yadj. Proof. eapply Y_is_comm. all: try gfacts. Qed.
Lemma g_twoZ : X - adj X == - (Ud * X) + adj X * U. Proof. eapply twoZ with (Hs:=Hs) (Hr:=Hr) (B:=B). all: try gfacts. Qed.
Lemma g_twoZh : comm (W + W) HS == - (Ud * Xh) + adj Xh * U. Proof. eapply twoZh. all: try gfacts. Qed.
Lemma g_HS_h : adj HS == HS. Proof. unfold HS. rewrite adj_add, H0_h, Hs_h. reflexivity. Qed.
Lemma X_split : X + X == (adj X + X) + (X - adj X). Proof. non_commutative_ring. Qed.
Lemma DD : D + D == (X - adj X) - comm (W + W) HS.
Proof.
  unfold D. assert (E0: Xh + Xh == comm (W+W) HS + (Yadj + Yadj)).
  { rewrite <- g_Y_is_comm. unfold Xh, comm, U. non_commutative_ring. }
  assert (E1: X - Xh + (X - Xh) == (X + X) - (Xh + Xh)) by non_commutative_ring.
  rewrite E1, E0, X_split. rewrite hYadj at 1 2. rewrite half_dbl. non_commutative_ring.
Qed.
Lemma D_anti : adj D == - D.
Proof.
  assert (Ea: adj (D + D) == - (D + D)).
  { rewrite DD, adj_sub, adj_sub, adj_inv.
    assert (Ec: adj (comm (W+W) HS) == - comm (W+W) HS).
    { unfold comm. rewrite adj_sub, !adj_mul, g_HS_h, adj_add, hWh. non_commutative_ring. }
    rewrite Ec. non_commutative_ring. }
  rewrite <- (half_twice D) at 1. rewrite half_adj, Ea, half_opp, half_twice. reflexivity.
Qed.
Theorem X_is_commutator : X == comm U HS.
Proof.
  assert (E: D + D == - (Ud * D) + adj D * U).
  { rewrite DD, g_twoZ, g_twoZh. unfold D. rewrite adj_sub. non_commutative_ring. }
  assert (D0: D == 0).
  { assert (o1 : ord 1 Ud) by (apply ord_sub; assumption).
    assert (o2 : ord 1 U) by (apply ord_add; assumption).
    assert (Eq : D == - half (Ud * D + D * U)).
    { rewrite D_anti in E.
      rewrite <- (half_twice D) at 1. rewrite E.
      assert (E2: - (Ud * D) + - D * U == - (Ud * D + D * U)) by non_commutative_ring.
      rewrite E2, half_opp. reflexivity. }
    exact (contraction _ _ _ o1 o2 Eq). }
  assert (E3: X == D + Xh) by (unfold D; non_commutative_ring).
  rewrite E3, D0. fold Xh. non_commutative_ring.
Qed.

Ltac gfacts2 := first [exact X_is_commutator | exact hHt | gfacts].
Theorem eliminated : Rp ((1 + Ud) * (HS + Hr) * (1 + U)) == 0.
Proof. eapply eliminated_c. all: try gfacts2. Qed.
Theorem kept : Sel ((1 + Ud) * (HS + Hr) * (1 + U)) == Ht.
Proof. eapply kept_c. all: try gfacts2. Qed.
Theorem unitary_r : (1 + U) * (1 + Ud) == 1.
Proof. eapply unitary_r_c. all: try gfacts2. Qed.
Theorem Ht_herm : adj Ht == Ht.
Proof. rewrite <- kept, <- Sel_adj. apply am_P. eapply Htot_herm_c. all: try gfacts2. Qed.
End GeneralY.

(** From the meaning of the GENERATED program [main_alg] (DSL/Sem.v applied to
    Gen/Algorithms_gen.v) to the symmetric equations consumed by Alg/MainAlgebra.v.

    The equations are obtained by computation on the generated term ([sem_unfold]), so an
    edit of algorithms.py changes what the lemmas below have to prove.

    Wiring hypotheses (what block_diagonalize puts in the scope; record [wiring] of Alg/MainCorrect.v):
    - [rflag "commuting_blocks"] is the row projector [Rw];
    - [comm_sound]: on rows flagged commuting, kept x eliminated products have no kept part;
    - the solver [fenv "solve_sylvester"] solves the Sylvester equation on the eliminated
      part, acts order by order, and maps adjoints to minus adjoints (real energies);
    - the input is Hermitian and its order-zero coefficient is kept ([Sel H0 == H0]) and
      [Sel] commutes with [H0, .].
    The first part (up to "General wiring") holds for both values of [two_block_optimized] and is
    used by Alg/MainLiftTB.v; the rest treats the general wiring ([two_block_optimized = False]). *)
Require Import Ncring Ncring_tac Setoid Morphisms ZArith String List.
From PV.Base Require Import Classes AlgLemmas.
From PV.DSL Require Import Syntax Sem.
From PV.Gen Require Import Algorithms_gen.
From PV.Alg Require Import MainAlgebra.
Import ListNotations.
Open Scope string_scope.

Definition gflag_of (tb : bool) (n : string) : bool :=
  if String.eqb n "two_block_optimized" then tb else false.

Ltac sem_unfold H :=
  cbv [sdef_holds pdef_holds with_start body_den split_marker lines_den den line_den
       product_den prod_den pfactors pherm List.map sname sstart sbody pname gflag_of
       String.eqb Ascii.eqb Bool.eqb String.concat String.append] in H.

Section Common.
Context {T : Type} `{Rg : Ring T} {BA : BlockAlg T}.
Variable tb : bool.
Variable rflag : string -> T -> T.
Variable fenv : string -> list T -> T.
Variable sol : string -> T.
Hypothesis Hsol : solution (gflag_of tb) rflag fenv sol main_alg.

Definition sylv (y : T) : T := fenv "solve_sylvester" [y].

Let H := sol "H".   Let Hd := sol "H'_diag".   Let Ho := sol "H'_offdiag".
Let V := sol "V".   Let W := sol "W".   Let Y := sol "Yadj".
Let U' := sol "U'". Let Ud' := sol "U'†". Let X := sol "X". Let B := sol "B".
Let P := sol "U'† @ U'". Let A := sol "H'_offdiag @ U'". Let UdB := sol "U'† @ B".
Let VH := sol "V @ H'_diag".

Ltac getS name H := pose proof (solution_series Hsol name eq_refl) as H; sem_unfold H;
  rewrite ?Lo_zero, ?ring_add_0_l, ?add0r in H.
Ltac getP name H := pose proof (solution_product Hsol name eq_refl) as H; sem_unfold H.

Lemma eHd : Hd == Pos (Sel H).
Proof. getS "H'_diag" E. exact E. Qed.
Lemma eHo : Ho == Pos (Rp H).
Proof. getS "H'_offdiag" E. exact E. Qed.
Lemma Hd_alt : Hd == Sel (Pos H).
Proof. rewrite eHd. unfold Pos. rewrite Sel_sub, Zc_Sel. reflexivity. Qed.
Lemma Ho_alt : Ho == Rp (Pos H).
Proof. rewrite eHo. unfold Pos, Rp. rewrite Sel_sub, !Zc_sub, Zc_Sel. non_commutative_ring. Qed.
Lemma H_split : H == Zc H + Hd + Ho.
Proof. rewrite Hd_alt, Ho_alt. unfold Rp, Pos. non_commutative_ring. Qed.
Lemma Hd_S : Sel Hd == Hd. Proof. rewrite Hd_alt. apply Sel_idem. Qed.
Lemma Ho_S : Sel Ho == 0. Proof. rewrite Ho_alt. apply Sel_Rp. Qed.

Hypothesis H_herm : adj H == H.
Lemma Hd_h : adj Hd == Hd.
Proof. rewrite Hd_alt, <- Sel_adj, Pos_adj, H_herm. reflexivity. Qed.
Lemma Ho_h : adj Ho == Ho.
Proof. rewrite Ho_alt, <- Rp_adj, Pos_adj, H_herm. reflexivity. Qed.
Lemma H0_h : adj (Zc H) == Zc H.
Proof. rewrite <- Zc_adj, H_herm. reflexivity. Qed.

(* every series declared with start = 0 has positive order *)
Lemma oHd : ord 1 Hd. Proof. exact (solution_zero_ord Hsol "H'_diag" eq_refl eq_refl). Qed.
Lemma oHo : ord 1 Ho. Proof. exact (solution_zero_ord Hsol "H'_offdiag" eq_refl eq_refl). Qed.
Lemma oV : ord 1 V. Proof. exact (solution_zero_ord Hsol "V" eq_refl eq_refl). Qed.
Lemma oW : ord 1 W. Proof. exact (solution_zero_ord Hsol "W" eq_refl eq_refl). Qed.
Lemma oY : ord 1 Y. Proof. exact (solution_zero_ord Hsol "Yadj" eq_refl eq_refl). Qed.
Lemma oX : ord 1 X. Proof. exact (solution_zero_ord Hsol "X" eq_refl eq_refl). Qed.
Lemma oB : ord 1 B. Proof. exact (solution_zero_ord Hsol "B" eq_refl eq_refl). Qed.
Local Hint Resolve oHd oHo oV oW oY oX oB : ord.

Lemma eU' : U' == W + V.
Proof. getS "U'" E. fold U' W V in E. rewrite E. apply Pos_of_ord1. auto with ord. Qed.
Lemma eUd' : Ud' == W - V.
Proof. getS "U'†" E. exact E. Qed.
Lemma oU' : ord 1 U'. Proof. rewrite eU'. auto with ord. Qed.
Lemma oUd' : ord 1 Ud'. Proof. rewrite eUd'. auto with ord. Qed.
Local Hint Resolve oU' oUd' : ord.
Lemma eU : sol "U" == 1 + U'.
Proof. getS "U" E. fold U' in E. rewrite E.
  assert (Z0 : Zc U' == 0) by (apply Zc_ord; apply oU').
  rewrite Z0, Dg_zero. non_commutative_ring. Qed.
Lemma eUd : sol "U†" == 1 + Ud'.
Proof. getS "U†" E. fold Ud' in E. rewrite E.
  assert (Z0 : Zc Ud' == 0) by (apply Zc_ord; apply oUd').
  rewrite Z0, Dg_zero. non_commutative_ring. Qed.

(* products *)
Lemma eA : A == Ho * U'. Proof. getP "H'_offdiag @ U'" E. exact E. Qed.
Lemma eUdB : UdB == Ud' * B. Proof. getP "U'† @ B" E. exact E. Qed.
Lemma eVH : VH == V * Hd. Proof. getP "V @ H'_diag" E. exact E. Qed.
Lemma eP : P == hsum Ud' U' + Up (Ud' * U') + adj (Up (Ud' * U')).
Proof. getP "U'† @ U'" E. exact E. Qed.
Lemma oA : ord 1 A. Proof. rewrite eA. auto with ord. Qed.
Lemma oUdB : ord 1 UdB. Proof. rewrite eUdB. auto with ord. Qed.
Lemma oVH : ord 1 VH. Proof. rewrite eVH. auto with ord. Qed.
Local Hint Resolve oA oUdB oVH : ord.

Lemma eX : X == B + Ho + A.
Proof. getS "X" E. fold X B Ho A in E. rewrite E. apply Pos_of_ord1. auto with ord. Qed.

(* wiring *)
Hypothesis Hrf : forall x, rflag "commuting_blocks" x == Rw x.
Hypothesis comm_sound_l : forall x y, Rw (Sel (Rp x * Sel y)) == 0.
Hypothesis comm_sound_r : forall x y, Rw (Sel (Sel y * Rp x)) == 0.
Context {sylv_P : Proper (_==_ ==> _==_) sylv}.
Hypothesis sylv_ord : forall k y, ord k y -> ord k (sylv y).
Hypothesis sylv_adj : forall y, sylv (adj y) == - adj (sylv y).
Local Hint Resolve sylv_ord : ord.

Let yy := half (adj X + X).
Lemma yy_herm : adj yy == yy.
Proof. unfold yy. rewrite half_adj, adj_add, adj_inv. apply half_P. non_commutative_ring. Qed.

(* B *)
Lemma eB : B == Sel (- half (UdB - adj UdB + A + adj A)) + (Sel (VH + adj VH) - Rw (Sel (VH + adj VH))) - Rp UdB.
Proof.
  getS "B" E. fold B UdB A VH in E. rewrite E.
  rewrite !Hrf, Rw_zero, ring_add_0_l, divz_m2, Rp_opp.
  rewrite Pos_of_ord1.
  - rewrite Sel_sub, Rw_Sel. non_commutative_ring.
  - auto 12 with ord.
Qed.

(* H_tilde *)
Lemma eHt : sol "H_tilde" == Zc H + Sel (Hd + half (A + adj A) - half (UdB + adj UdB) - Y).
Proof.
  getS "H_tilde" E. fold H Hd A UdB Y in E. rewrite E. rewrite divz_m2.
  rewrite Pos_of_ord1.
  - apply ring_plus_comp. reflexivity. apply am_P. unfold half. non_commutative_ring.
  - auto 12 with ord.
Qed.

(* V is determined by Yadj as soon as Yadj is Hermitian (both wirings) *)
Let arg := Y - VH - adj VH.
Lemma sylv_arg_anti : adj Y == Y -> adj (sylv arg) == - sylv arg.
Proof.
  intros hY. assert (Ea : adj arg == arg) by (unfold arg; rewrite !adj_sub, adj_inv, hY; non_commutative_ring).
  rewrite <- Ea at 2. rewrite sylv_adj. non_commutative_ring.
Qed.
Lemma V_solved : adj Y == Y -> V == - Rp (sylv arg).
Proof.
  intros hY. getS "V" E. fold V Y VH in E.
  change (fenv "solve_sylvester" [adj Y - VH - adj VH]) with (sylv (adj Y - VH - adj VH)) in E.
  assert (Ea : adj Y - VH - adj VH == arg) by (unfold arg; rewrite hY; reflexivity).
  rewrite Ea in E.
  set (b := Rp (- sylv arg)) in E.
  assert (ob : ord 1 b) by (unfold b, arg; auto 8 with ord).
  apply (marker_antiherm _ _ oV ob) in E. rewrite E.
  assert (Eb : adj b == - b).
  { unfold b. rewrite <- Rp_adj, adj_opp, (sylv_arg_anti hY), !Rp_opp. reflexivity. }
  rewrite (full_of_antiherm _ Eb). unfold b. apply Rp_opp.
Qed.
Lemma V_anti_of : adj Y == Y -> adj V == - V.
Proof. intros hY. rewrite (V_solved hY), adj_opp, <- Rp_adj, (sylv_arg_anti hY), Rp_opp. reflexivity. Qed.

(* W and the Hermitian-declared product: W is Hermitian, and the half-sum is the true diagonal part,
   as soon as V is anti-Hermitian and adj W - W is the half-sum defect (both wirings) *)
Let F := Ud' * U'.
Let hs := hsum Ud' U'.
Lemma Dg_hs : Dg hs == hs. Proof. apply hsum_Dg. Qed.
Lemma Up_hs : Up hs == 0. Proof. rewrite <- Dg_hs. apply Up_Dg. Qed.
Lemma Lo_hs : Lo hs == 0. Proof. rewrite <- Dg_hs. apply Lo_Dg. Qed.
Lemma DgP : Dg P == hs.
Proof. rewrite eP. fold F hs. rewrite !am_add, Dg_hs, Dg_Up, Dg_adj, Dg_Up, adj_zero. non_commutative_ring. Qed.
Lemma oF : ord 1 F. Proof. unfold F. auto with ord. Qed.
Lemma ohs : ord 1 hs.
Proof.
  assert (E : hs == (hs - Dg F) + Dg F) by non_commutative_ring. rewrite E. apply ord_add.
  - apply hsum_spec. apply oUd'. apply oU'. apply ord_O.
  - apply ord_Dg, oF.
Qed.
Local Hint Resolve oF ohs : ord.

Let EW := adj W - W.
Let dl := U' - adj Ud'.
Lemma adjF : adj F == F - Ud' * dl + adj dl * U' - adj dl * dl.
Proof.
  unfold F. rewrite adj_mul.
  assert (E1 : adj Ud' == U' - dl) by (unfold dl; non_commutative_ring).
  assert (E2 : adj U' == Ud' + adj dl) by (unfold dl; rewrite adj_sub, adj_inv; non_commutative_ring).
  rewrite E1, E2. non_commutative_ring.
Qed.
Lemma W_herm_of : adj V == - V -> EW == half (hs - adj hs) -> adj W == W /\ hs == Dg F /\ adj F == F.
Proof.
  intros hVa hEW.
  assert (dl_EW : dl == - EW) by (unfold dl, EW; rewrite eU', eUd', adj_sub, hVa; non_commutative_ring).
  assert (odl : ord 1 dl) by (unfold dl; auto with ord).
  assert (step : forall k, ord k EW -> ord (S k) EW).
  { intros k Hk.
    assert (Hd' : ord k dl) by (rewrite dl_EW; apply ord_opp, Hk).
    assert (H1 : ord (S k) (hs - Dg F)) by (apply hsum_spec; [apply oUd' | apply oU' | exact Hd']).
    assert (H2 : ord (S k) (adj F - F)).
    { rewrite adjF.
      assert (E : F - Ud' * dl + adj dl * U' - adj dl * dl - F == - (Ud' * dl) + adj dl * U' - adj dl * dl) by non_commutative_ring.
      rewrite E. apply ord_sub. apply ord_add. apply ord_opp. apply ord_mul_l. apply oUd'. exact Hd'.
      apply ord_mul_r. apply ord_adj, Hd'. apply oU'.
      apply ord_mul_l. apply ord_adj, odl. exact Hd'. }
    rewrite hEW. apply ord_half.
    assert (E : hs - adj hs == (hs - Dg F) - adj (hs - Dg F) - Dg (adj F - F)).
    { rewrite !adj_sub, Dg_sub, Dg_adj. non_commutative_ring. }
    rewrite E. apply ord_sub. apply ord_sub. exact H1. apply ord_adj, H1. apply ord_Dg, H2. }
  assert (EW0 : EW == 0) by (apply ord_eq_zero; exact step).
  assert (dl0 : dl == 0) by (rewrite dl_EW, EW0; non_commutative_ring).
  split; [|split].
  - assert (E : adj W == EW + W) by (unfold EW; non_commutative_ring). rewrite E, EW0. non_commutative_ring.
  - apply eq_of_ord. intros k. apply (ord_le (k:=S k)). auto.
    apply hsum_spec. apply oUd'. apply oU'. fold dl. rewrite dl0. apply ord_zero.
  - rewrite adjF, dl0, adj_zero. non_commutative_ring.
Qed.

(* what the outputs U, U† inherit from W Hermitian and V anti-Hermitian (both wirings) *)
Lemma adjoint_of : adj W == W -> adj V == - V -> adj (sol "U") == sol "U†".
Proof.
  intros hW hV. rewrite eU, eUd, eU', eUd', adj_add, adj_one, adj_add, hW, hV. non_commutative_ring.
Qed.
Lemma gauge_of : adj W == W -> adj V == - V -> Sel V == 0 ->
  Sel (half ((sol "U" - 1) - adj (sol "U" - 1))) == 0.
Proof.
  intros hW hV hS. rewrite eU, eU'.
  assert (E : 1 + (W + V) - 1 - adj (1 + (W + V) - 1) == V + V).
  { assert (E0 : 1 + (W + V) - 1 == W + V) by non_commutative_ring.
    rewrite E0, adj_add, hW, hV. non_commutative_ring. }
  rewrite E, half_twice. exact hS.
Qed.
Lemma Ht_herm_of : adj (sol "U") == sol "U†" -> Sel (sol "U†" * H * sol "U") == sol "H_tilde" ->
  adj (sol "H_tilde") == sol "H_tilde".
Proof.
  intros hA hK. rewrite <- hK, <- Sel_adj, !adj_mul, H_herm, hA, <- hA, adj_inv. apply am_P. non_commutative_ring.
Qed.

(** * General wiring: two_block_optimized = False *)
Hypothesis tb_false : tb = false.

Ltac getSf name H := pose proof (solution_series Hsol name eq_refl) as H; sem_unfold H;
  rewrite tb_false in H; rewrite ?Lo_zero, ?ring_add_0_l, ?add0r in H.

(* Yadj *)
Lemma Y_general : Y == yy - Rw (Sel yy).
Proof.
  getSf "Yadj" E. fold Y X in E. change (divz (adj X + X) 2) with yy in E.
  rewrite !Hrf, Rw_zero, ring_add_0_l in E.
  set (y := Rp yy + Sel (yy - Rw yy)) in E.
  assert (Ey : y == yy - Rw (Sel yy)).
  { unfold y. rewrite Sel_sub, Rw_Sel. unfold Rp. non_commutative_ring. }
  assert (oy : ord 1 y) by (rewrite Ey; unfold yy; auto 8 with ord).
  apply (marker_herm _ _ oY oy) in E. rewrite E, <- Ey. apply full_of_herm.
  rewrite Ey, adj_sub, yy_herm, (Rw_Sel_herm _ yy_herm). reflexivity.
Qed.
Lemma Y_herm : adj Y == Y.
Proof. rewrite Y_general, adj_sub, yy_herm, (Rw_Sel_herm _ yy_herm). reflexivity. Qed.

Lemma V_general : V == - Rp (sylv arg). Proof. exact (V_solved Y_herm). Qed.
Lemma V_anti : adj V == - V. Proof. exact (V_anti_of Y_herm). Qed.

(* W *)
Lemma UpP : Up P == Up F.
Proof. rewrite eP. fold F hs. rewrite !am_add, Up_hs, Up_Up, adj_Up, Up_Lo. non_commutative_ring. Qed.
Lemma oP : ord 1 P.
Proof. rewrite eP. fold F hs. auto with ord. Qed.
Lemma W_form : W == - (half hs + half (Up F) + adj (half (Up F))).
Proof.
  getSf "W" E. fold W P in E.
  assert (Ew : Sel (divz P (-2)) + Rp (divz P (-2)) == - half P).
  { rewrite divz_m2. unfold Rp. non_commutative_ring. }
  rewrite Ew in E.
  assert (ob : ord 1 (- half P)) by (pose proof oP; auto with ord).
  apply (marker_herm _ _ oW ob) in E. rewrite E.
  assert (E1 : Dg (- half P) == - half hs) by (rewrite am_opp, (half_am (f:=Dg)), DgP; reflexivity).
  assert (E2 : Up (- half P) == - half (Up F)) by (rewrite am_opp, (half_am (f:=Up)), UpP; reflexivity).
  rewrite E1, E2, adj_opp. non_commutative_ring.
Qed.
Lemma EW_form : EW == half (hs - adj hs).
Proof.
  unfold EW. rewrite W_form. rewrite adj_opp, !adj_add, adj_inv, half_adj, half_sub. non_commutative_ring.
Qed.
Lemma W_herm : adj W == W. Proof. apply (W_herm_of V_anti EW_form). Qed.
Lemma hs_full : hs == Dg F. Proof. apply (W_herm_of V_anti EW_form). Qed.
Lemma F_herm : adj F == F. Proof. apply (W_herm_of V_anti EW_form). Qed.
Lemma P_full : P == F.
Proof. rewrite eP. fold F hs. rewrite hs_full. apply full_of_herm. exact F_herm. Qed.
Lemma W_general : W == - half ((W - V) * (W + V)).
Proof.
  rewrite W_form at 1. rewrite hs_full, half_adj, <- !half_add, adj_Up, F_herm.
  assert (E : Dg F + Up F + Lo F == F) by (symmetry; apply blk_split).
  rewrite E. unfold F. rewrite eUd', eU'. reflexivity.
Qed.

(** * Assembly: the hypotheses of Alg/MainAlgebra.v hold for every solution *)
Hypothesis H0_S : Sel (Zc H) == Zc H.
Hypothesis S_adH0 : forall x, Sel (comm (Zc H) x) == comm (Zc H) (Sel x).
Hypothesis sylv_spec : forall y, Rp (comm (Zc H) (sylv y)) == Rp y.

Lemma vh_form : VH + adj VH == Rp (- sylv arg) * Sel (Pos H) - Sel (Pos H) * Rp (- sylv arg).
Proof.
  rewrite eVH, adj_mul, Hd_h, V_anti. rewrite <- Hd_alt.
  assert (EV : Rp (- sylv arg) == V) by (rewrite V_general, Rp_opp; reflexivity).
  rewrite EV. non_commutative_ring.
Qed.
Lemma RwS_vh : Rw (Sel (VH + adj VH)) == 0.
Proof.
  rewrite vh_form, Sel_sub, am_sub by apply Rw_am.
  rewrite comm_sound_l, comm_sound_r. non_commutative_ring.
Qed.
Lemma hB' : B == Sel (- half ((W - V) * B - adj ((W - V) * B) + Ho * (W + V) + adj (Ho * (W + V))))
               + Sel (V * Hd + adj (V * Hd)) - Rp ((W - V) * B).
Proof.
  rewrite eB at 1. rewrite RwS_vh. rewrite eUdB, eA, eVH, eUd', eU'. non_commutative_ring.
Qed.
Lemma hX' : X == B + Ho + Ho * (W + V).
Proof. rewrite eX at 1. rewrite eA, eU'. reflexivity. Qed.
Lemma Syy : Sel yy == Sel (VH + adj VH).
Proof. unfold yy. rewrite eVH. eapply SXherm; [exact Ho_S | exact hX' | exact hB']. Qed.
Lemma hY' : Y == half (adj X + X).
Proof. rewrite Y_general, Syy, RwS_vh. fold yy. non_commutative_ring. Qed.
Lemma hV' : V == - Rp (sylv (Y - V * Hd - adj (V * Hd))).
Proof. rewrite V_general at 1. unfold arg. rewrite eVH. reflexivity. Qed.
(* The theorems of Alg/MainAlgebra.v take the symmetric equations and side conditions as premises; at the series
   of the program each premise is the lemma above of the same name, and [facts] picks it. *)
Ltac facts := first [exact H0_S | exact Hd_S | exact Ho_S | exact H0_h | exact Hd_h | exact Ho_h | exact S_adH0
  | exact sylv_spec | exact oW | exact oV | exact W_herm | exact V_anti | exact W_general | exact hY' | exact hV'
  | exact hX' | exact hB' | exact sylv_P ].
Lemma hHt' : sol "H_tilde" == Zc H + Sel (Hd + half (Ho * (W + V) + adj (Ho * (W + V)))
                                          - half ((W - V) * B + adj ((W - V) * B)) - Y).
Proof. rewrite eHt. rewrite eA, eUdB, eUd', eU'. reflexivity. Qed.

Let Ufull := sol "U".  Let Udfull := sol "U†".  Let Htl := sol "H_tilde".

Theorem main_unitary_l : Udfull * Ufull == 1.
Proof.
  unfold Udfull, Ufull. rewrite eU, eUd, eU', eUd'.
  eapply unitary. exact W_general.
Qed.
Theorem main_unitary_r : Ufull * Udfull == 1.
Proof.
  unfold Udfull, Ufull. rewrite eU, eUd, eU', eUd'.
  eapply unitary_r; facts.
Qed.
Theorem main_adjoint : adj Ufull == Udfull.
Proof. exact (adjoint_of W_herm V_anti). Qed.
Theorem main_kept : Sel (Udfull * H * Ufull) == Htl.
Proof.
  unfold Udfull, Ufull, Htl. rewrite eU, eUd, eU', eUd'. rewrite H_split at 1.
  eapply kept; first [exact hHt' | facts].
Qed.
Theorem main_eliminated : Rp (Udfull * H * Ufull) == 0.
Proof.
  unfold Udfull, Ufull. rewrite eU, eUd, eU', eUd'. rewrite H_split at 1.
  eapply eliminated; facts.
Qed.
Theorem main_Ht_herm : adj Htl == Htl.
Proof. exact (Ht_herm_of main_adjoint main_kept). Qed.
(* gauge: the anti-Hermitian part of U - 1 has no kept element *)
Theorem main_gauge : Sel (half ((Ufull - 1) - adj (Ufull - 1))) == 0.
Proof. apply (gauge_of W_herm V_anti). rewrite hV', Sel_opp, Sel_Rp. non_commutative_ring. Qed.
Theorem main_X_commutator : X == comm (W + V) (Zc H + Hd).
Proof.
  eapply X_is_commutator; facts.
Qed.

End Common.

(** Executable reading of DSL/Sem.v on truncated series of Gaussian-rational block matrices
    (tables of Series/Exec.v), used by the correspondence check k_semeq: the values computed
    by the IMPLEMENTATION for every named series of the shipped algorithms are loaded as
    tables, and [check_alg] decides (by vm_compute) whether they satisfy every equation of the
    semantics of the generated program up to total order N.

    [tden] mirrors [Sem.den] constructor by constructor with the table operations [t*] of
    Series/Exec.v, each of which is proved there to denote the abstract operation of the
    [BlockAlg] instance up to order N ([t*_den] lemmas). *)
Require Import List ZArith QArith Arith Bool String.
From PV.Base Require Import Classes.
From PV.Series Require Import MultiIndex Cauchy Lift Inst ExecIdx Exec SylvInst.
From PV.Block Require Import Mat Masks CoefAlg BlockSel ExecScalar QLemmas QInst.
From PV.DSL Require Import Syntax.
Import ListNotations.
Open Scope string_scope.

(** block structure from tables *)
Definition mk_blk (bl : list nat) (p : nat) : nat := nth p bl 0%nat.
Definition mk_keep (bl : list nat) (m : list (list bool)) (p q : nat) : bool :=
  Nat.eqb (mk_blk bl p) (mk_blk bl q) && (nth2 false m p q && nth2 false m q p).
Definition mk_cm (bl : list nat) (cb : list bool) (p : nat) : bool := nth (mk_blk bl p) cb true.
Lemma mk_keep_sym bl m p q : mk_keep bl m p q = mk_keep bl m q p.
Proof. unfold mk_keep. rewrite Nat.eqb_sym. f_equal. apply andb_comm. Qed.
Lemma mk_keep_blk bl m p q : mk_keep bl m p q = true -> mk_blk bl p = mk_blk bl q.
Proof. unfold mk_keep. intros H. apply andb_prop in H. destruct H as [H _]. apply Nat.eqb_eq. exact H. Qed.
Lemma mk_cm_blk bl cb p q : mk_blk bl p = mk_blk bl q -> mk_cm bl cb p = mk_cm bl cb q.
Proof. unfold mk_cm. intros ->. reflexivity. Qed.

Definition gq_inv0 (x : gq) : gq :=
  let '(a, b) := x in
  let d := (a * a + b * b)%Q in
  if Qeq_bool d 0 then (0, 0)%Q else (a / d, - b / d)%Q.

Section Exec.
Variables D k N : nat.
Variable bl : list nat.
Variable msk : list (list bool).
Variable cb : list bool.
Variable El : list gq.                       (* unperturbed energies *)
Variable tb : bool.                          (* two_block_optimized *)
Variable sols : list (string * (tser gq)).

Let blk := mk_blk bl.
Let keep := mk_keep bl msk.
Let cm := mk_cm bl cb.
Let ksym := mk_keep_sym bl msk.
Let kblk := mk_keep_blk bl msk.
Let cblk := mk_cm_blk bl cb.
Definition Efun (p : nat) : gq := nth p El (0, 0)%Q.

Fixpoint lookup_s (n : string) (l : list (string * (tser gq))) : (tser gq) :=
  match l with
  | [] => []
  | (m, v) :: r => if String.eqb m n then v else lookup_s n r
  end.
Definition tsol (n : string) : (tser gq) := lookup_s n sols.

Definition xadd := tadd D k N (R0 := gq).
Definition xsub := tsub D k N (R0 := gq).
Definition xopp := topp D k N (R0 := gq).
Definition xmul := tmul D k N (R0 := gq).
Definition xadj := tadj D k blk keep cm ksym kblk cblk N (R0 := gq).
Definition xdivz := tdivz D k blk keep cm ksym kblk cblk N (R0 := gq).
Definition xDg := tDg D k blk keep cm ksym kblk cblk N (R0 := gq).
Definition xUp := tUp D k blk keep cm ksym kblk cblk N (R0 := gq).
Definition xLo := tLo D k blk keep cm ksym kblk cblk N (R0 := gq).
Definition xSel := tSel D k blk keep cm ksym kblk cblk N (R0 := gq).
Definition xRw := tRw D k blk keep cm ksym kblk cblk N (R0 := gq).
Definition xZc := tZc D k blk keep cm ksym kblk cblk N (R0 := gq).
Definition xhsum := thsum D k blk N (R0 := gq).
Definition xone := tone D k N (R0 := gq).
Definition xsylv (a : (tser gq)) : (tser gq) :=
  tab D k N (sylv (D := D) (k := k) Efun gq_inv0 (den D k a)).
Definition xRp a := xsub a (xSel a).
Definition xPos a := xsub a (xZc a).

Definition gflag (n : string) : bool := if String.eqb n "two_block_optimized" then tb else false.

Fixpoint supported (e : expr) : bool :=
  match e with
  | Lit _ | Adj _ | EZero => true
  | Neg a => supported a
  | Add a b | Sub a b => supported a && supported b
  | DivInt a z => supported a && negb (Z.eqb z 0)
  | Call f args =>
      match args with
      | [ArgExpr a] => String.eqb f "solve_sylvester" && supported a
      | _ => false
      end
  | IfFlag (FlagGlobal _) a b => supported a && supported b
  | IfFlag (FlagRow n) a b => String.eqb n "commuting_blocks" && supported a && supported b
  end.

Fixpoint tden (e : expr) : (tser gq) :=
  match e with
  | Lit s => tsol s
  | Adj s => xadj (tsol s)
  | EZero => []
  | Neg a => xopp (tden a)
  | Add a b => xadd (tden a) (tden b)
  | Sub a b => xsub (tden a) (tden b)
  | DivInt a z => xdivz (tden a) z
  | Call f args =>
      match args with
      | [ArgExpr a] => xsylv (tden a)
      | _ => []
      end
  | IfFlag (FlagGlobal n) a b => if gflag n then tden a else tden b
  | IfFlag (FlagRow n) a b => xadd (xRw (tden a)) (xsub (tden b) (xRw (tden b)))
  end.

Definition tline (c : cond) (e : expr) : (tser gq) :=
  match c with
  | Default => tden e
  | Diagonal => xSel (tden e)
  | Offdiagonal => xRp (tden e)
  end.
Fixpoint tlines (b : list line) : (tser gq) :=
  match b with
  | [] => []
  | Line c e :: r => xadd (tline c e) (tlines r)
  | Marker _ :: r => tlines r
  end.
Fixpoint lines_supported (b : list line) : bool :=
  match b with
  | [] => true
  | Line _ e :: r => supported e && lines_supported r
  | Marker _ :: r => lines_supported r
  end.
Fixpoint split_marker (b : list line) : list line * option (herm * list line) :=
  match b with
  | [] => ([], None)
  | Marker h :: r => ([], Some (h, r))
  | l :: r => let '(pre, m) := split_marker r in (l :: pre, m)
  end.
Definition tbody (s : string) (b : list line) : (tser gq) :=
  match split_marker b with
  | (pre, None) => tlines pre
  | (pre, Some (h, post)) =>
      let all := xadd (tlines pre) (tlines post) in
      xadd (xadd (xadd (xDg all) (xUp all)) (xLo (tlines pre)))
           (match h with Herm => xadj (xUp (tsol s)) | AntiHerm => xopp (xadj (xUp (tsol s))) end)
  end.
Definition twith_start (st : start) (rhs : (tser gq)) : (tser gq) :=
  match st with
  | NoStart | StartOther _ => rhs
  | StartZero => xPos rhs
  | StartOne => xadd xone (xsub rhs (xDg (xZc rhs)))
  | StartInput x => xadd (xZc (tsol x)) (xPos rhs)
  end.
Definition check_sdef (d : sdef) : bool :=
  lines_supported (sbody d)
  && teqb D k N (tsol (sname d)) (twith_start (sstart d) (tbody (sname d) (sbody d))).

Fixpoint tprod (fs : list string) (acc : (tser gq)) : (tser gq) :=
  match fs with
  | [] => acc
  | f :: r => tprod r (xmul acc (tsol f))
  end.
Definition tproduct (p : pdef) : (tser gq) :=
  match pfactors p with
  | [] => xone
  | f :: r =>
      let full := tprod r (tsol f) in
      if pherm p then
        match r with
        | [g] => xadd (xadd (xhsum (tsol f) (tsol g)) (xUp full)) (xadj (xUp full))
        | _ => xadd (xadd (xDg full) (xUp full)) (xadj (xUp full))
        end
      else full
  end.
Definition check_pdef (p : pdef) : bool := teqb D k N (tsol (pname p)) (tproduct p).

(* names of the definitions whose equation fails (empty = the implementation's values solve the system) *)
Definition failing (alg : algorithm) : list string :=
  map sname (filter (fun d => negb (check_sdef d)) (aseries alg))
  ++ map pname (filter (fun p => negb (check_pdef p)) (aproducts alg)).
Definition check_alg (alg : algorithm) : bool :=
  match failing alg with [] => true | _ => false end.

(* property-level executable checks on the loaded values (Alg/MainWitness.v, Alg/NHRefuted.v) *)
Definition kept_ok : bool :=
  teqb D k N (xSel (xmul (xmul (tsol "U†") (tsol "H")) (tsol "U"))) (tsol "H_tilde").
Definition elim_ok : bool :=
  teqb D k N (xRp (xmul (xmul (tsol "U†") (tsol "H")) (tsol "U"))) [].
End Exec.

(** On Hermitian input the non-Hermitian algorithm returns the outputs of the Hermitian one
    (last clause of C05), in the domain of validity of the non-Hermitian similarity theorems
    ([H_0, S x] = 0): both output pairs satisfy the defining conditions [similarity_gauge] and
    Alg/UniqueNH.v makes those unique. *)
Require Import Ncring Ncring_tac Setoid Morphisms ZArith String List.
From PV.Base Require Import Classes AlgLemmas.
From PV.DSL Require Import Syntax Sem.
From PV.Gen Require Import Algorithms_gen.
From PV.Alg Require Import MainLift MainCorrect Unique UniqueNH NonHerm.
Import ListNotations.
Open Scope string_scope.

Section Coincide.
Context {T : Type} `{Rg : Ring T} {BA : BlockAlg T}.
Variable gflag : string -> bool.
Variable rflag : string -> T -> T.
Variable fenv : string -> list T -> T.
Variables solh soln : string -> T.
Hypothesis Hh : solution (gflag_of false) rflag fenv solh main_alg.
Hypothesis Hn : solution gflag rflag fenv soln nonhermitian_alg.
Hypothesis Hw : wiring rflag fenv (solh "H").
Hypothesis Hin : soln "H" == solh "H".
Hypothesis H0_central_on_S : forall x, comm (Zc (solh "H")) (Sel x) == 0.
Hypothesis sylv_left : forall x, Rp (MainLift.sylv fenv (comm (Zc (solh "H")) (Rp x))) == Rp x.

Lemma sg_main : similarity_gauge (solh "H") (solh "U") (solh "U†").
Proof.
  pose proof (la_sg (main_least_action rflag fenv solh Hh Hw)) as L.
  unfold similarity_gauge in *. rewrite (adjoint_general rflag fenv solh Hh Hw) in L. exact L.
Qed.

(* the non-Hermitian solution sees the same input, hence the same wiring *)
Lemma Wn : wiring rflag fenv (soln "H").
Proof. apply (wiring_proper (H1 := solh "H")). symmetry. exact Hin. exact Hw. Qed.
Lemma Cn x : comm (Zc (soln "H")) (Sel x) == 0.
Proof. rewrite Hin. apply H0_central_on_S. Qed.

Lemma sg_nh : similarity_gauge (solh "H") (soln "U") (soln "U†").
Proof.
  destruct Wn as [a b c d e f g h i j].
  assert (sP : Proper (_==_ ==> _==_) (nsylv fenv)) by exact e.
  unfold similarity_gauge. repeat split.
  - assert (E : soln "U" - 1 == soln "U'") by (rewrite (eU gflag rflag fenv soln Hn); non_commutative_ring).
    rewrite E. apply (oU' gflag rflag fenv soln Hn).
  - assert (E : soln "U†" - 1 == soln "U_inv'") by (rewrite (eUi gflag rflag fenv soln Hn); non_commutative_ring).
    rewrite E. apply (oG gflag rflag fenv soln Hn).
  - apply (nh_inverse_l gflag rflag fenv soln Hn); assumption.
  - rewrite <- Hin. apply (nh_eliminated_partial gflag rflag fenv soln Hn); try assumption. exact Cn.
  - apply (nh_gauge gflag rflag fenv soln Hn); assumption.
Qed.

Theorem nh_coincides_U : soln "U" == solh "U" /\ soln "U†" == solh "U†".
Proof.
  destruct Hw as [a b c d e f g h i j].
  exact (@similarity_unique T _ _ _ _ _ _ _ _ _ BA (solh "H") i (MainLift.sylv fenv) f sylv_left _ _ _ _ sg_nh sg_main).
Qed.
Theorem nh_coincides_Ht : soln "H_tilde" == solh "H_tilde".
Proof.
  destruct nh_coincides_U as [EU EUd].
  destruct Wn as [a b c d e f g h i j].
  assert (sP : Proper (_==_ ==> _==_) (nsylv fenv)) by exact e.
  rewrite <- (kept_general rflag fenv solh Hh Hw).
  rewrite <- EU, <- EUd, <- Hin. symmetry.
  apply (nh_kept_partial gflag rflag fenv soln Hn); try assumption. exact Cn.
Qed.
End Coincide.

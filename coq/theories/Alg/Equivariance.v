(** How the outputs of the generated programs respond to a change of the input.

    Both programs are characterised by defining conditions that have at most one solution:
    [least_action] (Alg/Unique.v) for [main_alg], [similarity_gauge] (Alg/UniqueNH.v) for
    [nonhermitian_alg]; a least-action unitary with its adjoint is a similarity pair ([la_sg],
    [sg_la]), so every statement about the conditions is proved once, for [similarity_gauge].
    Whatever satisfies the conditions for the new input IS the new output ([outputs_of_la],
    [outputs_of_sg]).  Three ways of producing it:
    - a central kept shift of H, a central scaling of H: same U ([sg_shift], [sg_scale]);
    - a map [phi : T -> T'] preserving the ring structure, the selection and the filtration
      ([SGHom]; with the adjoint: [LAHom]) - it may permute the blocks, so it need not preserve
      [Up]/[Lo], and it may change the number of parameters;
    - a map of two arguments with the same properties ([Hom2], direct sums).
    A [BAHom] (DSL/Natural.v) sends solutions of ANY program to solutions ([natural]); for it the
    correspondence of the outputs needs no wiring of the source ([equivariant_U]).
    C06, C13, C14 (basis) and C15 are instances. *)
Require Import Ncring Ncring_tac Setoid Morphisms ZArith String List.
From PV.Base Require Import Classes AlgLemmas BigSum.
From PV.DSL Require Import Syntax Sem Natural.
From PV.Gen Require Import Algorithms_gen.
From PV.Alg Require Import MainLift MainCorrect Unique UniqueNH NonHerm.
Import ListNotations.
Open Scope string_scope.

(** * In one algebra *)
Section Conditions.
Context {T : Type} `{Rg : Ring T} {BA : BlockAlg T}.

Lemma sg_proper {H1 H2 U1 U2 G1 G2 : T} :
  H1 == H2 -> U1 == U2 -> G1 == G2 -> similarity_gauge H1 U1 G1 -> similarity_gauge H2 U2 G2.
Proof.
  intros EH EU EG (a & b & c & d & e). unfold similarity_gauge. rewrite <- EH, <- EU, <- EG.
  repeat split; assumption.
Qed.

Lemma sg_la {H U : T} : similarity_gauge H U (adj U) -> least_action H U.
Proof.
  intros (a & _ & c & d & e). unfold least_action. repeat split; try assumption.
  assert (E : (U - 1) - adj (U - 1) == U - adj U) by (rewrite adj_sub, adj_one; non_commutative_ring).
  rewrite E, Sel_half, e. apply dbl_inj. rewrite half_dbl. non_commutative_ring.
Qed.

Lemma la_proper {H1 H2 U1 U2 : T} : H1 == H2 -> U1 == U2 -> least_action H1 U1 -> least_action H2 U2.
Proof.
  intros EH EU L. apply sg_la. refine (sg_proper EH EU _ (la_sg L)). rewrite EU. reflexivity.
Qed.

(** conjugation of a central shift and of a central scaling *)
Lemma conj_shift (H : T) {U G C : T} :
  (forall x, C * x == x * C) -> G * U == 1 -> G * (H + C) * U == G * H * U + C.
Proof.
  intros Cc c.
  assert (E : G * (H + C) * U == G * H * U + G * (C * U)) by non_commutative_ring.
  rewrite E, (Cc U).
  assert (E1 : G * (U * C) == (G * U) * C) by non_commutative_ring.
  rewrite E1, c. non_commutative_ring.
Qed.
Lemma conj_scale (H U G : T) {S : T} : (forall x, S * x == x * S) -> G * (S * H) * U == S * (G * H * U).
Proof.
  intros Sc. assert (E : G * (S * H) * U == (G * S) * H * U) by non_commutative_ring.
  rewrite E, <- (Sc G). non_commutative_ring.
Qed.

Lemma sg_shift {H U G C : T} : (forall x, C * x == x * C) -> Sel C == C ->
  similarity_gauge H U G -> similarity_gauge (H + C) U G.
Proof.
  intros Cc Cs (a & b & c & d & e). unfold similarity_gauge. repeat split; try assumption.
  rewrite (conj_shift H Cc c), Rp_add, d. unfold Rp. rewrite Cs. non_commutative_ring.
Qed.
Lemma sg_scale {H U G S : T} : (forall x, S * x == x * S) -> (forall y, Sel (S * y) == S * Sel y) ->
  similarity_gauge H U G -> similarity_gauge (S * H) U G.
Proof.
  intros Sc Ss (a & b & c & d & e). unfold similarity_gauge. repeat split; try assumption.
  rewrite (conj_scale H U G Sc). unfold Rp. rewrite Ss.
  assert (E : S * (G * H * U) - S * Sel (G * H * U) == S * Rp (G * H * U)) by (unfold Rp; non_commutative_ring).
  rewrite E, d. non_commutative_ring.
Qed.

(** ** the Hermitian program *)
Section Main.
Variable rflag : string -> T -> T.
Variable fenv : string -> list T -> T.
Variable sol : string -> T.
Hypothesis Hsol : solution (gflag_of false) rflag fenv sol main_alg.
Hypothesis Hw : wiring rflag fenv (sol "H").

Hypothesis sylv_left : forall x, Rp (MainLift.sylv fenv (comm (Zc (sol "H")) (Rp x))) == Rp x.

Theorem outputs_of_la (H' U0 : T) : sol "H" == H' -> least_action H' U0 ->
  sol "U" == U0 /\ sol "U†" == adj U0 /\ sol "H_tilde" == Sel (adj U0 * H' * U0).
Proof.
  intros EH L.
  assert (EU : sol "U" == U0).
  { destruct Hw as [a b c d e f g h i j].
    symmetry in EH.
    exact (@least_action_unique T _ _ _ _ _ _ _ _ _ BA (sol "H") i (MainLift.sylv fenv) f sylv_left _ _
             (main_least_action rflag fenv sol Hsol Hw) (la_proper EH (reflexivity U0) L)). }
  rewrite <- (kept_general rflag fenv sol Hsol Hw), <- (adjoint_general rflag fenv sol Hsol Hw), EU, EH.
  repeat split; reflexivity.
Qed.
End Main.

(** ** the non-Hermitian program: what block_diagonalize(hermitian=False) provides *)
Record nh_wiring (fenv : string -> list T -> T) (H : T) : Prop := {
  nw_P : Proper (_==_ ==> _==_) (nsylv fenv);
  nw_ord : forall k y, ord k y -> ord k (nsylv fenv y);
  nw_H0 : Sel (Zc H) == Zc H;
  nw_adH0 : forall x, Sel (comm (Zc H) x) == comm (Zc H) (Sel x);
  nw_spec : forall y, Rp (comm (Zc H) (nsylv fenv y)) == Rp y;
  nw_left : forall x, Rp (nsylv fenv (comm (Zc H) (Rp x))) == Rp x;
  (* kept matrix elements connect equal unperturbed energies (domain of validity, C05) *)
  nw_central : forall x, comm (Zc H) (Sel x) == 0
}.

(** both the record and the injectivity hypothesis of uniqueness, from the facts about a
    solver [s] and an order-zero part [H0] given by name *)
Section Intro.
Variable fenv : string -> list T -> T.
Variables (H H0 : T) (s : T -> T).
Hypothesis sP : Proper (_==_ ==> _==_) s.
Hypothesis Hf : forall y, fenv "solve_sylvester" [y] == s y.
Hypothesis HZ : Zc H == H0.
Hypothesis lf : forall x, Rp (s (comm H0 (Rp x))) == Rp x.

Lemma sylv_left_intro x : Rp (MainLift.sylv fenv (comm (Zc H) (Rp x))) == Rp x.
Proof. unfold MainLift.sylv, comm. rewrite Hf, HZ. apply lf. Qed.

Lemma nh_wiring_intro :
  (forall k y, ord k y -> ord k (s y)) -> Sel H0 == H0 ->
  (forall x, Sel (comm H0 x) == comm H0 (Sel x)) -> (forall y, Rp (comm H0 (s y)) == Rp y) ->
  (forall x, comm H0 (Sel x) == 0) -> nh_wiring fenv H.
Proof.
  intros so h0 ad sp ce. constructor; unfold nsylv, comm in *.
  - intros y y' Ey. rewrite !Hf, Ey. reflexivity.
  - intros m y Hy. rewrite Hf. now apply so.
  - rewrite HZ. exact h0.
  - intros x. rewrite HZ. apply ad.
  - intros y. rewrite HZ, Hf. apply sp.
  - intros x. rewrite Hf, HZ. apply lf.
  - intros x. rewrite HZ. apply ce.
Qed.
End Intro.

Section NonHermitian.
Variable gflag : string -> bool.
Variable rflag : string -> T -> T.
Variable fenv : string -> list T -> T.
Variable sol : string -> T.
Hypothesis Hsol : solution gflag rflag fenv sol nonhermitian_alg.
Hypothesis Hw : nh_wiring fenv (sol "H").

Lemma nh_similarity_gauge : similarity_gauge (sol "H") (sol "U") (sol "U†").
Proof.
  destruct Hw as [sP so h0 ad sp lf ce].
  unfold similarity_gauge. repeat split.
  - assert (E : sol "U" - 1 == sol "U'") by (rewrite (eU gflag rflag fenv sol Hsol); non_commutative_ring).
    rewrite E. apply (oU' gflag rflag fenv sol Hsol).
  - assert (E : sol "U†" - 1 == sol "U_inv'") by (rewrite (eUi gflag rflag fenv sol Hsol); non_commutative_ring).
    rewrite E. apply (oG gflag rflag fenv sol Hsol).
  - apply (nh_inverse_l gflag rflag fenv sol Hsol).
  - apply (nh_eliminated_partial gflag rflag fenv sol Hsol (sylv_P := sP)); assumption.
  - apply (nh_gauge gflag rflag fenv sol Hsol (sylv_P := sP)); assumption.
Qed.

Theorem outputs_of_sg (H' U0 G0 : T) : sol "H" == H' -> similarity_gauge H' U0 G0 ->
  sol "U" == U0 /\ sol "U†" == G0 /\ sol "H_tilde" == Sel (G0 * H' * U0).
Proof.
  intros EH L. destruct Hw as [sP so h0 ad sp lf ce].
  symmetry in EH.
  destruct (similarity_unique ad (nsylv fenv) so lf nh_similarity_gauge
              (sg_proper EH (reflexivity U0) (reflexivity G0) L)) as [EU EG].
  assert (Ht : Sel (sol "U†" * sol "H" * sol "U") == sol "H_tilde")
    by (apply (nh_kept_partial gflag rflag fenv sol Hsol (sylv_P := sP)); assumption).
  rewrite <- Ht, EU, EG, EH. repeat split; reflexivity.
Qed.
End NonHermitian.

(** ** shift and scaling of H: same transformation *)
Section ShiftScale.
Variable rflag rflag' : string -> T -> T.
Variable fenv fenv' : string -> list T -> T.
Variable sol sol' : string -> T.

Section Main.
Hypothesis Hsol : solution (gflag_of false) rflag fenv sol main_alg.
Hypothesis Hsol' : solution (gflag_of false) rflag' fenv' sol' main_alg.
Hypothesis Hw : wiring rflag fenv (sol "H").
Hypothesis Hw' : wiring rflag' fenv' (sol' "H").
Hypothesis sylv_left' : forall x, Rp (MainLift.sylv fenv' (comm (Zc (sol' "H")) (Rp x))) == Rp x.

Let same (H' : T) := outputs_of_la rflag' fenv' sol' Hsol' Hw' sylv_left' H' (sol "U").
Let L := la_sg (main_least_action rflag fenv sol Hsol Hw).
Let Ud := adjoint_general rflag fenv sol Hsol Hw.
Let Uu := unitary_l_general rflag fenv sol Hsol Hw.
Let Ht := kept_general rflag fenv sol Hsol Hw.

Theorem shift_outputs C :
  (forall x, C * x == x * C) -> Sel C == C -> sol' "H" == sol "H" + C ->
  sol' "U" == sol "U" /\ sol' "U†" == sol "U†" /\ sol' "H_tilde" == sol "H_tilde" + C.
Proof.
  intros Cc Cs Hin. destruct (same _ Hin (sg_la (sg_shift Cc Cs L))) as (EU & EUd & EH).
  rewrite Ud in EUd, EH. rewrite (conj_shift (sol "H") Cc Uu), Sel_add, Cs, Ht in EH.
  repeat split; assumption.
Qed.

Theorem scale_outputs S :
  (forall x, S * x == x * S) -> (forall y, Sel (S * y) == S * Sel y) -> sol' "H" == S * sol "H" ->
  sol' "U" == sol "U" /\ sol' "U†" == sol "U†" /\ sol' "H_tilde" == S * sol "H_tilde".
Proof.
  intros Sc Ss Hin. destruct (same _ Hin (sg_la (sg_scale Sc Ss L))) as (EU & EUd & EH).
  rewrite Ud in EUd, EH. rewrite (conj_scale (sol "H") _ _ Sc), Ss, Ht in EH.
  repeat split; assumption.
Qed.
End Main.

Section NonHermitian.
Variable gflag gflag' : string -> bool.
Hypothesis Hsol : solution gflag rflag fenv sol nonhermitian_alg.
Hypothesis Hsol' : solution gflag' rflag' fenv' sol' nonhermitian_alg.
Hypothesis Hw : nh_wiring fenv (sol "H").
Hypothesis Hw' : nh_wiring fenv' (sol' "H").

Let same (H' : T) := outputs_of_sg gflag' rflag' fenv' sol' Hsol' Hw' H' (sol "U") (sol "U†").
Let L := nh_similarity_gauge gflag rflag fenv sol Hsol Hw.
Let Ht := proj2 (proj2 (outputs_of_sg gflag rflag fenv sol Hsol Hw _ _ _ (reflexivity _) L)).

Theorem nh_shift_outputs C :
  (forall x, C * x == x * C) -> Sel C == C -> sol' "H" == sol "H" + C ->
  sol' "U" == sol "U" /\ sol' "U†" == sol "U†" /\ sol' "H_tilde" == sol "H_tilde" + C.
Proof.
  intros Cc Cs Hin. destruct (same _ Hin (sg_shift Cc Cs L)) as (EU & EG & EH).
  rewrite (conj_shift (sol "H") Cc (proj1 (proj2 (proj2 L)))), Sel_add, Cs, <- Ht in EH.
  repeat split; assumption.
Qed.

Theorem nh_scale_outputs S :
  (forall x, S * x == x * S) -> (forall y, Sel (S * y) == S * Sel y) -> sol' "H" == S * sol "H" ->
  sol' "U" == sol "U" /\ sol' "U†" == sol "U†" /\ sol' "H_tilde" == S * sol "H_tilde".
Proof.
  intros Sc Ss Hin. destruct (same _ Hin (sg_scale Sc Ss L)) as (EU & EG & EH).
  rewrite (conj_scale (sol "H") _ _ Sc), Ss, <- Ht in EH. repeat split; assumption.
Qed.
End NonHermitian.
End ShiftScale.
End Conditions.

(** * A map between two algebras *)
Section Transport.
Context {T : Type} {r0 r1 : T} {add mul sub : T -> T -> T} {opp : T -> T} {req : T -> T -> Prop}
        {Ro : @Ring_ops T r0 r1 add mul sub opp req} {Rg : @Ring T r0 r1 add mul sub opp req Ro}
        {BA : BlockAlg T}.
Context {T' : Type} {r0' r1' : T'} {add' mul' sub' : T' -> T' -> T'} {opp' : T' -> T'} {req' : T' -> T' -> Prop}
        {Ro' : @Ring_ops T' r0' r1' add' mul' sub' opp' req'} {Rg' : @Ring T' r0' r1' add' mul' sub' opp' req' Ro'}
        {BA' : BlockAlg T'}.
Variable phi : T -> T'.

Record LAHom : Prop := {
  la_P : Proper (_==_ ==> _==_) phi;
  la_zero : phi 0 == 0;
  la_one : phi 1 == 1;
  la_sub : forall x y, phi (x - y) == phi x - phi y;
  la_mul : forall x y, phi (x * y) == phi x * phi y;
  la_adj : forall x, phi (adj x) == adj (phi x);
  la_half : forall x, phi (half x) == half (phi x);
  la_Sel : forall x, phi (Sel x) == Sel (phi x);
  la_ord : forall k x, ord k x -> ord k (phi x)
}.

Record SGHom : Prop := {
  sg_P : Proper (_==_ ==> _==_) phi;
  sg_zero : phi 0 == 0;
  sg_one : phi 1 == 1;
  sg_sub : forall x y, phi (x - y) == phi x - phi y;
  sg_mul : forall x y, phi (x * y) == phi x * phi y;
  sg_Sel : forall x, phi (Sel x) == Sel (phi x);
  sg_ord : forall k x, ord k x -> ord k (phi x)
}.

Lemma LAHom_SGHom : LAHom -> SGHom.
Proof. intros [a b c d e f g h i]. constructor; assumption. Qed.

Lemma SGHom_LAHom : SGHom -> (forall x, phi (adj x) == adj (phi x)) -> LAHom.
Proof.
  intros [hP h0 h1 hsub hmul hsel hord] hadj. constructor; try assumption.
  intros x. apply dbl_inj.
  assert (hadd : forall a b, phi a + phi b == phi (a + b)).
  { intros a b. assert (E : a + b == a - (0 - b)) by non_commutative_ring.
    rewrite E, !hsub, h0. non_commutative_ring. }
  rewrite hadd, !half_dbl. reflexivity.
Qed.

(** from additivity *)
Section Make.
Hypothesis hP : Proper (_==_ ==> _==_) phi.
Hypothesis hadd : forall x y, phi (x + y) == phi x + phi y.
Hypothesis hopp : forall x, phi (- x) == - phi x.
Hypothesis hone : phi 1 == 1.
Hypothesis hmul : forall x y, phi (x * y) == phi x * phi y.
Hypothesis hSel : forall x, phi (Sel x) == Sel (phi x).
Hypothesis hord : forall k x, ord k x -> ord k (phi x).

Lemma mkSGHom : SGHom.
Proof.
  constructor; try assumption.
  - apply additive_zero. exact hadd. exact hP.
  - intros x y. rewrite !ring_sub_def, hadd, hopp. reflexivity.
Qed.

Lemma mkLAHom : (forall x, phi (adj x) == adj (phi x)) -> LAHom.
Proof. exact (SGHom_LAHom mkSGHom). Qed.
End Make.

Theorem similarity_gauge_transport {H U Ui} : SGHom ->
  similarity_gauge H U Ui -> similarity_gauge (phi H) (phi U) (phi Ui).
Proof.
  intros [hP h0 h1 hsub hmul hsel hord] (a & b & c & d & e). unfold similarity_gauge. repeat split.
  - rewrite <- h1, <- hsub. apply hord. exact a.
  - rewrite <- h1, <- hsub. apply hord. exact b.
  - rewrite <- hmul, c. exact h1.
  - unfold Rp. rewrite <- !hmul, <- hsel, <- hsub. unfold Rp in d. rewrite d. exact h0.
  - rewrite <- hsub, <- hsel, e. exact h0.
Qed.

Theorem least_action_transport {H U} : LAHom -> least_action H U -> least_action (phi H) (phi U).
Proof.
  intros HL L. apply sg_la.
  refine (sg_proper (reflexivity _) (reflexivity _) (la_adj HL U) _).
  exact (similarity_gauge_transport (LAHom_SGHom HL) (la_sg L)).
Qed.

(** Hermiticity and the order-zero part of a transported input *)
Lemma herm_transport {H H'} : LAHom -> adj H == H -> H' == phi H -> adj H' == H'.
Proof. intros [hP _ _ _ _ hadj _ _ _] E1 E2. rewrite E2, <- hadj, E1. reflexivity. Qed.
Lemma Zc_transport {H H' Z Z'} : Proper (_==_ ==> _==_) phi -> (forall x, phi (Zc x) == Zc (phi x)) ->
  Zc H == Z -> phi Z == Z' -> H' == phi H -> Zc H' == Z'.
Proof. intros hP hZ E1 E2 E3. rewrite E3, <- hZ, E1. exact E2. Qed.

(** uniqueness in the target algebra identifies the transported pair with the computed one *)
Section Pair.
Hypothesis HS : SGHom.
Variable H' : T'.
Hypothesis S_adH0' : forall x, Sel (comm (Zc H') x) == comm (Zc H') (Sel x).
Variable sylv' : T' -> T'.
Hypothesis sylv_ord' : forall k y, ord k y -> ord k (sylv' y).
Hypothesis sylv_left' : forall x, Rp (sylv' (comm (Zc H') (Rp x))) == Rp x.

Theorem transport_nh H U Ui U' Ui' :
  H' == phi H -> similarity_gauge H U Ui -> similarity_gauge H' U' Ui' ->
  U' == phi U /\ Ui' == phi Ui.
Proof.
  intros EH L L'. symmetry in EH.
  exact (similarity_unique S_adH0' sylv' sylv_ord' sylv_left' L'
           (sg_proper EH (reflexivity _) (reflexivity _) (similarity_gauge_transport HS L))).
Qed.
End Pair.

Hypothesis HL : LAHom.
Hypothesis HS : SGHom.
Context {HH : BAHom phi}.
Existing Instance hom_P.

Variable rflag : string -> T -> T.
Variable rflag' : string -> T' -> T'.
Variable fenv : string -> list T -> T.
Variable fenv' : string -> list T' -> T'.
Variable sol : string -> T.
Variable sol' : string -> T'.

Section NonHermitian.
Variable gflag gflag' : string -> bool.
Hypothesis Hsol : solution gflag rflag fenv sol nonhermitian_alg.
Hypothesis Hsol' : solution gflag' rflag' fenv' sol' nonhermitian_alg.
Hypothesis Hw : nh_wiring fenv (sol "H").
Hypothesis Hw' : nh_wiring fenv' (sol' "H").
Hypothesis Hin : sol' "H" == phi (sol "H").

Theorem nh_outputs_transport :
  sol' "U" == phi (sol "U") /\ sol' "U†" == phi (sol "U†") /\ sol' "H_tilde" == phi (sol "H_tilde").
Proof.
  pose proof (nh_similarity_gauge gflag rflag fenv sol Hsol Hw) as L.
  destruct (outputs_of_sg gflag' rflag' fenv' sol' Hsol' Hw' _ _ _ Hin
              (similarity_gauge_transport HS L)) as (EU & EG & EH).
  destruct (outputs_of_sg gflag rflag fenv sol Hsol Hw _ _ _ (reflexivity _) L) as (_ & _ & Ht).
  destruct HS as [hP _ _ _ hmul hsel _].
  rewrite Ht, hsel, !hmul. repeat split; assumption.
Qed.
End NonHermitian.

Hypothesis Hsol : solution (gflag_of false) rflag fenv sol main_alg.
Hypothesis Hsol' : solution (gflag_of false) rflag' fenv' sol' main_alg.

Section Main.
Hypothesis Hw : wiring rflag fenv (sol "H").
Hypothesis Hw' : wiring rflag' fenv' (sol' "H").
Hypothesis Hin : sol' "H" == phi (sol "H").
Hypothesis sylv_left' : forall x, Rp (MainLift.sylv fenv' (comm (Zc (sol' "H")) (Rp x))) == Rp x.

Theorem transport_outputs :
  sol' "U" == phi (sol "U") /\ sol' "U†" == phi (sol "U†") /\ sol' "H_tilde" == phi (sol "H_tilde").
Proof.
  destruct (outputs_of_la rflag' fenv' sol' Hsol' Hw' sylv_left' _ _ Hin
              (least_action_transport HL (main_least_action rflag fenv sol Hsol Hw))) as (EU & EUd & EH).
  destruct HL as [hP _ _ _ hmul hadj _ hsel _].
  rewrite <- (kept_general rflag fenv sol Hsol Hw), <- (adjoint_general rflag fenv sol Hsol Hw).
  rewrite hsel, !hmul, hadj. repeat split; assumption.
Qed.
Theorem transport_U : sol' "U" == phi (sol "U").
Proof. exact (proj1 transport_outputs). Qed.
Theorem transport_Ud : sol' "U†" == phi (sol "U†").
Proof. exact (proj1 (proj2 transport_outputs)). Qed.
Theorem transport_Ht : sol' "H_tilde" == phi (sol "H_tilde").
Proof. exact (proj2 (proj2 transport_outputs)). Qed.
End Main.

(** a [BAHom] carries the whole solution along: the source needs no wiring for U *)
Section Natural.
Hypothesis rflag_hom : forall n x x', phi x == x' -> phi (rflag n x) == rflag' n x'.
Hypothesis fenv_hom : forall f l l', Forall2 (fun x y => phi x == y) l l' -> phi (fenv f l) == fenv' f l'.
Hypothesis Hin : sol' "H" == phi (sol "H").
Hypothesis Hw' : wiring rflag' fenv' (sol' "H").
Hypothesis sylv_left' : forall x, Rp (MainLift.sylv fenv' (comm (Zc (sol' "H")) (Rp x))) == Rp x.

Theorem equivariant_U : sol' "U" == phi (sol "U").
Proof.
  pose proof (natural phi (gflag_of false) rflag rflag' fenv fenv' rflag_hom fenv_hom sol main_alg Hsol) as Hn.
  set (sn := fun s => phi (sol s)) in Hn.
  exact (proj1 (outputs_of_la rflag' fenv' sol' Hsol' Hw' sylv_left' _ _ Hin
                  (main_least_action rflag' fenv' sn Hn (wiring_proper Hin Hw')))).
Qed.

Hypothesis Hw : wiring rflag fenv (sol "H").

Theorem equivariant_Ud : sol' "U†" == phi (sol "U†").
Proof.
  rewrite <- (adjoint_general rflag' fenv' sol' Hsol' Hw'), <- (adjoint_general rflag fenv sol Hsol Hw).
  rewrite equivariant_U. symmetry. exact (hom_adj phi (sol "U")).
Qed.
Theorem equivariant_Ht : sol' "H_tilde" == phi (sol "H_tilde").
Proof.
  rewrite <- (kept_general rflag' fenv' sol' Hsol' Hw'), <- (kept_general rflag fenv sol Hsol Hw).
  rewrite (hom_Sel phi), !(hom_mul phi), equivariant_U, equivariant_Ud, Hin. reflexivity.
Qed.
End Natural.
End Transport.

(** * A map of two arguments between three algebras (direct sums) *)
Section Transport2.
Context {T1 : Type} {z1 o1 : T1} {add1 mul1 sub1 : T1 -> T1 -> T1} {opp1 : T1 -> T1} {req1 : T1 -> T1 -> Prop}
        {Ro1 : @Ring_ops T1 z1 o1 add1 mul1 sub1 opp1 req1} {Rg1 : @Ring T1 z1 o1 add1 mul1 sub1 opp1 req1 Ro1}
        {BA1 : BlockAlg T1}.
Context {T2 : Type} {z2 o2 : T2} {add2 mul2 sub2 : T2 -> T2 -> T2} {opp2 : T2 -> T2} {req2 : T2 -> T2 -> Prop}
        {Ro2 : @Ring_ops T2 z2 o2 add2 mul2 sub2 opp2 req2} {Rg2 : @Ring T2 z2 o2 add2 mul2 sub2 opp2 req2 Ro2}
        {BA2 : BlockAlg T2}.
Context {T' : Type} {r0' r1' : T'} {add' mul' sub' : T' -> T' -> T'} {opp' : T' -> T'} {req' : T' -> T' -> Prop}
        {Ro' : @Ring_ops T' r0' r1' add' mul' sub' opp' req'} {Rg' : @Ring T' r0' r1' add' mul' sub' opp' req' Ro'}
        {BA' : BlockAlg T'}.
Variable psi : T1 -> T2 -> T'.

Record Hom2 : Prop := {
  h2_P : Proper (_==_ ==> _==_ ==> _==_) psi;
  h2_zero : psi 0 0 == 0;
  h2_one : psi 1 1 == 1;
  h2_sub : forall x1 y1 x2 y2, psi (x1 - y1) (x2 - y2) == psi x1 x2 - psi y1 y2;
  h2_mul : forall x1 y1 x2 y2, psi (x1 * y1) (x2 * y2) == psi x1 x2 * psi y1 y2;
  h2_adj : forall x1 x2, psi (adj x1) (adj x2) == adj (psi x1 x2);
  h2_Sel : forall x1 x2, psi (Sel x1) (Sel x2) == Sel (psi x1 x2);
  h2_ord : forall k x1 x2, ord k x1 -> ord k x2 -> ord k (psi x1 x2)
}.
Hypothesis HP : Hom2.

Theorem similarity_gauge_transport2 {H1 U1 G1 H2 U2 G2} :
  similarity_gauge H1 U1 G1 -> similarity_gauge H2 U2 G2 ->
  similarity_gauge (psi H1 H2) (psi U1 U2) (psi G1 G2).
Proof.
  destruct HP as [hP h0 h1 hsub hmul _ hsel hord].
  intros (a1 & b1 & c1 & d1 & e1) (a2 & b2 & c2 & d2 & e2). unfold similarity_gauge. repeat split.
  - rewrite <- h1, <- hsub. apply hord; assumption.
  - rewrite <- h1, <- hsub. apply hord; assumption.
  - rewrite <- hmul, c1, c2. exact h1.
  - unfold Rp in *. rewrite <- !hmul, <- hsel, <- hsub, d1, d2. exact h0.
  - rewrite <- hsub, <- hsel, e1, e2. exact h0.
Qed.

Theorem least_action_transport2 {H1 U1 H2 U2} :
  least_action H1 U1 -> least_action H2 U2 -> least_action (psi H1 H2) (psi U1 U2).
Proof.
  intros L1 L2. apply sg_la.
  refine (sg_proper (reflexivity _) (reflexivity _) (h2_adj HP U1 U2) _).
  exact (similarity_gauge_transport2 (la_sg L1) (la_sg L2)).
Qed.

Lemma herm_transport2 {H1 H2 H'} : adj H1 == H1 -> adj H2 == H2 -> H' == psi H1 H2 -> adj H' == H'.
Proof. destruct HP as [hP _ _ _ _ hadj _ _]. intros E1 E2 E3. rewrite E3, <- hadj, E1, E2. reflexivity. Qed.
Lemma Zc_transport2 {H1 H2 H' Z1 Z2 Z'} : (forall x1 x2, psi (Zc x1) (Zc x2) == Zc (psi x1 x2)) ->
  Zc H1 == Z1 -> Zc H2 == Z2 -> psi Z1 Z2 == Z' -> H' == psi H1 H2 -> Zc H' == Z'.
Proof. destruct HP as [hP _ _ _ _ _ _ _]. intros hZ E1 E2 E3 E4. rewrite E4, <- hZ, E1, E2. exact E3. Qed.

Variable rflag1 : string -> T1 -> T1.
Variable fenv1 : string -> list T1 -> T1.
Variable rflag2 : string -> T2 -> T2.
Variable fenv2 : string -> list T2 -> T2.
Variable rflag' : string -> T' -> T'.
Variable fenv' : string -> list T' -> T'.
Variable sol1 : string -> T1.
Variable sol2 : string -> T2.
Variable sol' : string -> T'.
Hypothesis Hin : sol' "H" == psi (sol1 "H") (sol2 "H").

Section Main.
Hypothesis Hsol1 : solution (gflag_of false) rflag1 fenv1 sol1 main_alg.
Hypothesis Hsol2 : solution (gflag_of false) rflag2 fenv2 sol2 main_alg.
Hypothesis Hsol' : solution (gflag_of false) rflag' fenv' sol' main_alg.
Hypothesis Hw1 : wiring rflag1 fenv1 (sol1 "H").
Hypothesis Hw2 : wiring rflag2 fenv2 (sol2 "H").
Hypothesis Hw' : wiring rflag' fenv' (sol' "H").
Hypothesis sylv_left' : forall x, Rp (MainLift.sylv fenv' (comm (Zc (sol' "H")) (Rp x))) == Rp x.

Theorem transport2_outputs :
  sol' "U" == psi (sol1 "U") (sol2 "U") /\ sol' "U†" == psi (sol1 "U†") (sol2 "U†")
  /\ sol' "H_tilde" == psi (sol1 "H_tilde") (sol2 "H_tilde").
Proof.
  destruct (outputs_of_la rflag' fenv' sol' Hsol' Hw' sylv_left' _ _ Hin
              (least_action_transport2 (main_least_action rflag1 fenv1 sol1 Hsol1 Hw1)
                                       (main_least_action rflag2 fenv2 sol2 Hsol2 Hw2))) as (EU & EUd & EH).
  destruct HP as [hP _ _ _ hmul hadj hsel _].
  rewrite <- (kept_general rflag1 fenv1 sol1 Hsol1 Hw1), <- (kept_general rflag2 fenv2 sol2 Hsol2 Hw2).
  rewrite <- (adjoint_general rflag1 fenv1 sol1 Hsol1 Hw1), <- (adjoint_general rflag2 fenv2 sol2 Hsol2 Hw2).
  rewrite hsel, !hmul, hadj. repeat split; assumption.
Qed.
End Main.

Section NonHermitian.
Variable gflag1 gflag2 gflag' : string -> bool.
Hypothesis Hsol1 : solution gflag1 rflag1 fenv1 sol1 nonhermitian_alg.
Hypothesis Hsol2 : solution gflag2 rflag2 fenv2 sol2 nonhermitian_alg.
Hypothesis Hsol' : solution gflag' rflag' fenv' sol' nonhermitian_alg.
Hypothesis Hw1 : nh_wiring fenv1 (sol1 "H").
Hypothesis Hw2 : nh_wiring fenv2 (sol2 "H").
Hypothesis Hw' : nh_wiring fenv' (sol' "H").

Theorem nh_transport2_outputs :
  sol' "U" == psi (sol1 "U") (sol2 "U") /\ sol' "U†" == psi (sol1 "U†") (sol2 "U†")
  /\ sol' "H_tilde" == psi (sol1 "H_tilde") (sol2 "H_tilde").
Proof.
  pose proof (nh_similarity_gauge gflag1 rflag1 fenv1 sol1 Hsol1 Hw1) as L1.
  pose proof (nh_similarity_gauge gflag2 rflag2 fenv2 sol2 Hsol2 Hw2) as L2.
  destruct (outputs_of_sg gflag' rflag' fenv' sol' Hsol' Hw' _ _ _ Hin
              (similarity_gauge_transport2 L1 L2)) as (EU & EG & EH).
  destruct (outputs_of_sg gflag1 rflag1 fenv1 sol1 Hsol1 Hw1 _ _ _ (reflexivity _) L1) as (_ & _ & Ht1).
  destruct (outputs_of_sg gflag2 rflag2 fenv2 sol2 Hsol2 Hw2 _ _ _ (reflexivity _) L2) as (_ & _ & Ht2).
  destruct HP as [hP _ _ _ hmul _ hsel _].
  rewrite Ht1, Ht2, hsel, !hmul. repeat split; assumption.
Qed.
End NonHermitian.
End Transport2.

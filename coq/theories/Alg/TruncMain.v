(** The correctness theorems of the Hermitian algorithm "up to order M - 1": for a valuation that
    satisfies the equations of [main_alg] only modulo [ord M] (a solution in the truncated algebra
    of Alg/Trunc.v), the conclusions hold modulo [ord M].  This is what connects the correspondence
    check k_semeq (equations checked up to order N on the implementation's values) to the theorems. *)
Require Import Ncring Ncring_tac Setoid Morphisms ZArith String List.
From PV.Base Require Import Classes AlgLemmas.
From PV.DSL Require Import Syntax Sem.
From PV.Gen Require Import Algorithms_gen.
From PV.Alg Require Import MainLift MainCorrect Unique Trunc.
Open Scope string_scope.

Section Teq.
Context {T : Type} {r0 r1 : T} {add mul sub : T -> T -> T} {opp : T -> T} {req : T -> T -> Prop}
        {Ro : @Ring_ops T r0 r1 add mul sub opp req} {Rg : @Ring T r0 r1 add mul sub opp req Ro}
        {BA : BlockAlg T}.
Variable M : nat.
Lemma teq_refl x : teq M x x. Proof. apply lift_teq. reflexivity. Qed.
Lemma teq_trans x y z : teq M x y -> teq M y z -> teq M x z.
Proof. apply (teq_equiv M). Qed.
Lemma teq_sym x y : teq M x y -> teq M y x.
Proof. apply (teq_equiv M). Qed.
Lemma teq_comm a a' x x' : teq M a a' -> teq M x x' -> teq M (comm a x) (comm a' x').
Proof. intros Ha Hx. unfold comm. apply t_sub_P; apply t_mul_P; assumption. Qed.
Lemma teq_Sel x y : teq M x y -> teq M (Sel x) (Sel y).
Proof. intros E. apply (t_am_P M (f := Sel)); [intros k z; apply ord_Sel | exact E]. Qed.
Lemma teq_Rp x y : teq M x y -> teq M (Rp x) (Rp y).
Proof. intros E. unfold Rp. apply t_sub_P. exact E. apply teq_Sel. exact E. Qed.
End Teq.

Section TruncMain.
Context {T : Type} {r0 r1 : T} {add mul sub : T -> T -> T} {opp : T -> T} {req : T -> T -> Prop}
        {Ro : @Ring_ops T r0 r1 add mul sub opp req} {Rg : @Ring T r0 r1 add mul sub opp req Ro}
        {BA : BlockAlg T}.
Variable M : nat.
Hypothesis hsum_trunc : forall a a' b b', teq M a a' -> teq M b b' -> teq M (hsum a b) (hsum a' b').

Definition BAt : @BlockAlg T r0 r1 add mul sub opp (teq M) (trunc_ops M) := trunc_BlockAlg M hsum_trunc.
Definition Rgt : @Ring T r0 r1 add mul sub opp (teq M) (trunc_ops M) := trunc_ring M.

Variable rflag : string -> T -> T.
Variable fenv : string -> list T -> T.
Variable H : T.
Hypothesis Hw : wiring rflag fenv H.
Hypothesis sylv_sub : forall x y, sylv fenv (x - y) == sylv fenv x - sylv fenv y.

(** The wiring of the truncated algebra, when the facts about the input H' itself are only known
    modulo [ord M] (as established by the executable checks on the loaded table: H' Hermitian and
    with order-zero part H0 up to order M), everything else exactly. *)
Section FromH0.
Variable H' H0 : T.
Hypothesis f_rflag : forall x, rflag "commuting_blocks" x == Rw x.
Hypothesis f_comm_l : forall x y, Rw (Sel (Rp x * Sel y)) == 0.
Hypothesis f_comm_r : forall x y, Rw (Sel (Sel y * Rp x)) == 0.
Hypothesis f_sylv_ord : forall k y, ord k y -> ord k (sylv fenv y).
Hypothesis f_sylv_adj : forall y, sylv fenv (adj y) == - adj (sylv fenv y).
Hypothesis f_H0_kept : Sel H0 == H0.
Hypothesis f_Sel_adH0 : forall x, Sel (comm H0 x) == comm H0 (Sel x).
Hypothesis f_sylv_spec : forall y, Rp (comm H0 (sylv fenv y)) == Rp y.
Hypothesis t_herm : teq M (adj H') H'.
Hypothesis t_zero : teq M (Zc H') H0.

Lemma tH0_kept : teq M (Sel (Zc H')) (Zc H').
Proof.
  eapply teq_trans. apply teq_Sel. exact t_zero.
  eapply teq_trans. apply lift_teq. exact f_H0_kept. apply teq_sym. exact t_zero.
Qed.
Lemma tH0_Sel_ad x : teq M (Sel (comm (Zc H') x)) (comm (Zc H') (Sel x)).
Proof.
  eapply teq_trans. apply teq_Sel. apply teq_comm. exact t_zero. apply teq_refl.
  eapply teq_trans. apply lift_teq. apply f_Sel_adH0.
  apply teq_comm. apply teq_sym. exact t_zero. apply teq_refl.
Qed.
Lemma tH0_spec y : teq M (Rp (comm (Zc H') (sylv fenv y))) (Rp y).
Proof.
  eapply teq_trans. apply teq_Rp. apply teq_comm. exact t_zero. apply teq_refl.
  apply lift_teq. apply f_sylv_spec.
Qed.

Lemma trunc_wiring_H0 : @wiring T r0 r1 add mul sub opp (teq M) (trunc_ops M) BAt rflag fenv H'.
Proof.
  refine (@Build_wiring T r0 r1 add mul sub opp (teq M) (trunc_ops M) BAt rflag fenv H' _ _ _ _ _ _ _ _ _ _).
  - exact t_herm.
  - intros x. apply lift_teq. apply f_rflag.
  - intros x y. apply lift_teq. apply f_comm_l.
  - intros x y. apply lift_teq. apply f_comm_r.
  - intros x y E. change (teq M x y) in E. change (teq M (sylv fenv x) (sylv fenv y)).
    unfold teq in *. rewrite <- sylv_sub. apply f_sylv_ord. exact E.
  - intros k y Hy. change (ord (Nat.min k M) y) in Hy. change (ord (Nat.min k M) (sylv fenv y)). apply f_sylv_ord. exact Hy.
  - intros y. apply lift_teq. apply f_sylv_adj.
  - exact tH0_kept.
  - exact tH0_Sel_ad.
  - exact tH0_spec.
Qed.
End FromH0.

(* the exact wiring is the case H0 = Zc H *)
Lemma trunc_wiring_eq H' : H' == H -> @wiring T r0 r1 add mul sub opp (teq M) (trunc_ops M) BAt rflag fenv H'.
Proof.
  intros E. destruct Hw as [a b c d e f g h i j].
  apply trunc_wiring_H0 with (H0 := Zc H); try assumption.
  - apply lift_teq. rewrite E. exact a.
  - apply lift_teq. rewrite E. reflexivity.
Qed.
Lemma trunc_wiring : @wiring T r0 r1 add mul sub opp (teq M) (trunc_ops M) BAt rflag fenv H.
Proof. apply trunc_wiring_eq. reflexivity. Qed.

Variable sol : string -> T.
Hypothesis HH : sol "H" == H.
Hypothesis Hsol : @solution T r0 r1 add mul sub opp (teq M) (trunc_ops M) BAt (gflag_of false) rflag fenv sol main_alg.

Lemma trunc_wiring_sol : @wiring T r0 r1 add mul sub opp (teq M) (trunc_ops M) BAt rflag fenv (sol "H").
Proof. exact (trunc_wiring_eq _ HH). Qed.

Theorem kept_upto : teq M (Sel (sol "U†" * sol "H" * sol "U")) (sol "H_tilde").
Proof. exact (@kept_general T r0 r1 add mul sub opp (teq M) (trunc_ops M) Rgt BAt rflag fenv sol Hsol trunc_wiring_sol). Qed.
Theorem eliminated_upto : teq M (Rp (sol "U†" * sol "H" * sol "U")) 0.
Proof. exact (@eliminated_general T r0 r1 add mul sub opp (teq M) (trunc_ops M) Rgt BAt rflag fenv sol Hsol trunc_wiring_sol). Qed.
Theorem unitary_l_upto : teq M (sol "U†" * sol "U") 1.
Proof. exact (@unitary_l_general T r0 r1 add mul sub opp (teq M) (trunc_ops M) Rgt BAt rflag fenv sol Hsol trunc_wiring_sol). Qed.
Theorem unitary_r_upto : teq M (sol "U" * sol "U†") 1.
Proof. exact (@unitary_r_general T r0 r1 add mul sub opp (teq M) (trunc_ops M) Rgt BAt rflag fenv sol Hsol trunc_wiring_sol). Qed.
Theorem adjoint_upto : teq M (adj (sol "U")) (sol "U†").
Proof. exact (@adjoint_general T r0 r1 add mul sub opp (teq M) (trunc_ops M) Rgt BAt rflag fenv sol Hsol trunc_wiring_sol). Qed.
Theorem Ht_herm_upto : teq M (adj (sol "H_tilde")) (sol "H_tilde").
Proof. exact (@Ht_herm_general T r0 r1 add mul sub opp (teq M) (trunc_ops M) Rgt BAt rflag fenv sol Hsol trunc_wiring_sol). Qed.
Theorem gauge_upto : teq M (Sel (half ((sol "U" - 1) - adj (sol "U" - 1)))) 0.
Proof. exact (@gauge_general T r0 r1 add mul sub opp (teq M) (trunc_ops M) Rgt BAt rflag fenv sol Hsol trunc_wiring_sol). Qed.
End TruncMain.

(** Two-block optimisation: the parity laws of [wiring_tb] hold exactly, hence in the truncated algebra. *)
Section TruncTB.
Context {T : Type} {r0 r1 : T} {add mul sub : T -> T -> T} {opp : T -> T} {req : T -> T -> Prop}
        {Ro : @Ring_ops T r0 r1 add mul sub opp req} {Rg : @Ring T r0 r1 add mul sub opp req Ro}
        {BA : BlockAlg T}.
Variable M : nat.
Hypothesis hsum_trunc : forall a a' b b', teq M a a' -> teq M b b' -> teq M (hsum a b) (hsum a' b').
Variable rflag : string -> T -> T.
Variable fenv : string -> list T -> T.
Variable H' : T.
Lemma trunc_wiring_tb :
  @wiring T r0 r1 add mul sub opp (teq M) (trunc_ops M) (BAt M hsum_trunc) rflag fenv H' ->
  (forall x, Sel x == Dg x) -> (forall x, Rw (Dg x) == Dg x) ->
  (forall x y, Dg (Od x * Od y) == Od x * Od y) ->
  (forall x y, Up (Dg x * Up y) == Dg x * Up y) -> (forall x y, Up (Up x * Dg y) == Up x * Dg y) ->
  (forall x y, Lo (Dg x * Lo y) == Dg x * Lo y) -> (forall x y, Lo (Lo x * Dg y) == Lo x * Dg y) ->
  @wiring_tb T r0 r1 add mul sub opp (teq M) (trunc_ops M) (BAt M hsum_trunc) rflag fenv H'.
Proof.
  intros W h1 h2 h3 h4 h5 h6 h7.
  refine (@Build_wiring_tb T r0 r1 add mul sub opp (teq M) (trunc_ops M) (BAt M hsum_trunc) rflag fenv H' W _ _ _ _ _ _ _).
  - intros x. apply lift_teq, h1.
  - intros x. apply lift_teq, h2.
  - intros x y. apply lift_teq, h3.
  - intros x y. apply lift_teq, h4.
  - intros x y. apply lift_teq, h5.
  - intros x y. apply lift_teq, h6.
  - intros x y. apply lift_teq, h7.
Qed.
End TruncTB.

(** The semantics of a program in the truncated algebra is its semantics in the original one: the
    operations coincide, only the equality differs. *)
Section TruncSem.
Context {T : Type} {r0 r1 : T} {add mul sub : T -> T -> T} {opp : T -> T} {req : T -> T -> Prop}
        {Ro : @Ring_ops T r0 r1 add mul sub opp req} {Rg : @Ring T r0 r1 add mul sub opp req Ro}
        {BA : BlockAlg T}.
Variable M : nat.
Hypothesis hsum_trunc : forall a a' b b', teq M a a' -> teq M b b' -> teq M (hsum a b) (hsum a' b').
Variable gflag : string -> bool.
Variable rflag : string -> T -> T.
Variable fenv : string -> list T -> T.
Variable sol : string -> T.
Local Notation BAt := (BAt M hsum_trunc).
Lemma solution_trunc alg :
  (forall d, In d (aseries alg) ->
     teq M (sol (sname d)) (with_start sol (sstart d) (body_den gflag rflag fenv sol (sname d) (sbody d)))) ->
  (forall p, In p (aproducts alg) -> teq M (sol (pname p)) (product_den sol p)) ->
  @solution T r0 r1 add mul sub opp (teq M) (trunc_ops M) BAt gflag rflag fenv sol alg.
Proof.
  intros Hs Hp. split; apply Forall_forall; assumption.
Qed.

(** Uniqueness up to order M - 1: a U' that satisfies the least-action conditions modulo [ord M] agrees,
    modulo [ord M], with the U of any solution of [main_alg] in the truncated algebra. *)
Theorem unique_upto (U' : T) :
  @solution T r0 r1 add mul sub opp (teq M) (trunc_ops M) BAt (gflag_of false) rflag fenv sol main_alg ->
  @wiring T r0 r1 add mul sub opp (teq M) (trunc_ops M) BAt rflag fenv (sol "H") ->
  (forall x, teq M (Rp (sylv fenv (comm (Zc (sol "H")) (Rp x)))) (Rp x)) ->
  ord 1 (U' - 1) ->
  teq M (adj U' * U') 1 ->
  teq M (Rp (adj U' * sol "H" * U')) 0 ->
  teq M (Sel (half ((U' - 1) - adj (U' - 1)))) 0 ->
  teq M U' (sol "U").
Proof.
  intros Hsol W sleft h1 h2 h3 h4.
  pose proof (@main_least_action T r0 r1 add mul sub opp (teq M) (trunc_ops M) (Rgt M) BAt rflag fenv sol Hsol W) as L2.
  assert (L1 : @least_action T r0 r1 add mul sub opp (teq M) (trunc_ops M) BAt (sol "H") U').
  { refine (conj _ (conj h2 (conj h3 h4))). exact (AlgLemmas.ord_le _ (Nat.le_min_l 1 M) h1). }
  destruct W as [_ _ _ _ _ sO _ _ sA _].
  exact (@least_action_unique T r0 r1 add mul sub opp (teq M) (trunc_ops M) (Rgt M) BAt (sol "H") sA (sylv fenv) sO sleft
           U' (sol "U") L1 L2).
Qed.
End TruncSem.

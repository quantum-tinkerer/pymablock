(** The corner of a [BlockAlg] by a self-adjoint, block-diagonal, order-zero idempotent [e].

    In implicit mode (C06) the last block of every series is an operator on the full Hilbert
    space that lives in the range of the complement projector P: the block algebra the code
    computes in is the corner  e T e  with  e = diag(1, ..., 1, P)  and unit e.  This file shows
    that the corner is again a [BlockAlg] ([corner_BlockAlg]), so every theorem proved for an
    arbitrary [BlockAlg] (C01, C02, C03, C05 and the naturality theorem used in C06) applies to
    the implicit computation itself.

    Construction: same carrier; equality  x ~ y  :=  e x e == e y e ; product  x . y := x e y ;
    unit e; all structure maps unchanged.  The hypotheses on [e] are exactly: idempotent,
    self-adjoint, block diagonal, of order zero, and compression by [e] commutes with the block
    triangles, the kept-element selection and the row selection (true for a block-diagonal
    projector whose blocks are 1 on every block that carries a mask). *)
Require Import Ncring Ncring_tac Setoid Morphisms ZArith Lia.
From PV.Base Require Import Classes AlgLemmas.
Set Implicit Arguments.

Section Corner.
Context {T : Type} {r0 r1 : T} {add mul sub : T -> T -> T} {opp : T -> T} {req : T -> T -> Prop}
        {Ro : @Ring_ops T r0 r1 add mul sub opp req} {Rg : @Ring T r0 r1 add mul sub opp req Ro}
        {BA : BlockAlg T}.

Variable e : T.
Definition c (x : T) : T := e * x * e.

Hypothesis e_idem : e * e == e.
Hypothesis e_adj : adj e == e.
Hypothesis e_Dg : Dg e == e.
Hypothesis e_Zc : Zc e == e.
Hypothesis Up_c : forall x, Up (c x) == c (Up x).
Hypothesis Lo_c : forall x, Lo (c x) == c (Lo x).
Hypothesis Sel_c : forall x, Sel (c x) == c (Sel x).
Hypothesis Rw_c : forall x, Rw (c x) == c (Rw x).

Definition ceq (x y : T) : Prop := c x == c y.
Definition cmul (x y : T) : T := x * e * y.

(** ** compression *)
Instance c_P : Proper (_==_ ==> _==_) c.
Proof. intros x y E. unfold c. rewrite E. reflexivity. Qed.
Lemma c_add x y : c (x + y) == c x + c y. Proof. unfold c. non_commutative_ring. Qed.
Lemma c_opp x : c (- x) == - c x. Proof. unfold c. non_commutative_ring. Qed.
Lemma c_sub x y : c (x - y) == c x - c y. Proof. unfold c. non_commutative_ring. Qed.
Lemma c_zero : c 0 == 0. Proof. unfold c. non_commutative_ring. Qed.
Instance c_am : AddMap c := {| am_P := c_P; am_add := c_add; am_opp := c_opp |}.

Lemma eee x : e * (e * x) == e * x.
Proof. rewrite ring_mul_assoc, e_idem. reflexivity. Qed.
Lemma xee x : x * e * e == x * e.
Proof. rewrite <- ring_mul_assoc, e_idem. reflexivity. Qed.
Lemma c_idem x : c (c x) == c x.
Proof. unfold c. rewrite <- !ring_mul_assoc. rewrite eee. rewrite !ring_mul_assoc. rewrite xee. reflexivity. Qed.
Lemma c_mul x y : c (x * e * y) == c x * c y.
Proof.
  unfold c.
  assert (E : e * x * e * (e * y * e) == e * x * (e * e) * y * e) by non_commutative_ring.
  rewrite E, e_idem. non_commutative_ring.
Qed.
Lemma c_e : c e == e.
Proof. unfold c. rewrite e_idem, e_idem. reflexivity. Qed.
Lemma c_mul_cc x y : c (c x * c y) == c x * c y.
Proof.
  unfold c.
  assert (E : e * (e * x * e * (e * y * e)) * e == (e * e) * x * e * (e * y * (e * e))) by non_commutative_ring.
  rewrite E, e_idem. reflexivity.
Qed.
Lemma c_e_l x : c (e * x) == c x.
Proof. unfold c. rewrite (ring_mul_assoc e e x), e_idem. reflexivity. Qed.
Lemma c_e_r x : c (x * e) == c x.
Proof. unfold c. rewrite <- !ring_mul_assoc, e_idem. reflexivity. Qed.

(** ** structure maps commute with compression *)
Lemma adj_c x : adj (c x) == c (adj x).
Proof. unfold c. rewrite !adj_mul, e_adj. non_commutative_ring. Qed.
Lemma Dg_c x : Dg (c x) == c (Dg x).
Proof.
  unfold c.
  assert (E : e * x * e == Dg e * (x * Dg e)) by (rewrite e_Dg; non_commutative_ring).
  rewrite E, Dg_mul_l, Dg_mul_r, e_Dg. non_commutative_ring.
Qed.
Lemma Zc_c x : Zc (c x) == c (Zc x).
Proof. unfold c. rewrite !Zc_mul, e_Zc. reflexivity. Qed.
Lemma divz_c x k : k <> 0%Z -> divz (c x) k == c (divz x k).
Proof. intros Hk. symmetry. apply divz_am. exact c_am. exact Hk. Qed.
Lemma ord_c k x : ord k x -> ord k (c x).
Proof. intros H. unfold c. apply ord_mul_any_l, ord_mul_any_r, H. Qed.

(** ** the corner ring *)
Definition corner_ops : @Ring_ops T r0 e add cmul sub opp ceq.
Proof. constructor. Defined.

Lemma ceq_equiv : Equivalence ceq.
Proof.
  split.
  - intros x. unfold ceq. reflexivity.
  - intros x y E. unfold ceq in *. symmetry. exact E.
  - intros x y z E1 E2. unfold ceq in *. rewrite E1. exact E2.
Qed.
Lemma k_add_P : Proper (ceq ==> ceq ==> ceq) add.
Proof. intros x x' E y y' E'. unfold ceq in *. change (c (x + y) == c (x' + y')). rewrite !c_add, E, E'. reflexivity. Qed.
Lemma k_mul_P : Proper (ceq ==> ceq ==> ceq) cmul.
Proof. intros x x' E y y' E'. unfold ceq, cmul in *. rewrite !c_mul, E, E'. reflexivity. Qed.
Lemma k_sub_P : Proper (ceq ==> ceq ==> ceq) sub.
Proof. intros x x' E y y' E'. unfold ceq in *. change (c (x - y) == c (x' - y')). rewrite !c_sub, E, E'. reflexivity. Qed.
Lemma k_opp_P : Proper (ceq ==> ceq) opp.
Proof. intros x x' E. unfold ceq in *. change (c (- x) == c (- x')). rewrite !c_opp, E. reflexivity. Qed.

Lemma lift_eq x y : x == y -> ceq x y.
Proof. intros E. unfold ceq. rewrite E. reflexivity. Qed.

Lemma k_add_0_l x : ceq (0 + x) x. Proof. apply lift_eq. non_commutative_ring. Qed.
Lemma k_add_comm x y : ceq (x + y) (y + x). Proof. apply lift_eq. non_commutative_ring. Qed.
Lemma k_add_assoc x y z : ceq (x + (y + z)) ((x + y) + z). Proof. apply lift_eq. non_commutative_ring. Qed.
Lemma k_mul_1_l x : ceq (cmul e x) x.
Proof. unfold ceq, cmul. rewrite e_idem. apply c_e_l. Qed.
Lemma k_mul_1_r x : ceq (cmul x e) x.
Proof. unfold ceq, cmul. rewrite xee. apply c_e_r. Qed.
Lemma k_mul_assoc x y z : ceq (cmul x (cmul y z)) (cmul (cmul x y) z).
Proof. apply lift_eq. unfold cmul. non_commutative_ring. Qed.
Lemma k_distr_l x y z : ceq (cmul (x + y) z) (cmul x z + cmul y z).
Proof. apply lift_eq. unfold cmul. non_commutative_ring. Qed.
Lemma k_distr_r x y z : ceq (cmul z (x + y)) (cmul z x + cmul z y).
Proof. apply lift_eq. unfold cmul. non_commutative_ring. Qed.
Lemma k_sub_def x y : ceq (x - y) (x + - y). Proof. apply lift_eq. non_commutative_ring. Qed.
Lemma k_opp_def x : ceq (x + - x) 0. Proof. apply lift_eq. non_commutative_ring. Qed.

Definition corner_ring : @Ring T r0 e add cmul sub opp ceq corner_ops :=
  @Build_Ring T r0 e add cmul sub opp ceq corner_ops
    ceq_equiv k_add_P k_mul_P k_sub_P k_opp_P
    k_add_0_l k_add_comm k_add_assoc k_mul_1_l k_mul_1_r k_mul_assoc k_distr_l k_distr_r k_sub_def k_opp_def.

(** ** structure maps on the corner *)
Definition cAddMap (f : T -> T) := @AddMap T r0 e add cmul sub opp ceq corner_ops f.

Section KAM.
Variable f : T -> T.
Context {Hf : AddMap f}.
Hypothesis Hc : forall x, f (c x) == c (f x).
Lemma k_am_P : Proper (ceq ==> ceq) f.
Proof. intros x y E. unfold ceq in *. rewrite <- !Hc. apply am_P. exact E. Qed.
Lemma k_am_add x y : ceq (f (x + y)) (f x + f y). Proof. apply lift_eq. apply am_add. Qed.
Lemma k_am_opp x : ceq (f (- x)) (- f x). Proof. apply lift_eq. apply am_opp. Qed.
Definition k_am : cAddMap f :=
  @Build_AddMap T r0 e add cmul sub opp ceq corner_ops f k_am_P k_am_add k_am_opp.
End KAM.

Definition cord (k : nat) (x : T) : Prop := ord k (c x).
Definition chsum (a b : T) : T := hsum (c a) (c b).

Lemma cord_map (f : T -> T) : (forall x, f (c x) == c (f x)) -> (forall k x, ord k x -> ord k (f x)) ->
  forall k x, cord k x -> cord k (f x).
Proof. intros Hc Ho k x H. unfold cord in *. rewrite <- Hc. apply Ho. exact H. Qed.

Definition cdivz (x : T) (k : Z) : T := divz (c x) k.

Lemma k_divz_P k : Proper (ceq ==> ceq) (fun x => cdivz x k).
Proof. intros x y E. unfold ceq, cdivz in *. rewrite E. reflexivity. Qed.
Lemma k_divz_add k x y : ceq (cdivz (x + y) k) (cdivz x k + cdivz y k).
Proof. apply lift_eq. unfold cdivz. rewrite c_add. apply divz_add. Qed.
Lemma k_divz_opp k x : ceq (cdivz (- x) k) (- cdivz x k).
Proof. apply lift_eq. unfold cdivz. rewrite c_opp. apply divz_opp. Qed.
Lemma k_divz_spec k x : k <> 0%Z -> ceq (zmul k (cdivz x k)) x.
Proof. intros Hk. unfold ceq, cdivz. rewrite (divz_spec (c x) Hk). apply c_idem. Qed.

Lemma k_adj_mul x y : ceq (adj (cmul x y)) (cmul (adj y) (adj x)).
Proof. apply lift_eq. unfold cmul. rewrite !adj_mul, e_adj. non_commutative_ring. Qed.
Lemma k_adj_inv x : ceq (adj (adj x)) x. Proof. apply lift_eq. apply adj_inv. Qed.
Lemma k_adj_one : ceq (adj e) e. Proof. apply lift_eq. exact e_adj. Qed.

Lemma k_blk_split x : ceq x (Dg x + Up x + Lo x). Proof. apply lift_eq. apply blk_split. Qed.
Lemma k_Dg_mul_l x y : ceq (Dg (cmul (Dg x) y)) (cmul (Dg x) (Dg y)).
Proof.
  apply lift_eq. unfold cmul.
  assert (E : Dg x * e * y == Dg x * (Dg e * y)) by (rewrite e_Dg; non_commutative_ring).
  rewrite E, Dg_mul_l, Dg_mul_l, e_Dg. non_commutative_ring.
Qed.
Lemma k_Dg_mul_r x y : ceq (Dg (cmul x (Dg y))) (cmul (Dg x) (Dg y)).
Proof.
  apply lift_eq. unfold cmul.
  assert (E : x * e * Dg y == (x * Dg e) * Dg y) by (rewrite e_Dg; non_commutative_ring).
  rewrite E, Dg_mul_r, Dg_mul_r, e_Dg. reflexivity.
Qed.
Lemma k_Dg_one : ceq (Dg e) e. Proof. apply lift_eq. exact e_Dg. Qed.

Lemma k_ord_P k : Proper (ceq ==> iff) (cord k).
Proof. intros x y E. unfold ceq, cord in *. rewrite E. reflexivity. Qed.
Lemma k_ord_O x : cord O x. Proof. apply ord_O. Qed.
Lemma k_ord_S k x : cord (S k) x -> cord k x. Proof. apply ord_S. Qed.
Lemma k_ord_zero k : cord k 0. Proof. unfold cord. rewrite c_zero. apply ord_zero. Qed.
Lemma k_ord_add k x y : cord k x -> cord k y -> cord k (x + y).
Proof. unfold cord. intros. rewrite c_add. apply ord_add; assumption. Qed.
Lemma k_ord_opp k x : cord k x -> cord k (- x).
Proof. unfold cord. intros. rewrite c_opp. apply ord_opp; assumption. Qed.
Lemma k_ord_mul a b x y : cord a x -> cord b y -> cord (Nat.add a b) (cmul x y).
Proof. unfold cord, cmul. intros. rewrite c_mul. apply ord_mul; assumption. Qed.
Lemma k_ord_sep x : (forall k, cord k x) -> ceq x 0.
Proof. intros H. unfold ceq. rewrite c_zero. apply ord_sep. exact H. Qed.
Lemma k_ord_adj k x : cord k x -> cord k (adj x).
Proof. apply cord_map. apply adj_c. intros; apply ord_adj; assumption. Qed.
Lemma k_ord_divz k x z : cord k x -> cord k (cdivz x z).
Proof. unfold cord, cdivz. intros H. apply ord_c. apply ord_divz. exact H. Qed.
Lemma k_ord_Dg k x : cord k x -> cord k (Dg x).
Proof. apply cord_map. apply Dg_c. intros; apply ord_Dg; assumption. Qed.
Lemma k_ord_Up k x : cord k x -> cord k (Up x).
Proof. apply cord_map. apply Up_c. intros; apply ord_Up; assumption. Qed.
Lemma k_ord_Lo k x : cord k x -> cord k (Lo x).
Proof. apply cord_map. apply Lo_c. intros; apply ord_Lo; assumption. Qed.
Lemma k_ord_Sel k x : cord k x -> cord k (Sel x).
Proof. apply cord_map. apply Sel_c. intros; apply ord_Sel; assumption. Qed.
Lemma k_ord_Rw k x : cord k x -> cord k (Rw x).
Proof. apply cord_map. apply Rw_c. intros; apply ord_Rw; assumption. Qed.

Lemma k_Zc_mul x y : ceq (Zc (cmul x y)) (cmul (Zc x) (Zc y)).
Proof. apply lift_eq. unfold cmul. rewrite !Zc_mul, e_Zc. reflexivity. Qed.
Lemma k_Zc_one : ceq (Zc e) e. Proof. apply lift_eq. exact e_Zc. Qed.
Lemma k_Zc_ord x : cord 1 x <-> ceq (Zc x) 0.
Proof. unfold cord, ceq. rewrite c_zero, <- Zc_c. apply Zc_ord. Qed.

Lemma k_hsum_P : Proper (ceq ==> ceq ==> ceq) chsum.
Proof. intros a a' E b b' E'. unfold ceq, chsum in *. rewrite E, E'. reflexivity. Qed.
Lemma k_hsum_Dg a b : ceq (Dg (chsum a b)) (chsum a b).
Proof. apply lift_eq. apply hsum_Dg. Qed.
Lemma k_hsum_spec k a b : cord 1 a -> cord 1 b -> cord k (b - adj a) ->
  cord (S k) (chsum a b - Dg (cmul a b)).
Proof.
  unfold cord, chsum, cmul. intros Ha Hb Hk.
  rewrite c_sub, <- Dg_c, c_mul.
  assert (E : c (hsum (c a) (c b)) - Dg (c a * c b) == c (hsum (c a) (c b) - Dg (c a * c b))).
  { rewrite c_sub, <- Dg_c, c_mul_cc. reflexivity. }
  rewrite E. apply ord_c. apply hsum_spec; try assumption.
  rewrite adj_c, <- c_sub. exact Hk.
Qed.

Definition corner_BlockAlg : @BlockAlg T r0 e add cmul sub opp ceq corner_ops :=
  @Build_BlockAlg T r0 e add cmul sub opp ceq corner_ops
    adj (k_am adj_c) k_adj_mul k_adj_inv k_adj_one
    cdivz k_divz_P k_divz_add k_divz_opp k_divz_spec
    Dg Up Lo (k_am Dg_c) (k_am Up_c) (k_am Lo_c)
    k_blk_split
    (fun x => lift_eq (Dg_Dg x)) (fun x => lift_eq (Up_Up x)) (fun x => lift_eq (Lo_Lo x))
    (fun x => lift_eq (Dg_Up x)) (fun x => lift_eq (Dg_Lo x))
    (fun x => lift_eq (Up_Dg x)) (fun x => lift_eq (Up_Lo x))
    (fun x => lift_eq (Lo_Dg x)) (fun x => lift_eq (Lo_Up x))
    (fun x => lift_eq (Dg_adj x)) (fun x => lift_eq (Up_adj x)) (fun x => lift_eq (Lo_adj x))
    k_Dg_mul_l k_Dg_mul_r k_Dg_one
    Sel (k_am Sel_c)
    (fun x => lift_eq (Sel_idem x)) (fun x => lift_eq (Sel_adj x)) (fun x => lift_eq (Sel_Dg x)) (fun x => lift_eq (Dg_Sel x))
    Rw (k_am Rw_c)
    (fun x => lift_eq (Rw_idem x)) (fun x => lift_eq (Rw_Dg x)) (fun x => lift_eq (Rw_Sel x)) (fun x => lift_eq (Rw_adj_Dg x))
    cord k_ord_P k_ord_O k_ord_S k_ord_zero k_ord_add k_ord_opp k_ord_mul k_ord_sep k_ord_adj k_ord_divz
    k_ord_Dg k_ord_Up k_ord_Lo k_ord_Sel k_ord_Rw
    Zc (k_am Zc_c) k_Zc_mul k_Zc_one
    (fun x => lift_eq (Zc_idem x)) k_Zc_ord
    (fun x => lift_eq (Zc_adj x)) (fun x => lift_eq (Zc_Dg x)) (fun x => lift_eq (Zc_Up x)) (fun x => lift_eq (Zc_Lo x)) (fun x => lift_eq (Zc_Sel x))
    chsum k_hsum_P k_hsum_Dg k_hsum_spec.

End Corner.

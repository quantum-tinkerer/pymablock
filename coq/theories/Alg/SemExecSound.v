(** Soundness of the executable reading Alg/SemExec.v: if [check_sdef] / [check_pdef] succeed,
    the DENOTATIONS of the loaded tables satisfy the corresponding equation of the abstract
    semantics DSL/Sem.v in the concrete [BlockAlg] of Series/Inst.v, up to total order N
    ([eqN N], i.e. modulo [ord (S N)]).  So the correspondence check k_semeq ties the
    implementation to the semantics the theorems of Alg/ are about, not to a second model. *)
Require Import List ZArith QArith Arith Bool String Ncring Setoid Morphisms.
From PV.Base Require Import Classes AlgLemmas.
From PV.Series Require Import MultiIndex Cauchy Lift Inst ExecIdx Exec SylvInst.
From PV.Block Require Import Mat Masks CoefAlg BlockSel ExecScalar QLemmas QInst.
From PV.DSL Require Import Syntax Sem.
From PV.Alg Require Import SemExec.
Open Scope string_scope.

Section Sound.
Variables D k N : nat.
Variable bl : list nat.
Variable msk : list (list bool).
Variable cb : list bool.
Variable El : list gq.
Variable tb : bool.
Variable sols : list (string * tser gq).

Let blk := mk_blk bl.
Let keep := mk_keep bl msk.
Let cm := mk_cm bl cb.
Let ksym := mk_keep_sym bl msk.
Let kblk := mk_keep_blk bl msk.
Let cblk := mk_cm_blk bl cb.

Local Notation TT := (T D k gq).
Definition BAi : BlockAlg TT :=
  @series_BlockAlg D k gq _ _ _ _ _ _ _ _ gq_Ring gq_CStar blk keep cm ksym kblk cblk.
Local Hint Extern 0 (BlockAlg _) => exact BAi : typeclass_instances.

Definition asol (s : string) : TT := Exec.den D k (tsol sols s).
Definition arflag (n : string) (x : TT) : TT := Rw x.
Definition afenv (f : string) (l : list TT) : TT :=
  match l with
  | cons y nil => sylv (D := D) (k := k) (Efun El) gq_inv0 y
  | _ => Algebra_syntax.zero
  end.

Local Notation E := (eqN D k N).
Local Notation sden := (Sem.den (gflag tb) arflag afenv asol).

Lemma E_refl x : E x x. Proof. apply (eqN_refl (Rg := gq_Ring)). Qed.
Lemma E_trans x y z : E x y -> E y z -> E x z. Proof. apply (eqN_trans (Rg := gq_Ring)). Qed.

Lemma sylv_E x x' : E x x' -> E (sylv (D := D) (k := k) (Efun El) gq_inv0 x) (sylv (Efun El) gq_inv0 x').
Proof.
  intros H n Hn Hd i j Hi Hj. unfold sylv. rewrite (H n Hn Hd i j Hi Hj). reflexivity.
Qed.

(* each table operation computes the abstract one up to order N *)
Local Notation R x y := (E (Exec.den D k x) y).
Lemma zero_s : R nil Algebra_syntax.zero.
Proof. apply eq_eqN. apply tzero_den. Unshelve. all: try exact gq_Ring; try exact gq_Exec. Qed.
Lemma one_s : R (xone D k N) Algebra_syntax.one. Proof. apply tone_den. Qed.
Lemma add_s x y a b : R x a -> R y b -> R (xadd D k N x y) (Algebra_syntax.addition a b).
Proof. intros. eapply E_trans. apply tadd_den. apply (eqN_add (Rg := gq_Ring)); assumption. Qed.
Lemma sub_s x y a b : R x a -> R y b -> R (xsub D k N x y) (Algebra_syntax.subtraction a b).
Proof. intros. eapply E_trans. apply tsub_den. apply (eqN_sub (Rg := gq_Ring)); assumption. Qed.
Lemma mul_s x y a b : R x a -> R y b -> R (xmul D k N x y) (Algebra_syntax.multiplication a b).
Proof. intros. eapply E_trans. apply tmul_den; try exact gq_Ring. apply (eqN_mul (Rg := gq_Ring)); assumption. Qed.
Lemma opp_s x a : R x a -> R (xopp D k N x) (Algebra_syntax.opposite a).
Proof. intros. eapply E_trans. apply topp_den. apply (eqN_opp (Rg := gq_Ring)); assumption. Qed.
Lemma adj_s x a : R x a -> R (xadj D k N bl msk cb x) (adj a).
Proof. intros. unfold xadj. eapply E_trans. apply tadj_den. apply (eqN_adj (Rg := gq_Ring)); assumption. Qed.
Lemma divz_s x a z : R x a -> R (xdivz D k N bl msk cb x z) (divz a z).
Proof. intros. unfold xdivz. eapply E_trans. apply tdivz_den. apply (eqN_divz (Rg := gq_Ring)); assumption. Qed.
Lemma Dg_s x a : R x a -> R (xDg D k N bl msk cb x) (Dg a).
Proof. intros. unfold xDg. eapply E_trans. apply tDg_den. apply (eqN_Dg (Rg := gq_Ring)); assumption. Qed.
Lemma Up_s x a : R x a -> R (xUp D k N bl msk cb x) (Up a).
Proof. intros. unfold xUp. eapply E_trans. apply tUp_den. apply (eqN_Up (Rg := gq_Ring)); assumption. Qed.
Lemma Lo_s x a : R x a -> R (xLo D k N bl msk cb x) (Lo a).
Proof. intros. unfold xLo. eapply E_trans. apply tLo_den. apply (eqN_Lo (Rg := gq_Ring)); assumption. Qed.
Lemma Sel_s x a : R x a -> R (xSel D k N bl msk cb x) (Sel a).
Proof. intros. unfold xSel. eapply E_trans. apply tSel_den. apply (eqN_Sel (Rg := gq_Ring)); assumption. Qed.
Lemma Rw_s x a : R x a -> R (xRw D k N bl msk cb x) (Rw a).
Proof. intros. unfold xRw. eapply E_trans. apply tRw_den. apply (eqN_Rw (Rg := gq_Ring)); assumption. Qed.
Lemma Zc_s x a : R x a -> R (xZc D k N bl msk cb x) (Zc a).
Proof. intros. unfold xZc. eapply E_trans. apply tZc_den. apply (eqN_Zc (Rg := gq_Ring)); assumption. Qed.
Lemma hsum_s x y : R (xhsum D k N bl x y) (hsum (Exec.den D k x) (Exec.den D k y)).
Proof. unfold xhsum. eapply E_trans. apply thsum_den; try exact gq_Ring. apply E_refl. Qed.
Lemma Rp_s x a : R x a -> R (xRp D k N bl msk cb x) (Rp a).
Proof. intros. unfold xRp. apply sub_s. assumption. apply Sel_s. assumption. Qed.
Lemma Pos_s x a : R x a -> R (xPos D k N bl msk cb x) (Pos a).
Proof. intros. unfold xPos. apply sub_s. assumption. apply Zc_s. assumption. Qed.

Lemma tden_sound : forall e, supported e = true ->
  R (tden D k N bl msk cb El tb sols e) (sden e).
Proof.
  fix IH 1. intros e. destruct e as [s|s| |a|a b|a b|a z|f args|c a b]; cbn [supported tden Sem.den]; intros Hs.
  - apply E_refl.
  - apply adj_s, E_refl.
  - apply zero_s.
  - apply opp_s, IH, Hs.
  - apply andb_prop in Hs. destruct Hs as [H1 H2]. apply add_s; apply IH; assumption.
  - apply andb_prop in Hs. destruct Hs as [H1 H2]. apply sub_s; apply IH; assumption.
  - apply andb_prop in Hs. destruct Hs as [H1 H2]. apply divz_s, IH, H1.
  - destruct args as [|[s|a] [|x r]]; try discriminate.
    apply andb_prop in Hs. destruct Hs as [H1 H2].
    cbn [map afenv]. unfold xsylv. eapply E_trans. apply den_tab. apply sylv_E. apply IH. exact H2.
  - destruct c as [n|n].
    + apply andb_prop in Hs. destruct Hs as [H1 H2]. destruct (gflag tb n); apply IH; assumption.
    + apply andb_prop in Hs. destruct Hs as [H12 H3]. apply andb_prop in H12. destruct H12 as [H1 H2].
      unfold arflag. apply add_s. apply Rw_s, IH, H2. apply sub_s. apply IH, H3. apply Rw_s, IH, H3.
Qed.

Lemma tline_sound c e : supported e = true ->
  R (tline D k N bl msk cb El tb sols c e) (line_den (gflag tb) arflag afenv asol c e).
Proof.
  intros Hs. destruct c; cbn [tline line_den].
  - apply tden_sound, Hs.
  - apply Sel_s, tden_sound, Hs.
  - apply Rp_s, tden_sound, Hs.
Qed.

Lemma tlines_sound b : lines_supported b = true ->
  R (tlines D k N bl msk cb El tb sols b) (lines_den (gflag tb) arflag afenv asol b).
Proof.
  induction b as [|l b IH]; cbn [lines_supported tlines lines_den]; intros Hs.
  - apply zero_s.
  - destruct l as [c e|h].
    + apply andb_prop in Hs. destruct Hs as [H1 H2]. apply add_s. apply tline_sound, H1. apply IH, H2.
    + apply IH, Hs.
Qed.

Lemma split_supported b pre m : SemExec.split_marker b = (pre, m) -> lines_supported b = true ->
  lines_supported pre = true /\ match m with Some (_, post) => lines_supported post = true | None => True end.
Proof.
  revert pre m. induction b as [|l b IH]; cbn [SemExec.split_marker lines_supported]; intros pre m Hsp Hs.
  - inversion Hsp; subst. split; reflexivity.
  - destruct l as [c e|h].
    + destruct (SemExec.split_marker b) as [pre' m'] eqn:Eb. inversion Hsp; subst.
      apply andb_prop in Hs. destruct Hs as [H1 H2].
      destruct (IH pre' m eq_refl H2) as [Ha Hb]. split. cbn [lines_supported]. rewrite H1, Ha. reflexivity. exact Hb.
    + inversion Hsp; subst. split. reflexivity. exact Hs.
Qed.
Lemma split_same b : SemExec.split_marker b = Sem.split_marker b.
Proof. induction b as [|l b IH]. reflexivity. destruct l as [c e|h]; cbn [SemExec.split_marker Sem.split_marker]. rewrite IH. reflexivity. reflexivity. Qed.

Lemma tbody_sound s b : lines_supported b = true ->
  R (tbody D k N bl msk cb El tb sols s b) (body_den (gflag tb) arflag afenv asol s b).
Proof.
  intros Hs. unfold tbody, body_den. pose proof (split_same b) as Es.
  destruct (SemExec.split_marker b) as [pre [[h post]|]] eqn:Eb; rewrite <- Es.
  - destruct (split_supported b _ _ Eb Hs) as [Hp Hq].
    pose proof (add_s _ _ _ _ (tlines_sound pre Hp) (tlines_sound post Hq)) as Eall.
    apply add_s. apply add_s. apply add_s. apply Dg_s, Eall. apply Up_s, Eall. apply Lo_s, tlines_sound, Hp.
    destruct h.
    + apply adj_s, Up_s, E_refl.
    + apply opp_s, adj_s, Up_s, E_refl.
  - destruct (split_supported b _ _ Eb Hs) as [Hp _]. apply tlines_sound, Hp.
Qed.

Lemma twith_start_sound st x y : R x y ->
  R (twith_start D k N bl msk cb sols st x) (with_start asol st y).
Proof.
  intros H. destruct st; cbn [twith_start with_start].
  - exact H.
  - apply Pos_s, H.
  - apply add_s. apply one_s. apply sub_s. exact H. apply Dg_s, Zc_s, H.
  - apply add_s. apply Zc_s, E_refl. apply Pos_s, H.
  - exact H.
Qed.

Theorem check_sdef_sound d : check_sdef D k N bl msk cb El tb sols d = true ->
  E (asol (sname d)) (with_start asol (sstart d) (body_den (gflag tb) arflag afenv asol (sname d) (sbody d))).
Proof.
  unfold check_sdef. intros H. apply andb_prop in H. destruct H as [Hs Ht].
  apply teqb_sound in Ht. eapply E_trans. exact Ht.
  apply twith_start_sound. apply tbody_sound. exact Hs.
Qed.

Lemma tprod_sound fs x y : R x y -> R (tprod D k N sols fs x) (prod_den asol fs y).
Proof.
  revert x y. induction fs as [|f r IH]; intros x y H; cbn [tprod prod_den]. exact H.
  apply IH. apply mul_s. exact H. apply E_refl.
Qed.

Theorem check_pdef_sound p : check_pdef D k N bl msk cb sols p = true ->
  E (asol (pname p)) (product_den asol p).
Proof.
  unfold check_pdef. intros Ht. apply teqb_sound in Ht. eapply E_trans. exact Ht.
  unfold tproduct, product_den. destruct (pfactors p) as [|f r].
  - apply one_s.
  - pose proof (tprod_sound r _ _ (E_refl (asol f))) as Efull.
    destruct (pherm p); [|exact Efull].
    (* a Hermitian product is Dg + Up + adj Up of the full product, with the half-sum in place of Dg
       when there are exactly two factors *)
    destruct r as [|g [|g2 r2]].
    + apply add_s. apply add_s. apply Dg_s, Efull. apply Up_s, Efull. apply adj_s, Up_s, Efull.
    + apply add_s. apply add_s. apply hsum_s. apply Up_s, Efull. apply adj_s, Up_s, Efull.
    + apply add_s. apply add_s. apply Dg_s, Efull. apply Up_s, Efull. apply adj_s, Up_s, Efull.
Qed.

(** [check_alg] decides every equation of the semantics, up to order N *)
Definition sem_holds_upto (alg : algorithm) : Prop :=
  (forall d, In d (aseries alg) ->
     E (asol (sname d)) (with_start asol (sstart d) (body_den (gflag tb) arflag afenv asol (sname d) (sbody d)))) /\
  (forall p, In p (aproducts alg) -> E (asol (pname p)) (product_den asol p)).
Theorem check_alg_sound alg : check_alg D k N bl msk cb El tb sols alg = true -> sem_holds_upto alg.
Proof.
  unfold check_alg, failing, sem_holds_upto. intros H.
  destruct (List.app (map sname (filter (fun d => negb (check_sdef D k N bl msk cb El tb sols d)) (aseries alg)))
                     (map pname (filter (fun p => negb (check_pdef D k N bl msk cb sols p)) (aproducts alg)))) eqn:Ef; [|discriminate].
  apply app_eq_nil in Ef. destruct Ef as [E1 E2].
  apply map_eq_nil in E1. apply map_eq_nil in E2.
  split.
  - intros d Hd. apply check_sdef_sound.
    destruct (check_sdef D k N bl msk cb El tb sols d) eqn:Ec. reflexivity.
    assert (Hin : In d (filter (fun d => negb (check_sdef D k N bl msk cb El tb sols d)) (aseries alg))).
    { apply filter_In. split. exact Hd. rewrite Ec. reflexivity. }
    rewrite E1 in Hin. destruct Hin.
  - intros p Hp. apply check_pdef_sound.
    destruct (check_pdef D k N bl msk cb sols p) eqn:Ec. reflexivity.
    assert (Hin : In p (filter (fun p => negb (check_pdef D k N bl msk cb sols p)) (aproducts alg))).
    { apply filter_In. split. exact Hp. rewrite Ec. reflexivity. }
    rewrite E2 in Hin. destruct Hin.
Qed.

End Sound.

(** The embedding of the explicit eigenbasis computation into the implicit one (C06) is a
    least-action morphism between two corners of one [BlockAlg].

    Setting: one ambient algebra T (series of matrices on the direct sum of the A-coordinates,
    the full Hilbert space, and b spare coordinates); [f] = the idempotent onto
    "A-coordinates + b eigen-coordinates of B" (the explicit computation lives in the corner
    f T f), [e] = diag(1_A, P) with P the complement projector (the implicit computation lives in
    e T e), [J] = diag(1_A, Psi_B) the partial isometry with  J^dagger J = f,  J J^dagger = e.
    The map  phi x = J x J^dagger  sends the explicit corner to the implicit one:
      phi(X)_AA = X_AA, phi(X)_AB = X_AB Psi_B^dagger, phi(X)_BA = Psi_B X_BA,
      phi(X)_BB = Psi_B X_BB Psi_B^dagger.
    [corner_embedding_LAHom]: phi is an [LAHom]; with the transport theorems of
    Alg/Equivariance.v (uniqueness of the least-action unitary) the three outputs of the implicit
    computation are the images of the explicit ones ([corner_outputs_correspond]).
    The only hypothesis on phi beyond the partial-isometry equations is that it commutes with the
    kept-element selection (in implicit mode the B block carries no mask). *)
Require Import Ncring Ncring_tac Setoid Morphisms ZArith Lia String List.
From PV.Base Require Import Classes AlgLemmas.
From PV.DSL Require Import Syntax Sem.
From PV.Gen Require Import Algorithms_gen.
From PV.Alg Require Import MainLift MainCorrect Equivariance Corner.
Set Implicit Arguments.
Open Scope string_scope.

Section Embed.
Context {T : Type} {r0 r1 : T} {add mul sub : T -> T -> T} {opp : T -> T} {req : T -> T -> Prop}
        {Ro : @Ring_ops T r0 r1 add mul sub opp req} {Rg : @Ring T r0 r1 add mul sub opp req Ro}
        {BA : BlockAlg T}.

(* the two idempotents with the hypotheses of Alg/Corner.v *)
Variables f e : T.
Hypothesis f_idem : f * f == f.
Hypothesis f_adj : adj f == f.
Hypothesis f_Dg : Dg f == f.
Hypothesis f_Zc : Zc f == f.
Hypothesis f_Up : forall x, Up (c f x) == c f (Up x).
Hypothesis f_Lo : forall x, Lo (c f x) == c f (Lo x).
Hypothesis f_Sel : forall x, Sel (c f x) == c f (Sel x).
Hypothesis f_Rw : forall x, Rw (c f x) == c f (Rw x).
Hypothesis e_idem : e * e == e.
Hypothesis e_adj : adj e == e.
Hypothesis e_Dg : Dg e == e.
Hypothesis e_Zc : Zc e == e.
Hypothesis e_Up : forall x, Up (c e x) == c e (Up x).
Hypothesis e_Lo : forall x, Lo (c e x) == c e (Lo x).
Hypothesis e_Sel : forall x, Sel (c e x) == c e (Sel x).
Hypothesis e_Rw : forall x, Rw (c e x) == c e (Rw x).

(* the partial isometry *)
Variable J : T.
Hypothesis JdJ : adj J * J == f.
Hypothesis JJd : J * adj J == e.
Hypothesis eJ : e * J == J.
Hypothesis Jf : J * f == J.
Definition phi (x : T) : T := J * x * adj J.
Hypothesis phi_Sel : forall x, Sel (phi x) == phi (Sel x).

Definition BAf : @BlockAlg T r0 f add (cmul f) sub opp (ceq f) (corner_ops f) :=
  corner_BlockAlg f f_idem f_adj f_Dg f_Zc f_Up f_Lo f_Sel f_Rw.
Definition BAe : @BlockAlg T r0 e add (cmul e) sub opp (ceq e) (corner_ops e) :=
  corner_BlockAlg e e_idem e_adj e_Dg e_Zc e_Up e_Lo e_Sel e_Rw.

Instance phi_P : Proper (_==_ ==> _==_) phi.
Proof. intros x y E. unfold phi. rewrite E. reflexivity. Qed.
Lemma phi_add x y : phi (x + y) == phi x + phi y. Proof. unfold phi. non_commutative_ring. Qed.
Lemma phi_opp x : phi (- x) == - phi x. Proof. unfold phi. non_commutative_ring. Qed.
Lemma phi_sub x y : phi (x - y) == phi x - phi y. Proof. unfold phi. non_commutative_ring. Qed.
Lemma phi_zero : phi 0 == 0. Proof. unfold phi. non_commutative_ring. Qed.
#[local] Existing Instance c_P.
Instance phi_am : AddMap phi := {| am_P := phi_P; am_add := phi_add; am_opp := phi_opp |}.

Lemma adjJ_e : adj J * e == adj J.
Proof. rewrite <- e_adj, <- adj_mul, eJ. reflexivity. Qed.
Lemma f_adjJ : f * adj J == adj J.
Proof. rewrite <- f_adj, <- adj_mul, Jf. reflexivity. Qed.
Lemma ce_phi x : c e (phi x) == phi x.
Proof.
  unfold c, phi.
  assert (E : e * (J * x * adj J) * e == (e * J) * x * (adj J * e)) by non_commutative_ring.
  rewrite E, eJ, adjJ_e. reflexivity.
Qed.
Lemma phi_cf x : phi (c f x) == phi x.
Proof.
  unfold c, phi.
  assert (E : J * (f * x * f) * adj J == (J * f) * x * (f * adj J)) by non_commutative_ring.
  rewrite E, Jf, f_adjJ. reflexivity.
Qed.

Lemma h_P : Proper (ceq f ==> ceq e) phi.
Proof.
  intros x y E. unfold ceq in *. rewrite !ce_phi, <- (phi_cf x), <- (phi_cf y). apply phi_P. exact E.
Qed.
Lemma h_zero : ceq e (phi 0) 0. Proof. apply lift_eq. apply phi_zero. Qed.
Lemma h_one : ceq e (phi f) e.
Proof. apply lift_eq. unfold phi. rewrite Jf, JJd. reflexivity. Qed.
Lemma h_sub x y : ceq e (phi (x - y)) (phi x - phi y). Proof. apply lift_eq. apply phi_sub. Qed.
Lemma h_mul x y : ceq e (phi (cmul f x y)) (cmul e (phi x) (phi y)).
Proof.
  apply lift_eq. unfold cmul, phi.
  assert (E : J * x * adj J * e * (J * y * adj J) == J * x * (adj J * (e * J)) * y * adj J) by non_commutative_ring.
  rewrite E, eJ, JdJ. non_commutative_ring.
Qed.
Lemma h_adj x : ceq e (phi (adj x)) (adj (phi x)).
Proof. apply lift_eq. unfold phi. rewrite !adj_mul, adj_inv. non_commutative_ring. Qed.
Lemma h_half x : ceq e (phi (cdivz f x 2)) (cdivz e (phi x) 2).
Proof.
  apply lift_eq. unfold cdivz.
  rewrite (@divz_am _ _ _ _ _ _ _ _ _ _ _ phi phi_am 2%Z (c f x)) by discriminate.
  apply divz_proper. rewrite phi_cf. symmetry. apply ce_phi.
Qed.
Lemma h_Sel x : ceq e (phi (Sel x)) (Sel (phi x)).
Proof. apply lift_eq. symmetry. apply phi_Sel. Qed.
Lemma h_ord k x : cord f k x -> cord e k (phi x).
Proof.
  unfold cord. intros H. rewrite ce_phi, <- phi_cf. unfold phi. apply ord_mul_any_l, ord_mul_any_r, H.
Qed.

Definition corner_embedding_LAHom : @LAHom T r0 f add (cmul f) sub opp (ceq f) (corner_ops f) BAf
                                           T r0 e add (cmul e) sub opp (ceq e) (corner_ops e) BAe phi :=
  @Build_LAHom T r0 f add (cmul f) sub opp (ceq f) (corner_ops f) BAf
               T r0 e add (cmul e) sub opp (ceq e) (corner_ops e) BAe phi
               h_P h_zero h_one h_sub h_mul h_adj h_half h_Sel h_ord.

(** The outputs of the implicit computation (any solution of the shipped Hermitian algorithm in the
    corner by [e]) are the images of the outputs of the explicit one (corner by [f]). *)
Section Outputs.
Variable rflag rflag' : string -> T -> T.
Variable fenv fenv' : string -> list T -> T.
Variable sol sol' : string -> T.
Hypothesis Hsol : @solution T r0 f add (cmul f) sub opp (ceq f) (corner_ops f) BAf (gflag_of false) rflag fenv sol main_alg.
Hypothesis Hsol' : @solution T r0 e add (cmul e) sub opp (ceq e) (corner_ops e) BAe (gflag_of false) rflag' fenv' sol' main_alg.
Hypothesis Hw : @wiring T r0 f add (cmul f) sub opp (ceq f) (corner_ops f) BAf rflag fenv (sol "H").
Hypothesis Hw' : @wiring T r0 e add (cmul e) sub opp (ceq e) (corner_ops e) BAe rflag' fenv' (sol' "H").
Hypothesis Hin : ceq e (sol' "H") (phi (sol "H")).
(* the implicit Sylvester solver is a left inverse of the Sylvester operator on eliminated elements *)
Hypothesis sylv_left' : forall x,
  ceq e (sylv fenv' ((Zc (sol' "H")) * e * (x - Sel x) - (x - Sel x) * e * (Zc (sol' "H")))
         - Sel (sylv fenv' ((Zc (sol' "H")) * e * (x - Sel x) - (x - Sel x) * e * (Zc (sol' "H")))))
        (x - Sel x).

Theorem corner_outputs_correspond :
  ceq e (sol' "U") (phi (sol "U")) /\ ceq e (sol' "U†") (phi (sol "U†")) /\ ceq e (sol' "H_tilde") (phi (sol "H_tilde")).
Proof.
  exact (@transport_outputs T r0 f add (cmul f) sub opp (ceq f) (corner_ops f) (corner_ring f f_idem) BAf
                            T r0 e add (cmul e) sub opp (ceq e) (corner_ops e) (corner_ring e e_idem) BAe
                            phi corner_embedding_LAHom rflag rflag' fenv fenv' sol sol' Hsol Hsol' Hw Hw' Hin sylv_left').
Qed.
End Outputs.
End Embed.

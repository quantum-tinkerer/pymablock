(** Uniqueness of the similarity transformation of the non-Hermitian problem: a pair (U, Ui)
    with Ui U = 1, eliminated part of Ui H U zero and no kept element in U - Ui is unique (given
    a left inverse of x |-> [H0, x] on eliminated elements).  Consequence: on Hermitian input
    the non-Hermitian algorithm returns the outputs of the Hermitian one (Alg/Coincide.v; C05, last
    clause). *)
Require Import Ncring Ncring_tac Setoid Morphisms ZArith.
From PV.Base Require Import Classes AlgLemmas.
From PV.Alg Require Import Unique.
Set Implicit Arguments.

Section UniqueNH.
Context {T : Type} `{Rg : Ring T} {BA : BlockAlg T}.
Variable H : T.
Let H0 := Zc H.
Hypothesis S_adH0 : forall x, Sel (comm H0 x) == comm H0 (Sel x).
Variable sylv : T -> T.
Hypothesis sylv_ord : forall k y, ord k y -> ord k (sylv y).
Hypothesis sylv_left : forall x, Rp (sylv (comm H0 (Rp x))) == Rp x.

Definition similarity_gauge (U Ui : T) : Prop :=
  ord 1 (U - 1) /\ ord 1 (Ui - 1) /\ Ui * U == 1 /\ Rp (Ui * H * U) == 0 /\ Sel (U - Ui) == 0.

Variables U1 G1 U2 G2 : T.      (* G = the inverse *)
Hypothesis L1 : similarity_gauge U1 G1.
Hypothesis L2 : similarity_gauge U2 G2.

Let A1 := U1 - 1. Let B1 := G1 - 1. Let A2 := U2 - 1. Let B2 := G2 - 1.
Let D := A1 - A2.   Let E := B1 - B2.

Lemma oA1 : ord 1 A1. Proof. destruct L1 as (h & _). exact h. Qed.
Lemma oB1 : ord 1 B1. Proof. destruct L1 as (_ & h & _). exact h. Qed.
Lemma oA2 : ord 1 A2. Proof. destruct L2 as (h & _). exact h. Qed.
Lemma oB2 : ord 1 B2. Proof. destruct L2 as (_ & h & _). exact h. Qed.

(* the conditions on U = 1 + A, Ui = 1 + B in terms of A and B *)
Lemma sg_inv U G : similarity_gauge U G -> (G - 1) + (U - 1) + (G - 1) * (U - 1) == 0.
Proof.
  intros (_ & _ & h & _).
  assert (E0 : (G - 1) + (U - 1) + (G - 1) * (U - 1) == G * U - 1) by non_commutative_ring.
  rewrite E0, h. non_commutative_ring.
Qed.
Lemma sg_elim U G : similarity_gauge U G ->
  Rp (H + (G - 1) * H + H * (U - 1) + (G - 1) * H * (U - 1)) == 0.
Proof.
  intros (_ & _ & _ & h & _).
  assert (E0 : H + (G - 1) * H + H * (U - 1) + (G - 1) * H * (U - 1) == G * H * U) by non_commutative_ring.
  rewrite E0. exact h.
Qed.
Lemma gaugeDE : Sel (D - E) == 0.
Proof.
  destruct L1 as (_ & _ & _ & _ & g1). destruct L2 as (_ & _ & _ & _ & g2).
  assert (Ex : D - E == (U1 - G1) - (U2 - G2)) by (unfold D, E, A1, A2, B1, B2; non_commutative_ring).
  rewrite Ex, Sel_sub, g1, g2. non_commutative_ring.
Qed.

Lemma both k : ord k D /\ ord k E.
Proof.
  induction k as [|k [a b]]. split; apply ord_O.
  split.
  - exact (pair_stepD H S_adH0 sylv sylv_ord sylv_left _ _ _ _ oB1 oA2 (sg_inv L1) (sg_inv L2) (sg_elim L1) (sg_elim L2) gaugeDE k a b).
  - exact (pair_stepE H S_adH0 sylv sylv_ord sylv_left _ _ _ _ oB1 oA2 (sg_inv L1) (sg_inv L2) (sg_elim L1) (sg_elim L2) gaugeDE k a b).
Qed.

Theorem similarity_unique : U1 == U2 /\ G1 == G2.
Proof.
  assert (ED : D == 0) by (apply ord_sep; intros k; apply (both k)).
  assert (EE : E == 0) by (apply ord_sep; intros k; apply (both k)).
  split.
  - assert (Ex : U1 == D + U2) by (unfold D, A1, A2; non_commutative_ring). rewrite Ex, ED. non_commutative_ring.
  - assert (Ex : G1 == E + G2) by (unfold E, B1, B2; non_commutative_ring). rewrite Ex, EE. non_commutative_ring.
Qed.

End UniqueNH.

(** A least-action unitary, paired with its adjoint, is a similarity transformation in the gauge of
    the non-Hermitian problem: the Hermitian statements are the case Ui = adj U of the ones above. *)
Lemma la_sg {T : Type} `{Rg : Ring T} {BA : BlockAlg T} (H U : T) :
  least_action H U -> similarity_gauge H U (adj U).
Proof.
  intros (a & b & c & d). unfold similarity_gauge. repeat split; try assumption.
  - assert (E : adj U - 1 == adj (U - 1)) by (rewrite adj_sub, adj_one; reflexivity).
    rewrite E. apply ord_adj, a.
  - assert (E : U - adj U == (U - 1) - adj (U - 1)) by (rewrite adj_sub, adj_one; non_commutative_ring).
    rewrite E, <- (half_dbl (Sel _)), <- Sel_half, d. non_commutative_ring.
Qed.

(** Discharge of the wiring hypotheses of Alg/MainCorrect.v for the concrete algebra of
    multi-index series of D x D block matrices (Series/Inst.v) with the entry-wise diagonal
    Sylvester solver (Series/SylvInst.v): what block_diagonalize provides -
    real unperturbed energies on the diagonal of H_0, a symmetric reflexive kept-mask inside
    the diagonal blocks that is an equivalence on the blocks flagged commuting, eliminated
    pairs with invertible energy difference, a Hermitian input - implies [wiring].  Hence the
    theorems of Props/C01-C03 apply to every such series of matrices, for every number of
    blocks, block sizes, parameters and all orders. *)
Require Import Ncring Ncring_tac Setoid Morphisms List ZArith String.
From PV.Base Require Import Classes BigSum AlgLemmas.
From PV.Series Require Import MultiIndex Cauchy Lift Inst SylvInst Wiring.
From PV.Block Require Import Mat Masks CoefAlg BlockSel.
From PV.DSL Require Import Syntax Sem.
From PV.Gen Require Import Algorithms_gen.
From PV.Alg Require Import MainLift MainCorrect.
Open Scope string_scope.

Section Inst.
Variables D k : nat.
Context {R0 : Type} `{Rg : Ring R0} {CS : CStar R0}.
Variable blk : nat -> nat.
Variable keep : nat -> nat -> bool.
Variable cm : nat -> bool.
Hypothesis keep_sym : forall p q, keep p q = keep q p.
Hypothesis keep_refl : forall p, keep p p = true.
Hypothesis keep_blk : forall p q, keep p q = true -> blk p = blk q.
Hypothesis cm_blk : forall p q, blk p = blk q -> cm p = cm q.
Hypothesis keep_eucl : keep_eucl_on D keep cm.
Variable E : nat -> R0.
Variable inv : R0 -> R0.
Hypothesis inv_spec : forall p q, (p < D)%nat -> (q < D)%nat -> keep p q = false ->
                                  (E p - E q) * inv (E p - E q) == 1.
Hypothesis E_real : forall p, conj (E p) == E p.
Hypothesis inv_P : Proper (_==_ ==> _==_) inv.
Hypothesis inv_opp : forall x, inv (- x) == - inv x.
Hypothesis inv_conj : forall x, conj (inv x) == inv (conj x).

Local Notation T := (T D k R0).
Local Hint Extern 0 (BlockAlg _) =>
  exact (series_BlockAlg D k blk keep cm keep_sym keep_blk cm_blk) : typeclass_instances.

Variable rflag : string -> T -> T.
Variable fenv : string -> list T -> T.
Hypothesis rflag_spec : forall x, rflag "commuting_blocks" x == Rw x.
Hypothesis fenv_spec : forall y, fenv "solve_sylvester" (cons y nil) == SylvInst.sylv E inv y.
Variable H : T.
Hypothesis H_herm : adj H == H.
Hypothesis H_zero : Zc H == SylvInst.H0 D k E.

Theorem inst_wiring : wiring rflag fenv H.
Proof.
  exact (wiring_intro fenv H _ _ (SylvInst.sylv_P (k := k) (D := D) E inv) fenv_spec H_zero rflag H_herm rflag_spec
           (comm_sound_l (k := k) blk keep_sym keep_blk cm_blk keep_eucl)
           (comm_sound_r (k := k) blk keep_sym keep_blk cm_blk keep_eucl)
           (fun m y => SylvInst.sylv_ord (keep_sym := keep_sym) (keep_blk := keep_blk) (cm_blk := cm_blk) E inv (m := m) (y := y))
           (SylvInst.sylv_adj (k := k) blk keep cm keep_sym keep_blk cm_blk E E_real inv_P inv_opp inv_conj)
           (SylvInst.Sel_H0 (k := k) blk keep cm keep_sym keep_refl keep_blk cm_blk E)
           (SylvInst.Sel_comm_H0 (k := k) blk keep cm keep_sym keep_blk cm_blk E)
           (SylvInst.sylv_spec (k := k) blk keep cm keep_sym keep_blk cm_blk E inv inv_spec)).
Qed.
End Inst.

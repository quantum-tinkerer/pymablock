(** Truncation of a [BlockAlg] at order M: same carrier and operations, equality modulo the
    filtration,  x ~ y := ord M (x - y).  The result is again a [BlockAlg] ([trunc_BlockAlg]), so
    every theorem proved for arbitrary [BlockAlg]s holds "up to order M - 1" for valuations that
    satisfy the program's equations only up to that order - which is exactly what the
    correspondence check k_semeq establishes about the implementation's values (Alg/SemExecSound.v).

    The only hypothesis beyond the class laws: the half-sum respects the truncated equality
    ([hsum_trunc]; proved for the series instance as [eqN_hsum]). *)
Require Import Ncring Ncring_tac Setoid Morphisms ZArith Lia Arith.
From PV.Base Require Import Classes AlgLemmas.
Set Implicit Arguments.

Section Trunc.
Context {T : Type} {r0 r1 : T} {add mul sub : T -> T -> T} {opp : T -> T} {req : T -> T -> Prop}
        {Ro : @Ring_ops T r0 r1 add mul sub opp req} {Rg : @Ring T r0 r1 add mul sub opp req Ro}
        {BA : BlockAlg T}.

Variable M : nat.
Definition teq (x y : T) : Prop := ord M (x - y).
Definition tord (k : nat) (x : T) : Prop := ord (Nat.min k M) x.
Hypothesis hsum_trunc : forall a a' b b', teq a a' -> teq b b' -> teq (hsum a b) (hsum a' b').

(** ** the filtration is decreasing *)
Lemma ord_Zc k x : ord k x -> ord k (Zc x).
Proof.
  intros H. destruct k as [|k]. apply ord_O.
  assert (H1 : ord 1 x) by (apply (ord_le (k:=S k)); [lia | exact H]).
  apply Zc_ord in H1. rewrite H1. apply ord_zero.
Qed.

(** ** truncated equality *)
Lemma lift_teq x y : x == y -> teq x y.
Proof. intros E. unfold teq. assert (Z : x - y == 0) by (rewrite E; non_commutative_ring). rewrite Z. apply ord_zero. Qed.
Lemma teq_equiv : Equivalence teq.
Proof.
  split.
  - intros x. apply lift_teq. reflexivity.
  - intros x y H. unfold teq in *. assert (Z : y - x == - (x - y)) by non_commutative_ring. rewrite Z. apply ord_opp. exact H.
  - intros x y z H1 H2. unfold teq in *. assert (Z : x - z == (x - y) + (y - z)) by non_commutative_ring. rewrite Z.
    apply ord_add; assumption.
Qed.
Lemma t_add_P : Proper (teq ==> teq ==> teq) add.
Proof. intros x x' H y y' H'. unfold teq in *. change (ord M ((x + y) - (x' + y'))).
  assert (Z : (x + y) - (x' + y') == (x - x') + (y - y')) by non_commutative_ring. rewrite Z. apply ord_add; assumption. Qed.
Lemma t_sub_P : Proper (teq ==> teq ==> teq) sub.
Proof. intros x x' H y y' H'. unfold teq in *. change (ord M ((x - y) - (x' - y'))).
  assert (Z : (x - y) - (x' - y') == (x - x') - (y - y')) by non_commutative_ring. rewrite Z. apply ord_sub; assumption. Qed.
Lemma t_opp_P : Proper (teq ==> teq) opp.
Proof. intros x x' H. unfold teq in *. change (ord M ((- x) - (- x'))).
  assert (Z : (- x) - (- x') == - (x - x')) by non_commutative_ring. rewrite Z. apply ord_opp; assumption. Qed.
Lemma t_mul_P : Proper (teq ==> teq ==> teq) mul.
Proof. intros x x' H y y' H'. unfold teq in *. change (ord M (x * y - x' * y')).
  assert (Z : x * y - x' * y' == (x - x') * y + x' * (y - y')) by non_commutative_ring. rewrite Z.
  apply ord_add. apply ord_mul_any_l; assumption. apply ord_mul_any_r; assumption. Qed.

Definition trunc_ops : @Ring_ops T r0 r1 add mul sub opp teq.
Proof. constructor. Defined.

Definition trunc_ring : @Ring T r0 r1 add mul sub opp teq trunc_ops :=
  @Build_Ring T r0 r1 add mul sub opp teq trunc_ops
    teq_equiv t_add_P t_mul_P t_sub_P t_opp_P
    (fun x => lift_teq (ring_add_0_l x)) (fun x y => lift_teq (ring_add_comm x y))
    (fun x y z => lift_teq (ring_add_assoc x y z))
    (fun x => lift_teq (ring_mul_1_l x)) (fun x => lift_teq (ring_mul_1_r x))
    (fun x y z => lift_teq (ring_mul_assoc x y z))
    (fun x y z => lift_teq (ring_distr_l x y z)) (fun x y z => lift_teq (ring_distr_r x y z))
    (fun x y => lift_teq (ring_sub_def x y)) (fun x => lift_teq (ring_opp_def x)).

(** ** structure maps *)
Definition tAddMap (f : T -> T) := @AddMap T r0 r1 add mul sub opp teq trunc_ops f.
Section TAM.
Variable f : T -> T.
Context {Hf : AddMap f}.
Hypothesis Hord : forall k x, ord k x -> ord k (f x).
Lemma t_am_P : Proper (teq ==> teq) f.
Proof. intros x y H. unfold teq in *. assert (Z : f x - f y == f (x - y)) by (symmetry; apply am_sub; exact Hf). rewrite Z. apply Hord. exact H. Qed.
Definition t_am : tAddMap f :=
  @Build_AddMap T r0 r1 add mul sub opp teq trunc_ops f t_am_P
    (fun x y => lift_teq (am_add x y)) (fun x => lift_teq (am_opp x)).
End TAM.

Lemma t_divz_P k : Proper (teq ==> teq) (fun x => divz x k).
Proof. intros x y H. unfold teq in *. rewrite <- divz_sub. apply ord_divz. exact H. Qed.

Lemma t_ord_P k : Proper (teq ==> iff) (tord k).
Proof.
  assert (A : forall x y, teq x y -> tord k x -> tord k y).
  { intros x y H Hx. unfold teq, tord in *.
    assert (Z : y == x - (x - y)) by non_commutative_ring. rewrite Z. apply ord_sub. exact Hx.
    apply (ord_le (k:=M)). lia. exact H. }
  intros x y H. split. apply A; exact H. apply A. destruct teq_equiv as [_ S _]. apply S. exact H.
Qed.
Lemma t_ord_O x : tord O x. Proof. apply ord_O. Qed.
Lemma t_ord_S k x : tord (S k) x -> tord k x.
Proof. unfold tord. apply ord_le. lia. Qed.
Lemma t_ord_zero k : tord k 0. Proof. apply ord_zero. Qed.
Lemma t_ord_add k x y : tord k x -> tord k y -> tord k (x + y). Proof. apply ord_add. Qed.
Lemma t_ord_opp k x : tord k x -> tord k (- x). Proof. apply ord_opp. Qed.
Lemma t_ord_mul a b x y : tord a x -> tord b y -> tord (Nat.add a b) (x * y).
Proof. unfold tord. intros Hx Hy. apply (ord_le (k:=Nat.add (Nat.min a M) (Nat.min b M))). lia. apply ord_mul; assumption. Qed.
Lemma t_ord_sep x : (forall k, tord k x) -> teq x 0.
Proof. intros H. unfold teq. specialize (H M). unfold tord in H. rewrite Nat.min_id in H.
  assert (Z : x - 0 == x) by non_commutative_ring. rewrite Z. exact H. Qed.
Lemma t_Zc_ord x : tord 1 x <-> teq (Zc x) 0.
Proof.
  unfold tord, teq. assert (Z : Zc x - 0 == Zc x) by non_commutative_ring. rewrite Z.
  destruct M as [|m].
  - cbn [Nat.min]. split; intros _; apply ord_O.
  - cbn [Nat.min]. split.
    + intros H. apply Zc_ord in H. rewrite H. apply ord_zero.
    + intros H. apply Zc_ord. assert (H1 : ord 1 (Zc x)) by (apply (ord_le (k:=S m)); [lia | exact H]).
      apply Zc_ord in H1. rewrite Zc_idem in H1. exact H1.
Qed.
Lemma t_hsum_P : Proper (teq ==> teq ==> teq) hsum.
Proof. intros a a' H b b' H'. apply hsum_trunc; assumption. Qed.
Lemma t_hsum_spec k a b : tord 1 a -> tord 1 b -> tord k (b - adj a) -> tord (S k) (hsum a b - Dg (a * b)).
Proof.
  unfold tord. destruct M as [|m].
  - intros _ _ _. rewrite Nat.min_0_r. apply ord_O.
  - cbn [Nat.min]. intros Ha Hb Hk.
    apply (ord_le (k:=S (Nat.min k (S m)))). lia. apply hsum_spec; assumption.
Qed.

Definition trunc_BlockAlg : @BlockAlg T r0 r1 add mul sub opp teq trunc_ops :=
  @Build_BlockAlg T r0 r1 add mul sub opp teq trunc_ops
    adj (t_am (f := adj) ord_adj) (fun x y => lift_teq (adj_mul x y)) (fun x => lift_teq (adj_inv x)) (lift_teq adj_one)
    divz t_divz_P (fun k x y => lift_teq (divz_add k x y)) (fun k x => lift_teq (divz_opp k x))
    (fun k x Hk => lift_teq (divz_spec x Hk))
    Dg Up Lo (t_am (f := Dg) ord_Dg) (t_am (f := Up) ord_Up) (t_am (f := Lo) ord_Lo)
    (fun x => lift_teq (blk_split x))
    (fun x => lift_teq (Dg_Dg x)) (fun x => lift_teq (Up_Up x)) (fun x => lift_teq (Lo_Lo x))
    (fun x => lift_teq (Dg_Up x)) (fun x => lift_teq (Dg_Lo x))
    (fun x => lift_teq (Up_Dg x)) (fun x => lift_teq (Up_Lo x))
    (fun x => lift_teq (Lo_Dg x)) (fun x => lift_teq (Lo_Up x))
    (fun x => lift_teq (Dg_adj x)) (fun x => lift_teq (Up_adj x)) (fun x => lift_teq (Lo_adj x))
    (fun x y => lift_teq (Dg_mul_l x y)) (fun x y => lift_teq (Dg_mul_r x y)) (lift_teq Dg_one)
    Sel (t_am (f := Sel) ord_Sel)
    (fun x => lift_teq (Sel_idem x)) (fun x => lift_teq (Sel_adj x)) (fun x => lift_teq (Sel_Dg x)) (fun x => lift_teq (Dg_Sel x))
    Rw (t_am (f := Rw) ord_Rw)
    (fun x => lift_teq (Rw_idem x)) (fun x => lift_teq (Rw_Dg x)) (fun x => lift_teq (Rw_Sel x)) (fun x => lift_teq (Rw_adj_Dg x))
    tord t_ord_P t_ord_O t_ord_S t_ord_zero t_ord_add t_ord_opp t_ord_mul t_ord_sep
    (fun k x => @ord_adj _ _ _ _ _ _ _ _ _ BA _ x) (fun k x z => @ord_divz _ _ _ _ _ _ _ _ _ BA _ x z)
    (fun k x => @ord_Dg _ _ _ _ _ _ _ _ _ BA _ x) (fun k x => @ord_Up _ _ _ _ _ _ _ _ _ BA _ x)
    (fun k x => @ord_Lo _ _ _ _ _ _ _ _ _ BA _ x) (fun k x => @ord_Sel _ _ _ _ _ _ _ _ _ BA _ x)
    (fun k x => @ord_Rw _ _ _ _ _ _ _ _ _ BA _ x)
    Zc (t_am (f := Zc) ord_Zc) (fun x y => lift_teq (Zc_mul x y)) (lift_teq Zc_one)
    (fun x => lift_teq (Zc_idem x)) t_Zc_ord
    (fun x => lift_teq (Zc_adj x)) (fun x => lift_teq (Zc_Dg x)) (fun x => lift_teq (Zc_Up x)) (fun x => lift_teq (Zc_Lo x)) (fun x => lift_teq (Zc_Sel x))
    hsum t_hsum_P (fun a b => lift_teq (hsum_Dg a b)) t_hsum_spec.

End Trunc.

(** Final form of the correctness theorems of the Hermitian algorithm ([main_alg], generated
    from /repo/pymablock/algorithms.py): general wiring (two_block_optimized = False), then the
    two-block optimisation (section CorrectTB, record [wiring_tb]).

    [wiring] collects what block_diagonalize is responsible for when it fills the scope of the
    program; the fields are discharged for the concrete algebra of series of block matrices by
    Alg/MainInst.inst_wiring (from Series/SylvInst.v and Series/Wiring.v). *)
Require Import Ncring Ncring_tac Setoid Morphisms ZArith String List.
From PV.Base Require Import Classes AlgLemmas.
From PV.DSL Require Import Syntax Sem.
From PV.Gen Require Import Algorithms_gen.
From PV.Alg Require Import MainAlgebra MainLift Unique.
From PV.Alg Require MainLiftTB.
Import ListNotations.
Open Scope string_scope.

Section Correct.
Context {T : Type} `{Rg : Ring T} {BA : BlockAlg T}.

Record wiring (rflag : string -> T -> T) (fenv : string -> list T -> T) (H : T) : Prop := {
  w_herm : adj H == H;
  w_rflag : forall x, rflag "commuting_blocks" x == Rw x;
  w_comm_l : forall x y, Rw (Sel (Rp x * Sel y)) == 0;
  w_comm_r : forall x y, Rw (Sel (Sel y * Rp x)) == 0;
  w_sylv_P : Proper (_==_ ==> _==_) (sylv fenv);
  w_sylv_ord : forall k y, ord k y -> ord k (sylv fenv y);
  w_sylv_adj : forall y, sylv fenv (adj y) == - adj (sylv fenv y);
  w_H0_kept : Sel (Zc H) == Zc H;
  w_Sel_adH0 : forall x, Sel (comm (Zc H) x) == comm (Zc H) (Sel x);
  w_sylv_spec : forall y, Rp (comm (Zc H) (sylv fenv y)) == Rp y
}.

Lemma wiring_proper {rflag fenv} {H1 H2 : T} : H1 == H2 -> wiring rflag fenv H1 -> wiring rflag fenv H2.
Proof.
  intros E [a b c d e f g h i j]. constructor; try assumption.
  - rewrite <- E. exact a.
  - rewrite <- E. exact h.
  - intros x. rewrite <- E. apply i.
  - intros y. rewrite <- E. apply j.
Qed.

(* the record from the facts about a solver [s] and an order-zero part [H0] given by name *)
Lemma wiring_intro fenv (H H0 : T) (s : T -> T) :
  Proper (_==_ ==> _==_) s -> (forall y, fenv "solve_sylvester" [y] == s y) -> Zc H == H0 ->
  forall rflag, adj H == H -> (forall x, rflag "commuting_blocks" x == Rw x) ->
  (forall x y, Rw (Sel (Rp x * Sel y)) == 0) -> (forall x y, Rw (Sel (Sel y * Rp x)) == 0) ->
  (forall k y, ord k y -> ord k (s y)) -> (forall y, s (adj y) == - adj (s y)) -> Sel H0 == H0 ->
  (forall x, Sel (comm H0 x) == comm H0 (Sel x)) -> (forall y, Rp (comm H0 (s y)) == Rp y) ->
  wiring rflag fenv H.
Proof.
  intros sP Hf HZ rflag hh hr cl cr so sa h0 ad sp. constructor; try assumption; unfold MainLift.sylv, comm in *.
  - intros y y' Ey. rewrite !Hf, Ey. reflexivity.
  - intros m y Hy. rewrite Hf. now apply so.
  - intros y. rewrite !Hf. apply sa.
  - rewrite HZ. exact h0.
  - intros x. rewrite HZ. apply ad.
  - intros y. rewrite HZ, Hf. apply sp.
Qed.

Variable rflag : string -> T -> T.
Variable fenv : string -> list T -> T.
Variable sol : string -> T.
Hypothesis Hsol : solution (gflag_of false) rflag fenv sol main_alg.
Hypothesis Hw : wiring rflag fenv (sol "H").

(* the premises of a MainLift theorem [L] are the fields of the record [wiring] *)
Ltac use L := destruct Hw; eapply L; try eassumption; try reflexivity.

Theorem kept_general : Sel (sol "U†" * sol "H" * sol "U") == sol "H_tilde".
Proof. use (@main_kept T _ _ _ _ _ _ _ _ _ _ false rflag fenv sol). Qed.
Theorem eliminated_general : Rp (sol "U†" * sol "H" * sol "U") == 0.
Proof. use (@main_eliminated T _ _ _ _ _ _ _ _ _ _ false rflag fenv sol). Qed.
Theorem unitary_l_general : sol "U†" * sol "U" == 1.
Proof. use (@main_unitary_l T _ _ _ _ _ _ _ _ _ _ false rflag fenv sol). Qed.
Theorem unitary_r_general : sol "U" * sol "U†" == 1.
Proof. use (@main_unitary_r T _ _ _ _ _ _ _ _ _ _ false rflag fenv sol). Qed.
Theorem adjoint_general : adj (sol "U") == sol "U†".
Proof. use (@main_adjoint T _ _ _ _ _ _ _ _ _ _ false rflag fenv sol). Qed.
Theorem Ht_herm_general : adj (sol "H_tilde") == sol "H_tilde".
Proof. use (@main_Ht_herm T _ _ _ _ _ _ _ _ _ _ false rflag fenv sol). Qed.
Theorem gauge_general : Sel (half ((sol "U" - 1) - adj (sol "U" - 1))) == 0.
Proof. use (@main_gauge T _ _ _ _ _ _ _ _ _ _ false rflag fenv sol). Qed.

Theorem main_least_action : Unique.least_action (sol "H") (sol "U").
Proof.
  unfold Unique.least_action. repeat split.
  - assert (E : sol "U" - 1 == sol "U'").
    { rewrite (@eU T _ _ _ _ _ _ _ _ _ _ false rflag fenv sol Hsol). non_commutative_ring. }
    rewrite E. apply (@oU' T _ _ _ _ _ _ _ _ _ _ false rflag fenv sol Hsol).
  - rewrite adjoint_general. apply unitary_l_general.
  - rewrite adjoint_general. apply eliminated_general.
  - apply gauge_general.
Qed.
End Correct.

(** Two-block optimisation (two_block_optimized = True: exactly two blocks, no
    fully_diagonalize). [wiring_tb] adds what this wiring guarantees: the selection is the
    block-diagonal part, every block is flagged commuting, and the parity laws of a 2x2 block
    structure.  For the series instance only the parity laws are proved (Series/Wiring.v, under
    [blk p < 2]); the whole record is established for loaded tables in Alg/TruncTieTB.v. *)
Section CorrectTB.
Context {T : Type} `{Rg : Ring T} {BA : BlockAlg T}.

Record wiring_tb (rflag : string -> T -> T) (fenv : string -> list T -> T) (H : T) : Prop := {
  wt_base : wiring rflag fenv H;
  wt_Sel_Dg : forall x, Sel x == Dg x;
  wt_Rw_Dg : forall x, Rw (Dg x) == Dg x;
  wt_odd_odd : forall x y, Dg (Od x * Od y) == Od x * Od y;
  wt_up_dg_up : forall x y, Up (Dg x * Up y) == Dg x * Up y;
  wt_up_up_dg : forall x y, Up (Up x * Dg y) == Up x * Dg y;
  wt_lo_dg_lo : forall x y, Lo (Dg x * Lo y) == Dg x * Lo y;
  wt_lo_lo_dg : forall x y, Lo (Lo x * Dg y) == Lo x * Dg y
}.

Variable rflag : string -> T -> T.
Variable fenv : string -> list T -> T.
Variable sol : string -> T.
Hypothesis Hsol : solution (MainLift.gflag_of true) rflag fenv sol main_alg.
Hypothesis Hw : wiring_tb rflag fenv (sol "H").

Ltac use L := destruct Hw as [Hb ? ? ? ? ? ? ?]; destruct Hb; eapply L; try eassumption; try reflexivity.

Theorem kept_tb : Sel (sol "U†" * sol "H" * sol "U") == sol "H_tilde".
Proof. use (@MainLiftTB.tb_kept T _ _ _ _ _ _ _ _ _ _ true rflag fenv sol). Qed.
Theorem eliminated_tb : Rp (sol "U†" * sol "H" * sol "U") == 0.
Proof. use (@MainLiftTB.tb_eliminated T _ _ _ _ _ _ _ _ _ _ true rflag fenv sol). Qed.
Theorem unitary_l_tb : sol "U†" * sol "U" == 1.
Proof. use (@MainLiftTB.tb_unitary_l T _ _ _ _ _ _ _ _ _ _ true rflag fenv sol). Qed.
Theorem unitary_r_tb : sol "U" * sol "U†" == 1.
Proof. use (@MainLiftTB.tb_unitary_r T _ _ _ _ _ _ _ _ _ _ true rflag fenv sol). Qed.
Theorem adjoint_tb : adj (sol "U") == sol "U†".
Proof. use (@MainLiftTB.tb_adjoint T _ _ _ _ _ _ _ _ _ _ true rflag fenv sol). Qed.
Theorem Ht_herm_tb : adj (sol "H_tilde") == sol "H_tilde".
Proof. use (@MainLiftTB.tb_Ht_herm T _ _ _ _ _ _ _ _ _ _ true rflag fenv sol). Qed.
Theorem gauge_tb : Sel (half ((sol "U" - 1) - adj (sol "U" - 1))) == 0.
Proof. use (@MainLiftTB.tb_gauge T _ _ _ _ _ _ _ _ _ _ true rflag fenv sol). Qed.
End CorrectTB.

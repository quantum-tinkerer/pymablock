(** End-to-end form of the correspondence k_semeq: if the executable reading accepts the
    implementation's tables ([check_alg = true], decided by vm_compute on every run), then the
    conclusions of C01 / C02 / C03 hold for the DENOTATIONS of those tables up to total order N -
    proved, not re-tested:  check_alg_sound  (equations hold modulo order N+1)  +  the truncated
    algebra (Alg/Trunc.v)  +  its wiring from facts known up to order N (Alg/TruncMain.v)  +  the
    general theorems of Alg/MainCorrect.v applied in that algebra  +  the
    wiring of the concrete series instance (Alg/MainInst.v). *)
Require Import List ZArith Arith Bool String Ncring Setoid Morphisms.
From PV.Base Require Import Classes AlgLemmas.
From PV.Series Require Import MultiIndex Cauchy Lift Inst ExecIdx Exec SylvInst Wiring.
From PV.Block Require Import Mat Masks CoefAlg BlockSel ExecScalar QLemmas QInst.
From PV.DSL Require Import Syntax Sem.
From PV.Gen Require Import Algorithms_gen.
From PV.Alg Require Import MainLift MainCorrect MainInst Unique SemExec SemExecSound Trunc TruncMain GqInv.
Open Scope string_scope.

Section Tie.
Variables D k N : nat.
Variable bl : list nat.
Variable msk : list (list bool).
Variable cb : list bool.
Variable El : list gq.
Variable sols : list (string * tser gq).

Let blk := mk_blk bl.
Let keep := mk_keep bl msk.
Let cm := mk_cm bl cb.
Let ksym := mk_keep_sym bl msk.
Let kblk := mk_keep_blk bl msk.
Let cblk := mk_cm_blk bl cb.

Local Notation TT := (T D k gq).
Local Notation BA0 := (BAi D k bl msk cb).
Local Hint Extern 0 (BlockAlg _) => exact BA0 : typeclass_instances.
Local Notation sol := (asol D k sols).
Local Notation rfl := (arflag D k bl msk cb).
Local Notation fen := (afenv D k El).
Local Notation M := (S N).

Lemma teq_eqN (x y : TT) : teq M x y <-> eqN D k N x y.
Proof. unfold teq. symmetry. apply (eqN_ord (Rg := gq_Ring) blk keep cm ksym kblk cblk). Qed.

Lemma hsum_trunc_i : forall a a' b b' : TT, teq M a a' -> teq M b b' -> teq M (hsum a b) (hsum a' b').
Proof.
  intros a a' b b' H1 H2. apply teq_eqN. apply (eqN_hsum (Rg := gq_Ring) blk keep cm ksym kblk cblk); apply teq_eqN; assumption.
Qed.

(** ** decidable side conditions on the loaded input *)
Local Notation Ef := (Efun El).
Definition refl_ok : bool := forallb (fun p => keep p p) (range D).
Definition eucl_ok : bool :=
  forallb (fun p => forallb (fun q => forallb (fun r =>
    implb (cm p && keep p q && keep r q) (keep p r)) (range D)) (range D)) (range D).
Definition distinct_ok : bool :=
  forallb (fun p => forallb (fun q => implb (negb (keep p q)) (negb (gq_eqb (gq_sub (Ef p) (Ef q)) gq0))) (range D)) (range D).
Definition real_ok : bool := forallb (fun e => gq_eqb (gq_conj e) e) El.
Definition herm_ok : bool :=
  teqb D k N (tadj D k blk keep cm ksym kblk cblk N (R0 := gq) (tsol sols "H")) (tsol sols "H").
Definition zero_ok : bool :=
  teqb D k N (tZc D k blk keep cm ksym kblk cblk N (R0 := gq) (tsol sols "H")) (tab D k N (SylvInst.H0 D k Ef)).
Definition inputs_ok : bool := refl_ok && eucl_ok && distinct_ok && real_ok && herm_ok && zero_ok.

Lemma gq_eqb_complete a b : gq_eq a b -> gq_eqb a b = true.
Proof. intros [E1 E2]. unfold gq_eqb. apply andb_true_intro. split; apply QArith_base.Qeq_bool_iff; assumption. Qed.

(* what each boolean establishes *)
Lemma keep_refl_of : refl_ok = true -> forall p, (p < D)%nat -> keep p p = true.
Proof.
  unfold refl_ok. rewrite forallb_forall. intros H p Hp. apply H. apply in_range. exact Hp.
Qed.
Lemma distinct_of : distinct_ok = true ->
  forall p q, (p < D)%nat -> (q < D)%nat -> keep p q = false -> ~ (Ef p - Ef q == 0).
Proof.
  unfold distinct_ok. rewrite forallb_forall. intros H p q Hp Hq Hk E.
  specialize (H p (proj2 (in_range D p) Hp)). rewrite forallb_forall in H.
  specialize (H q (proj2 (in_range D q) Hq)). rewrite Hk in H. cbn [negb implb] in H.
  assert (E' : gq_eq (gq_sub (Ef p) (Ef q)) gq0) by exact E.
  rewrite (gq_eqb_complete _ _ E') in H. discriminate.
Qed.
Lemma inv_spec_of : distinct_ok = true -> forall p q, (p < D)%nat -> (q < D)%nat -> keep p q = false ->
  (Ef p - Ef q) * gq_inv0 (Ef p - Ef q) == 1.
Proof. intros H p q Hp Hq Hk. apply gq_inv0_spec. exact (distinct_of H p q Hp Hq Hk). Qed.
Lemma H_zero_of : zero_ok = true -> eqN D k N (Zc (sol "H")) (SylvInst.H0 D k Ef).
Proof.
  unfold zero_ok. intros H. apply teqb_sound in H.
  eapply (eqN_trans (Rg := gq_Ring)); [apply (eqN_sym (Rg := gq_Ring)); apply (tZc_den (Rg := gq_Ring) blk keep cm ksym kblk cblk)|].
  eapply (eqN_trans (Rg := gq_Ring)); [exact H|]. apply den_tab.
Qed.
(* [Sel H0 == H0] needs reflexivity of the mask only on the D basis states *)
Lemma Sel_H0_of : refl_ok = true -> Sel (SylvInst.H0 D k Ef) == SylvInst.H0 D k Ef.
Proof.
  intros H n _ p q Hp Hq.
  change (Sel (SylvInst.H0 D k Ef) n p q) with (if keep p q then SylvInst.H0 D k Ef n p q else 0).
  unfold SylvInst.H0.
  destruct (is_zero n).
  - unfold mdiag. destruct (Nat.eqb_spec p q).
    + subst. rewrite (keep_refl_of H q Hq). reflexivity.
    + destruct (keep p q); reflexivity.
  - destruct (keep p q); reflexivity.
Qed.

Lemma sylv_sub_i : forall x y : TT, MainLift.sylv fen (x - y) == MainLift.sylv fen x - MainLift.sylv fen y.
Proof.
  intros x y. unfold MainLift.sylv. cbn [afenv].
  apply AlgLemmas.am_sub. exact (SylvInst.sylv_am D k (Rg := gq_Ring) Ef gq_inv0).
Qed.

(* a table accepted by [check_alg] is a solution in the algebra truncated at order N + 1 *)
Lemma check_solution tb alg : check_alg D k N bl msk cb El tb sols alg = true ->
  @solution TT _ _ _ _ _ _ (teq M) (trunc_ops M) (BAt M hsum_trunc_i) (SemExec.gflag tb) rfl fen sol alg.
Proof.
  intros Hc. pose proof (check_alg_sound D k N bl msk cb El tb sols alg Hc) as [Hs Hp].
  apply solution_trunc; intros x Hx; apply teq_eqN; [exact (Hs x Hx)|exact (Hp x Hx)].
Qed.

Hypothesis Hcheck : check_alg D k N bl msk cb El false sols main_alg = true.
Hypothesis Hin : inputs_ok = true.

Lemma Hin_parts : refl_ok = true /\ eucl_ok = true /\ distinct_ok = true /\ real_ok = true /\ herm_ok = true /\ zero_ok = true.
Proof.
  pose proof Hin as H. unfold inputs_ok in H.
  apply andb_prop in H. destruct H as [H H6]. apply andb_prop in H. destruct H as [H H5].
  apply andb_prop in H. destruct H as [H H4]. apply andb_prop in H. destruct H as [H H3].
  apply andb_prop in H. destruct H as [H1 H2]. repeat split; assumption.
Qed.

Lemma keep_eucl : keep_eucl_on D keep cm.
Proof.
  destruct Hin_parts as (_ & H & _). unfold eucl_ok in H. rewrite forallb_forall in H.
  intros p q r Hp Hq Hr Hc H1 H2.
  specialize (H p (proj2 (in_range D p) Hp)). rewrite forallb_forall in H.
  specialize (H q (proj2 (in_range D q) Hq)). rewrite forallb_forall in H.
  specialize (H r (proj2 (in_range D r) Hr)). rewrite Hc, H1, H2 in H. exact H.
Qed.
Lemma distinct : forall p q, (p < D)%nat -> (q < D)%nat -> keep p q = false -> ~ (Ef p - Ef q == 0).
Proof. apply distinct_of, Hin_parts. Qed.
Lemma E_real : forall p, conj (Ef p) == Ef p.
Proof.
  destruct Hin_parts as (_ & _ & _ & H & _). unfold real_ok in H. rewrite forallb_forall in H.
  intros p. unfold Efun. destruct (Nat.lt_ge_cases p (List.length El)) as [L|L].
  - apply gq_eqb_sound. apply H. apply nth_In. exact L.
  - rewrite nth_overflow by exact L. split; reflexivity.
Qed.
Lemma H_herm : eqN D k N (adj (sol "H")) (sol "H").
Proof.
  destruct Hin_parts as (_ & _ & _ & _ & H & _). unfold herm_ok in H.
  apply teqb_sound in H.
  eapply (eqN_trans (Rg := gq_Ring)); [|exact H].
  apply (eqN_sym (Rg := gq_Ring)). apply (tadj_den (Rg := gq_Ring) blk keep cm ksym kblk cblk).
Qed.
Lemma H_zero : eqN D k N (Zc (sol "H")) (SylvInst.H0 D k Ef).
Proof. apply H_zero_of, Hin_parts. Qed.
Lemma inv_spec : forall p q, (p < D)%nat -> (q < D)%nat -> keep p q = false ->
  (Ef p - Ef q) * gq_inv0 (Ef p - Ef q) == 1.
Proof. apply inv_spec_of, Hin_parts. Qed.
Lemma Sel_H0_b : Sel (SylvInst.H0 D k Ef) == SylvInst.H0 D k Ef.
Proof. apply Sel_H0_of, Hin_parts. Qed.
Lemma inv_P : Proper (_==_ ==> _==_) gq_inv0.
Proof. intros x y E. apply gq_inv0_comp. exact E. Qed.
Lemma inv_opp : forall x, gq_inv0 (- x) == - gq_inv0 x. Proof. exact gq_inv0_opp. Qed.
Lemma inv_conj : forall x, conj (gq_inv0 x) == gq_inv0 (conj x). Proof. exact gq_inv0_conj. Qed.

Lemma trunc_solution :
  @solution TT _ _ _ _ _ _ (teq M) (trunc_ops M) (BAt M hsum_trunc_i) (gflag_of false) rfl fen sol main_alg.
Proof. exact (check_solution false main_alg Hcheck). Qed.

Local Notation H0c := (SylvInst.H0 D k Ef).
Definition Wt := trunc_wiring_H0 M hsum_trunc_i rfl fen sylv_sub_i (sol "H") H0c
  (fun x => Equivalence_Reflexive (Rw x))
  (fun x y => comm_sound_l (k := k) blk ksym kblk cblk keep_eucl x y)
  (fun x y => comm_sound_r (k := k) blk ksym kblk cblk keep_eucl x y)
  (fun m y Hy => SylvInst.sylv_ord (keep_sym := ksym) (keep_blk := kblk) (cm_blk := cblk) Ef gq_inv0 Hy)
  (fun y => SylvInst.sylv_adj (k := k) blk keep cm ksym kblk cblk Ef E_real inv_P inv_opp inv_conj y)
  Sel_H0_b
  (fun x => SylvInst.Sel_comm_H0 (k := k) blk keep cm ksym kblk cblk Ef x)
  (fun y => SylvInst.sylv_spec (k := k) blk keep cm ksym kblk cblk Ef gq_inv0 inv_spec y)
  (proj2 (teq_eqN _ _) H_herm) (proj2 (teq_eqN _ _) H_zero).

Theorem tie_conclusions :
  eqN D k N (Sel (sol "U†" * sol "H" * sol "U")) (sol "H_tilde") /\
  eqN D k N (Rp (sol "U†" * sol "H" * sol "U")) 0 /\
  eqN D k N (sol "U†" * sol "U") 1 /\
  eqN D k N (sol "U" * sol "U†") 1 /\
  eqN D k N (adj (sol "U")) (sol "U†") /\
  eqN D k N (adj (sol "H_tilde")) (sol "H_tilde") /\
  eqN D k N (Sel (half ((sol "U" - 1) - adj (sol "U" - 1)))) 0.
Proof.
  refine (Logic.conj _ (Logic.conj _ (Logic.conj _ (Logic.conj _ (Logic.conj _ (Logic.conj _ _)))))); apply teq_eqN.
  - exact (@kept_general TT _ _ _ _ _ _ (teq M) (trunc_ops M) (Rgt M) (BAt M hsum_trunc_i) rfl fen sol trunc_solution Wt).
  - exact (@eliminated_general TT _ _ _ _ _ _ (teq M) (trunc_ops M) (Rgt M) (BAt M hsum_trunc_i) rfl fen sol trunc_solution Wt).
  - exact (@unitary_l_general TT _ _ _ _ _ _ (teq M) (trunc_ops M) (Rgt M) (BAt M hsum_trunc_i) rfl fen sol trunc_solution Wt).
  - exact (@unitary_r_general TT _ _ _ _ _ _ (teq M) (trunc_ops M) (Rgt M) (BAt M hsum_trunc_i) rfl fen sol trunc_solution Wt).
  - exact (@adjoint_general TT _ _ _ _ _ _ (teq M) (trunc_ops M) (Rgt M) (BAt M hsum_trunc_i) rfl fen sol trunc_solution Wt).
  - exact (@Ht_herm_general TT _ _ _ _ _ _ (teq M) (trunc_ops M) (Rgt M) (BAt M hsum_trunc_i) rfl fen sol trunc_solution Wt).
  - exact (@gauge_general TT _ _ _ _ _ _ (teq M) (trunc_ops M) (Rgt M) (BAt M hsum_trunc_i) rfl fen sol trunc_solution Wt).
Qed.

(** ** uniqueness: any U' that satisfies the least-action conditions up to order N for the loaded H
    agrees with the implementation's U up to order N *)
Lemma t_sylv_left : forall x : TT,
  teq M (Rp (MainLift.sylv fen (AlgLemmas.comm (Zc (sol "H")) (Rp x)))) (Rp x).
Proof.
  intros x. destruct Wt as [_ _ _ _ sP _ _ _ _ _].
  apply (teq_trans M _ (Rp (MainLift.sylv fen (AlgLemmas.comm H0c (Rp x))))).
  { apply (teq_Rp M). apply sP. apply (teq_comm M). exact (proj2 (teq_eqN _ _) H_zero). apply (teq_refl M). }
  apply lift_teq. unfold MainLift.sylv. cbn [afenv].
  apply (sylv_left_H0 D k blk keep cm ksym kblk cblk Ef gq_inv0 inv_spec).
Qed.

Theorem tie_unique (U' : TT) :
  ord 1 (U' - 1) ->
  eqN D k N (adj U' * U') 1 ->
  eqN D k N (Rp (adj U' * sol "H" * U')) 0 ->
  eqN D k N (Sel (half ((U' - 1) - adj (U' - 1)))) 0 ->
  eqN D k N U' (sol "U").
Proof.
  intros h1 h2 h3 h4. apply teq_eqN.
  exact (unique_upto M hsum_trunc_i rfl fen sol U' trunc_solution Wt t_sylv_left h1
           (proj2 (teq_eqN _ _) h2) (proj2 (teq_eqN _ _) h3) (proj2 (teq_eqN _ _) h4)).
Qed.
End Tie.

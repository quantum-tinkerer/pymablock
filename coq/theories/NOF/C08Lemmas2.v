(** * The expression of the from_expr example of Props/C08.v *)
Require Import List ZArith.
Require Import PV.NOF.Gauss PV.NOF.FromExpr.

(** (a† (N_a + 2) f  +  l s† g† N_f) written as an expression *)
Definition ex_e : expr :=
  EAdd (EMul (EMul (EDag (EOp 0 false)) (EAdd (ENum 0) (EConst (gz 2)))) (EOp 3 false))
       (EMul (EMul (EOp 1 false) (EDag (EMul (EOp 4 false) (EOp 2 false)))) (EPow (ENum 3) 2)).

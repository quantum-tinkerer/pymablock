(** * Correctness of the second-quantised Sylvester solver [solve_scalar] *)
Require Import List QArith Lia.
Require Import PV.NOF.Gauss PV.NOF.Coeff PV.NOF.Fock PV.NOF.FockLemmas PV.NOF.LinComb PV.NOF.Model PV.NOF.MulOpProof PV.NOF.SigLemmas PV.NOF.NofProof PV.NOF.NofProof2 PV.NOF.SolveScalar.
Import ListNotations.
Local Open Scope Z_scope.

(** the shifted Hamiltonians evaluate, in the middle of a term, to H at the target / source state *)
Lemma shift_cre_ok ks p n h :
  length p = length ks -> length n = length ks -> ~ geq (ws ks p n) g0 ->
  geq (cval (shift_cre ks p h) (omid n p)) (cval h (osub n p)).
Proof.
  intros Hp Hn Hnz. unfold shift_cre. apply cval_csubst. intros j.
  destruct (Nat.lt_ge_cases j (length ks)) as [Hj|Hj].
  2:{ assert (E : oget p j = 0) by (unfold oget; apply nth_overflow; lia).
      rewrite E. cbn [Z.ltb Z.compare cval]. unfold oget.
      rewrite !nth_overflow by (rewrite ?omid_length, ?osub_length; lia). reflexivity. }
  rewrite oget_osub by (auto; congruence).
  destruct (Z.ltb_spec (oget p j) 0) as [Hd|Hd]; [destruct (isInf (kget ks j)) eqn:Ek|]; cbn [cval].
  - rewrite oget_omid by (auto; congruence). rewrite <- gz_add.
    replace (oget n j - Z.max (oget p j) 0 + - oget p j) with (oget n j - oget p j) by lia. reflexivity.
  - destruct (ws_bin_cases ks p n j Hj Hp Hn Ek) as [Hz|[E|[[E E']|[E E']]]]; [contradiction|lia|lia|].
    rewrite E, E'. reflexivity.
  - rewrite oget_omid by (auto; congruence).
    replace (oget n j - Z.max (oget p j) 0) with (oget n j - oget p j) by lia. reflexivity.
Qed.

Lemma shift_ann_ok ks p n h :
  length p = length ks -> length n = length ks -> ~ geq (ws ks p n) g0 ->
  geq (cval (shift_ann ks p h) (omid n p)) (cval h n).
Proof.
  intros Hp Hn Hnz. unfold shift_ann. apply cval_csubst. intros j.
  destruct (Nat.lt_ge_cases j (length ks)) as [Hj|Hj].
  2:{ assert (E : oget p j = 0) by (unfold oget; apply nth_overflow; lia).
      rewrite E. cbn [Z.ltb Z.compare cval]. unfold oget.
      rewrite !nth_overflow by (rewrite ?omid_length; lia). reflexivity. }
  destruct (Z.ltb_spec 0 (oget p j)) as [Hd|Hd]; [destruct (isInf (kget ks j)) eqn:Ek|]; cbn [cval].
  - rewrite oget_omid by (auto; congruence). rewrite <- gz_add.
    replace (oget n j - Z.max (oget p j) 0 + oget p j) with (oget n j) by lia. reflexivity.
  - destruct (ws_bin_cases ks p n j Hj Hp Hn Ek) as [Hz|[E|[[E E']|[E E']]]]; [contradiction|lia| |lia].
    rewrite E'. reflexivity.
  - rewrite oget_omid by (auto; congruence).
    replace (oget n j - Z.max (oget p j) 0) with (oget n j) by lia. reflexivity.
Qed.

(** commutator of number-conserving Hamiltonians with one term:
    if  c'(mid) * (h_i(target) - h_j(source)) = c(mid)  whenever the term acts non-trivially,
    then  H_i T' - T' H_j = T  on the basis state n *)
Lemma comm_term ks p c c' hi hj n :
  length p = length ks -> length n = length ks ->
  (~ geq (ws ks p n) g0 ->
   geq (gmul (cval c' (omid n p)) (gsub (cval hi (osub n p)) (cval hj n))) (cval c (omid n p))) ->
  lc_eq (lapp (den ks (hnof ks hi)) (den_term ks (p, c') n)
         ++ lc_scale (gopp g1) (lapp (fun s => [den_term ks (p, c') s]) (cval hj n, n)))
        [den_term ks (p, c) n].
Proof.
  intros Hp Hn H.
  assert (E1 : peq (den_term ks (p, c') n) (den_term_cf ks (p, c') n)) by (apply den_term_cf_eq; auto).
  assert (E2 : peq (den_term ks (p, c) n) (den_term_cf ks (p, c) n)) by (apply den_term_cf_eq; auto).
  rewrite (lapp_Proper _ _ _ E1).
  unfold lapp at 1 2. unfold den_term_cf. cbn [fst snd].
  unfold hnof. rewrite den_zeros.
  intros m. rewrite coef_at_app, !coef_at_scale.
  rewrite (coef_at_peq m _ _ E1), (coef_at_peq m _ _ E2). unfold den_term_cf. cbn [fst snd coef_at].
  destruct (occ_eqb (osub n p) m); [|ring].
  destruct (geq_dec (ws ks p n) g0) as [Hz|Hnz]; [rewrite Hz; ring|].
  specialize (H Hnz).
  transitivity (gmul (ws ks p n) (gmul (cval c' (omid n p)) (gsub (cval hi (osub n p)) (cval hj n)))); [ring|].
  rewrite H. ring.
Qed.

(** sums of term-wise commutators *)
Lemma comm_sum (K : list Z -> lincomb) a (F Gt : term -> G * list Z) l :
  (forall t, In t l -> lc_eq (lapp K (F t) ++ lc_scale a [F t]) [Gt t]) ->
  lc_eq (lc_bind (map F l) K ++ lc_scale a (map F l)) (map Gt l).
Proof.
  induction l as [|t l IH]; intros H; [reflexivity|].
  cbn [map]. rewrite lc_bind_cons.
  change (lc_scale a (F t :: map F l)) with (lc_scale a [F t] ++ lc_scale a (map F l)).
  change (Gt t :: map Gt l) with ([Gt t] ++ map Gt l).
  rewrite <- (H t (or_introl eq_refl)), <- IH by (intros; apply H; right; auto).
  intros m. rewrite !coef_at_app. ring.
Qed.

(** ** _cancel_binary_operator_numbers *)
Lemma cfold_sound e : forall g, cfold e = Some g -> forall M, geq (cval e M) g.
Proof.
  induction e; cbn [cfold]; intros g0 H M.
  - injection H as H; subst; reflexivity.
  - discriminate.
  - destruct (cfold e1), (cfold e2); try discriminate. injection H as H; subst.
    cbn [cval]. rewrite (IHe1 _ eq_refl), (IHe2 _ eq_refl), gred_correct. reflexivity.
  - cbn [cval]. destruct (cfold e1) as [x|] eqn:E1, (cfold e2) as [y|] eqn:E2.
    + injection H as H; subst. rewrite (IHe1 _ eq_refl), (IHe2 _ eq_refl), gred_correct. reflexivity.
    + destruct (gzerob x) eqn:Ez; [|discriminate]. injection H as H; subst.
      rewrite (IHe1 _ eq_refl). apply geqb_spec in Ez. rewrite Ez. ring.
    + destruct (gzerob y) eqn:Ez; [|discriminate]. injection H as H; subst.
      rewrite (IHe2 _ eq_refl). apply geqb_spec in Ez. rewrite Ez. ring.
    + discriminate.
  - destruct (cfold e); try discriminate. injection H as H; subst.
    cbn [cval]. rewrite (IHe _ eq_refl). reflexivity.
  - discriminate.
Qed.
Lemma csyn0_sound e M : csyn0 e = true -> geq (cval e M) g0.
Proof.
  unfold csyn0. destruct (cfold e) as [g|] eqn:E; [|discriminate]. intros H.
  rewrite (cfold_sound e g E M). apply geqb_spec. exact H.
Qed.

Definition cancel_coeff (ks : sig) (t : term) : cexpr :=
  csubst (fun j => if (n_inf ks <=? j)%nat && negb (oget (fst t) j =? 0) then CConst (gz 0) else CNum j) (snd t).
Definition cancel_term (ks : sig) (t : term) : option term :=
  if csyn0 (cancel_coeff ks t) then None else Some (fst t, cancel_coeff ks t).

(** the substituted placeholders vanish at [M] anyway *)
Lemma cancel_coeff_val ks p f M :
  (forall j, (n_inf ks <= j)%nat -> oget p j <> 0 -> oget M j = 0) ->
  geq (cval (cancel_coeff ks (p, f)) M) (cval f M).
Proof.
  intros H. unfold cancel_coeff. cbn [fst snd]. apply cval_csubst. intros j.
  destruct (Nat.leb_spec (n_inf ks) j) as [Hj|Hj]; cbn [andb]; [|reflexivity].
  destruct (Z.eqb_spec (oget p j) 0) as [E|E]; cbn [negb cval]; [reflexivity|].
  rewrite (H j Hj E). reflexivity.
Qed.

(** which they do in the middle of a term with powers [q] that vanish only where those of [p] do *)
Lemma cancel_coeff_mid ks p q f n :
  sig_ok ks = true -> length q = length ks -> length n = length ks ->
  (forall j, oget p j <> 0 -> oget q j <> 0) -> ~ geq (ws ks q n) g0 ->
  geq (cval (cancel_coeff ks (p, f)) (omid n q)) (cval f (omid n q)).
Proof.
  intros Hs Hq Hn Hpq Hnz. apply cancel_coeff_val. intros j Hj E.
  destruct (Nat.lt_ge_cases j (length ks)) as [Hjl|Hjl].
  - destruct (sig_ok_index ks j Hs Hjl) as [Hinf _].
    destruct (Nat.ltb_spec j (n_inf ks)); [lia|].
    apply (omid_bin_zero ks q n j); auto.
  - exfalso. apply (Hpq j E). unfold oget. apply nth_overflow. lia.
Qed.

Lemma cancel_binary_eq ks x : wf_nof ks x ->
  wf_nof ks (cancel_binary ks x) /\
  (cancel_binary ks x = x \/ cancel_binary ks x = omap (cancel_term ks) x).
Proof.
  intros W. unfold cancel_binary. destruct (_ =? 0)%nat; [auto|].
  assert (W' : wf_nof ks (omap (cancel_term ks) x)).
  { destruct W as [Hn Hw]. rewrite Forall_forall in Hw. apply (wf_omap ks _ (fun k => k)); auto.
    intros t t' Ht E. unfold cancel_term in E. destruct (csyn0 _); [discriminate|].
    injection E as E. subst t'. split; [reflexivity|apply (Hw t Ht)]. }
  match goal with |- context [dict_of ?l] => replace l with (omap (cancel_term ks) x) end.
  - rewrite (wf_dict ks _ W'). auto.
  - apply flat_map_ext. intros t. unfold cancel_term, cancel_coeff. destruct (csyn0 _); reflexivity.
Qed.

Theorem cancel_correct ks x n :
  sig_ok ks = true -> wf_nof ks x -> length n = length ks ->
  lc_eq (den ks (cancel_binary ks x) n) (den ks x n).
Proof.
  intros Hs W Hn. destruct (cancel_binary_eq ks x W) as [_ [E|E]]; rewrite E; [reflexivity|].
  destruct W as [_ Hw]. rewrite Forall_forall in Hw.
  apply den_omap. intros [p f] Ht. pose proof (pow_ok_length _ _ (Hw _ Ht)) as Hp. cbn [fst] in Hp.
  assert (HT : peq (den_term ks (p, cancel_coeff ks (p, f)) n) (den_term ks (p, f) n))
    by (apply den_term_coeff1; auto; apply cancel_coeff_mid; auto).
  unfold cancel_term. cbn [fst]. destruct (csyn0 _) eqn:Ez; [|exact HT].
  rewrite <- HT, den_term_cf_eq by auto. cbn [den_term_cf fst snd]. rewrite (csyn0_sound _ _ Ez). ring.
Qed.

Definition solve_coeff (ks : sig) (hi hj : cexpr) (t : term) : cexpr :=
  CMul (CMul (CConst (if lex_neg (fst t) then gopp g1 else g1)) (CInv (denominator ks hi hj (fst t)))) (snd t).

Lemma solve_terms_offdiag ks hi hj y : wf_nof ks y ->
  solve_terms ks hi hj false y = map (fun t : term => (fst t, solve_coeff ks hi hj t)) y.
Proof.
  intros W. unfold solve_terms. fold (omap (solve_term ks hi hj false) y).
  rewrite (omap_ext _ (fun t => Some (fst t, solve_coeff ks hi hj t))) by (intros [p c] _; reflexivity).
  rewrite omap_Some. apply (wf_dict ks), wf_map_coeff, W.
Qed.

Definition denom_ok (ks : sig) (hi hj : cexpr) (y : nof) (n : list Z) : Prop :=
  forall t, In t y -> geq (ws ks (fst t) n) g0
                      \/ ~ geq (cval (denominator ks hi hj (fst t)) (omid n (fst t))) g0.

Lemma solve_coeff_ok ks hi hj p c n :
  length p = length ks -> length n = length ks ->
  ~ geq (ws ks p n) g0 ->
  ~ geq (cval (denominator ks hi hj p) (omid n p)) g0 ->
  geq (gmul (cval (solve_coeff ks hi hj (p, c)) (omid n p))
            (gsub (cval hi (osub n p)) (cval hj n)))
      (cval c (omid n p)).
Proof.
  intros Hp Hn Hnz Hd. unfold solve_coeff. cbn [cval fst snd].
  pose proof (shift_cre_ok ks p n hi Hp Hn Hnz) as H1.
  pose proof (shift_ann_ok ks p n hj Hp Hn Hnz) as H2.
  set (D := cval (denominator ks hi hj p) (omid n p)) in *.
  pose proof (gmul_inv_r D Hd) as HI.
  assert (E : geq (gsub (cval hi (osub n p)) (cval hj n))
                  (gmul (if lex_neg p then gopp g1 else g1) D)).
  { subst D. unfold denominator. destruct (lex_neg p); cbn [cval]; rewrite H1, H2; ring. }
  rewrite E.
  transitivity (gmul (gmul (if lex_neg p then gopp g1 else g1) (if lex_neg p then gopp g1 else g1))
                     (gmul (gmul D (ginv D)) (cval c (omid n p)))); [ring|].
  rewrite HI. destruct (lex_neg p); ring.
Qed.

(** C16_scalar, off-diagonal elements: H_ii X - X H_jj = Y on every basis state where the
    shifted denominators of the terms that act non-trivially do not vanish *)
Theorem solve_scalar_offdiag_correct ks y hi hj n :
  sig_ok ks = true -> wf_nof ks y -> bok ks n -> denom_ok ks hi hj y n ->
  let x := solve_scalar ks y hi hj false in
  lc_eq (lc_bind (den ks x n) (den ks (hnof ks hi))
         ++ lc_scale (gopp g1) (lc_bind (den ks (hnof ks hj) n) (den ks x)))
        (den ks y n)
  /\ wf_nof ks x.
Proof.
  intros Hs W Hb Hden x. pose proof (bok_length _ _ Hb) as Hn.
  unfold solve_scalar in x. subst x. rewrite solve_terms_offdiag by exact W.
  set (x1 := map (fun t : term => (fst t, solve_coeff ks hi hj t)) y).
  assert (W1 : wf_nof ks x1) by apply wf_map_coeff, W.
  destruct (cancel_binary_eq ks x1 W1) as [W2 _].
  split; [|apply linearize_wf, W2].
  set (X := linearize ks (cancel_binary ks x1)).
  assert (HX : lc_eq (den ks X n) (den ks x1 n))
    by (unfold X; rewrite linearize_den, cancel_correct by auto; reflexivity).
  rewrite (lc_bind_Proper_l _ _ _ HX).
  rewrite (lc_bind_Proper_l _ _ _ (den_zeros ks hj n)).
  rewrite lc_bind_single. unfold lapp at 1. cbn [fst snd]. rewrite HX.
  unfold x1. rewrite den_map. unfold den.
  rewrite lc_scale_scale.
  apply comm_sum. intros [p c] Ht. cbn [fst].
  destruct W as [_ Hw]. rewrite Forall_forall in Hw. pose proof (pow_ok_length _ _ (Hw _ Ht)) as Hp. cbn [fst] in Hp.
  rewrite <- (comm_term ks p c (solve_coeff ks hi hj (p, c)) hi hj n Hp Hn).
  - apply app_lc_Proper; [reflexivity|].
    unfold lapp. cbn [fst snd]. rewrite lc_scale_scale. reflexivity.
  - intros Hnz. destruct (Hden _ Ht) as [Hz|Hd]; [contradiction|]. cbn [fst] in Hd.
    apply solve_coeff_ok; auto.
Qed.

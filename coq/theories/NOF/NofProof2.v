(** * Adjoint, powers, and the algebraic corollaries *)
Require Import List FinFun QArith Lia.
Require Import PV.NOF.Gauss PV.NOF.Coeff PV.NOF.Fock PV.NOF.FockLemmas PV.NOF.LinComb PV.NOF.Model PV.NOF.MulOpProof PV.NOF.NofProof PV.NOF.FromExpr.
Import ListNotations.
Local Open Scope Z_scope.

(** ** physical states and the weight of the non-normalised boson basis: <e_n,e_n> = n! *)
Fixpoint phys (ks : sig) (n : list Z) : Prop :=
  match ks, n with
  | k :: ks', v :: n' => (isInf k = false -> v = 0 \/ v = 1) /\ (k = Boson -> 0 <= v) /\ phys ks' n'
  | [], [] => True
  | _, _ => False
  end.
Fixpoint mu (ks : sig) (n : list Z) : G :=
  match ks, n with
  | k :: ks', v :: n' => gmul (if isB k then ffall v (Z.to_nat v) else g1) (mu ks' n')
  | _, _ => g1
  end.

Lemma phys_bok ks : forall n, phys ks n -> bok ks n.
Proof. induction ks; destruct n; cbn; try tauto. intros [H1 [H2 H3]]. split; auto. Qed.

Lemma gconj_ffall v k : geq (gconj (ffall v k)) (ffall v k).
Proof. revert v; induction k; intros v; cbn [ffall]; [apply gconj_1|]. rewrite gconj_mul, gconj_gz, IHk. reflexivity. Qed.
Lemma gconj_gind b : geq (gconj (gind b)) (gind b).
Proof. destruct b; [apply gconj_1|apply gconj_0]. Qed.
Lemma gconj_wloc k q v : geq (gconj (wloc k q v)) (wloc k q v).
Proof.
  destruct k; unfold wloc; try apply gconj_ffall; try apply gconj_1;
  destruct (q =? 0); try apply gconj_1; destruct (q =? 1); try apply gconj_gind;
  destruct (q =? -1); try apply gconj_gind; apply gconj_0.
Qed.
Lemma gconj_ws ks : forall p n, geq (gconj (ws ks p n)) (ws ks p n).
Proof.
  induction ks; intros p n; destruct p, n; cbn [ws]; try apply gconj_1.
  rewrite !gconj_mul, gconj_wloc, gconj_gsgn, IHks. reflexivity.
Qed.

Lemma parF_opp ks : forall p, parF ks (map Z.opp p) = parF ks p.
Proof. induction ks; intros p; destruct p; cbn [map parF]; auto. rewrite Z.odd_opp, IHks. reflexivity. Qed.

Lemma wloc_adj k q v :
  (isInf k = false -> (v = 0 \/ v = 1) /\ (v - q = 0 \/ v - q = 1)) ->
  (k = Boson -> 0 <= v /\ 0 <= v - q) ->
  geq (gmul (wloc k q v) (if isB k then ffall (v - q) (Z.to_nat (v - q)) else g1))
      (gmul (wloc k (- q) (v - q)) (if isB k then ffall v (Z.to_nat v) else g1)).
Proof.
  intros Hb HB. destruct (isInf k) eqn:Ek.
  - destruct k; try discriminate; cbn [isB wloc]; [|ring].
    destruct (HB eq_refl) as [H1 H2].
    destruct (Z.le_gt_cases 0 q).
    + replace (Z.to_nat (- q)) with O by lia. cbn [ffall].
      replace (Z.to_nat v) with (Z.to_nat q + Z.to_nat (v - q))%nat by lia.
      rewrite ffall_add. replace (v - Z.of_nat (Z.to_nat q)) with (v - q) by lia. ring.
    + replace (Z.to_nat q) with O by lia. cbn [ffall].
      replace (Z.to_nat (v - q)) with (Z.to_nat (- q) + Z.to_nat v)%nat by lia.
      rewrite ffall_add. replace (v - q - Z.of_nat (Z.to_nat (- q))) with v by lia. ring.
  - replace (isB k) with false by (destruct k; try discriminate; reflexivity).
    rewrite (wloc_bin_eq k Ek).
    destruct (Hb eq_refl) as [[H1|H1] [H2|H2]]; subst v;
      [replace q with 0 by lia|replace q with (-1) by lia|replace q with 1 by lia|replace q with 0 by lia];
      reflexivity.
Qed.

Lemma ws_adj ks : forall p n, length p = length ks -> phys ks n -> phys ks (osub n p) ->
  geq (gmul (ws ks p n) (mu ks (osub n p))) (gmul (ws ks (map Z.opp p) (osub n p)) (mu ks n)).
Proof.
  induction ks as [|k ks IH]; intros p n Hp Hn Hm; destruct p as [|q p]; try discriminate;
    destruct n as [|v n]; cbn in Hn; try tauto.
  - cbn. ring.
  - injection Hp as Hp. cbn [osub] in Hm. destruct Hn as [Hn1 [Hn2 Hn3]]. destruct Hm as [Hm1 [Hm2 Hm3]].
    cbn [map osub ws mu]. rewrite parF_opp.
    replace (v - q - Z.max (- q) 0) with (v - Z.max q 0) by lia.
    pose proof (wloc_adj k q v) as HW.
    specialize (IH p n Hp Hn3 Hm3).
    transitivity (gmul (gmul (wloc k q v) (if isB k then ffall (v - q) (Z.to_nat (v - q)) else g1))
                  (gmul (gsgn (isF k && (v - Z.max q 0 =? 1) && parF ks p))
                        (gmul (ws ks p n) (mu ks (osub n p))))); [ring|].
    rewrite HW, IH by auto. ring.
Qed.

Lemma omid_opp : forall n p, length p = length n -> omid (osub n p) (map Z.opp p) = omid n p.
Proof.
  induction n as [|v n IH]; intros p H; destruct p as [|q p]; try discriminate; [reflexivity|].
  cbn [osub map omid]. f_equal; [lia|]. apply IH. cbn in H; lia.
Qed.
Lemma osub_opp : forall n p, length p = length n -> osub (osub n p) (map Z.opp p) = n.
Proof.
  induction n as [|v n IH]; intros p H; destruct p as [|q p]; try discriminate; [reflexivity|].
  cbn [osub map]. f_equal; [lia|]. apply IH. cbn in H; lia.
Qed.
Lemma osub_inj_l : forall n m p, length p = length n -> length m = length n ->
  osub m (map Z.opp p) = n -> osub n p = m.
Proof.
  induction n as [|v n IH]; intros m p H1 H2 H; destruct p as [|q p], m as [|w m]; try discriminate; [reflexivity|].
  cbn [osub map] in *. injection H as Ha Hb. f_equal; [lia|]. apply IH; auto; cbn in *; lia.
Qed.

Lemma pow_ok_opp ks : forall p, pow_ok ks p -> pow_ok ks (map Z.opp p).
Proof. induction ks; intros p; destruct p; cbn; try tauto. intros [H1 H2]. split; auto. intros HH. specialize (H1 HH). lia. Qed.

(** one term: <t e_n, e_m> = <e_n, t† e_m> *)
Lemma adj_term ks p f n m :
  pow_ok ks p -> phys ks n -> phys ks m ->
  geq (gmul (gconj (coef_at m [den_term ks (p, f) n])) (mu ks m))
      (gmul (coef_at n [den_term ks (map Z.opp p, cconj f) m]) (mu ks n)).
Proof.
  intros Hp Hn Hm. pose proof (pow_ok_length _ _ Hp) as Hlp.
  pose proof (bok_length _ _ (phys_bok _ _ Hn)) as Hln. pose proof (bok_length _ _ (phys_bok _ _ Hm)) as Hlm.
  rewrite (coef_at_peq m _ _ (den_term_cf_eq ks (p, f) n Hlp Hln)).
  rewrite (coef_at_peq n _ _ (den_term_cf_eq ks (map Z.opp p, cconj f) m ltac:(cbn [fst]; rewrite map_length; auto) Hlm)).
  unfold den_term_cf. cbn [fst snd coef_at].
  destruct (occ_eqb_spec (osub n p) m) as [E|E].
  - subst m. rewrite osub_opp by congruence. rewrite occ_eqb_refl.
    rewrite omid_opp by congruence. rewrite cval_cconj.
    pose proof (ws_adj ks p n Hlp Hn Hm) as HW.
    assert (E1 : geq (gconj (gadd (gmul (ws ks p n) (cval f (omid n p))) g0))
                     (gmul (ws ks p n) (gconj (cval f (omid n p))))).
    { rewrite gconj_add, gconj_mul, gconj_ws, gconj_0. ring. }
    rewrite E1.
    transitivity (gmul (gmul (ws ks p n) (mu ks (osub n p))) (gconj (cval f (omid n p)))); [ring|].
    rewrite HW. ring.
  - destruct (occ_eqb_spec (osub m (map Z.opp p)) n) as [E2|E2].
    + exfalso. apply E. apply osub_inj_l; auto; congruence.
    + assert (E0 : geq (gconj (gadd g0 g0)) g0) by (rewrite gconj_add, gconj_0; ring).
      rewrite E0. ring.
Qed.

Theorem adj_correct ks x n m :
  wf_nof ks x -> phys ks n -> phys ks m ->
  geq (gmul (gconj (melt ks x n m)) (mu ks m)) (gmul (melt ks (adj x) m n) (mu ks n)).
Proof.
  intros [_ Hwf] Hn Hm. unfold melt, adj.
  induction x as [|[p f] x IH].
  - cbn [den map coef_at]. rewrite gconj_0. ring.
  - inversion Hwf; subst. specialize (IH H2).
    cbn [map fst snd]. rewrite !den_cons.
    change (den_term ks (p, f) n :: den ks x n) with ([den_term ks (p, f) n] ++ den ks x n).
    change (den_term ks (map Z.opp p, cconj f) m :: den ks (map (fun t : term => (map Z.opp (fst t), cconj (snd t))) x) m)
      with ([den_term ks (map Z.opp p, cconj f) m] ++ den ks (map (fun t : term => (map Z.opp (fst t), cconj (snd t))) x) m).
    rewrite !coef_at_app, gconj_add.
    pose proof (adj_term ks p f n m H1 Hn Hm) as HT.
    transitivity (gadd (gmul (gconj (coef_at m [den_term ks (p, f) n])) (mu ks m))
                       (gmul (gconj (coef_at m (den ks x n))) (mu ks m))); [ring|].
    rewrite HT, IH. ring.
Qed.

Lemma map_opp_inj (a b : list Z) : map Z.opp a = map Z.opp b -> a = b.
Proof.
  revert b; induction a; destruct b; cbn; intros H; try discriminate; auto.
  injection H as H1 H2. f_equal; auto. lia.
Qed.
Theorem adj_wf ks x : wf_nof ks x -> wf_nof ks (adj x).
Proof.
  intros [Hnd Hwf]. unfold adj. split.
  - assert (E : map fst (map (fun t : term => (map Z.opp (fst t), cconj (snd t))) x) = map (map Z.opp) (map fst x))
      by (rewrite !map_map; reflexivity).
    rewrite E. apply (Injective_map_NoDup map_opp_inj); auto.
  - rewrite Forall_forall in *. intros t' Ht'. rewrite in_map_iff in Ht'.
    destruct Ht' as [t [E Ht]]. subst t'. unfold wf_term. cbn [fst]. apply pow_ok_opp. apply (Hwf _ Ht).
Qed.

(** ** forms with the single key 0: the identity, scalars, functions of number operators *)
Lemma apass_zeros ks (l : sig) : forall i cs, apass_aux ks (zeros l) i cs = cs.
Proof. induction l; intros i cs; cbn [zeros map apass_aux]; auto. Qed.
Lemma cpass_zeros ks (l : sig) : forall i cs, cpass_aux ks (zeros l) i cs = cs.
Proof. induction l; intros i cs; cbn [zeros map cpass_aux]; auto. change (0 <? 0) with false. cbv iota. apply IHl. Qed.

Lemma den_zeros ks f n : lc_eq (den ks [(zeros ks, f)] n) [(cval f n, n)].
Proof.
  unfold den, den_term. cbn [map fst snd]. rewrite apass_zeros, cpass_zeros.
  apply lc_eq_cons; [|reflexivity]. split; unfold papp, fact, pscale; cbn [fst snd]; [ring|reflexivity].
Qed.
Lemma den_one ks n : lc_eq (den ks (one_nof ks) n) [(g1, n)].
Proof. apply den_zeros. Qed.

Lemma wf_single ks p f : pow_ok ks p -> wf_nof ks [(p, f)].
Proof. intros H. split; cbn; [constructor; [intros []|constructor]|]. constructor; [exact H|constructor]. Qed.
Lemma pow_ok_zeros ks : pow_ok ks (zeros ks).
Proof. induction ks; cbn; auto. split; auto. intros; lia. Qed.
Lemma one_wf ks : wf_nof ks (one_nof ks).
Proof. apply wf_single, pow_ok_zeros. Qed.

(** ** the operator of a form on valid states *)
Definition den_eq (ks : sig) (x y : nof) : Prop := forall n, bok ks n -> lc_eq (den ks x n) (den ks y n).

Lemma den_vok ks x n : wf_nof ks x -> bok ks n -> Forall (vok ks) (den ks x n).
Proof.
  intros [_ Hwf] Hb. unfold den. rewrite Forall_map. rewrite Forall_forall in *.
  intros t Ht. pose proof (pow_ok_length _ _ (Hwf t Ht)) as Hp. unfold den_term.
  apply vok_cpass; [lia|]. apply vok_fact. apply vok_apass; [lia|]. right; auto.
Qed.

Lemma lc_bind_ext_vok ks l F F' :
  Forall (vok ks) l -> (forall s, bok ks s -> lc_eq (F s) (F' s)) -> lc_eq (lc_bind l F) (lc_bind l F').
Proof.
  intros Hv H. induction Hv as [|cs l Hc _ IH]; [reflexivity|].
  rewrite !lc_bind_cons. apply app_lc_Proper; [apply (lapp_ext_vok ks); auto|exact IH].
Qed.

Lemma lc_bind_den_ext ks y n F F' : wf_nof ks y -> bok ks n ->
  (forall s, bok ks s -> lc_eq (F s) (F' s)) -> lc_eq (lc_bind (den ks y n) F) (lc_bind (den ks y n) F').
Proof. intros W Hb. apply lc_bind_ext_vok, den_vok; auto. Qed.

(** ** __pow__: x**k denotes the k-fold composition *)
Lemma mul_n_succ ks x : forall k acc, mul_n ks x acc (S k) = mul ks (mul_n ks x acc k) x.
Proof. induction k; intros acc; [reflexivity|]. cbn [mul_n] in *. rewrite <- IHk. reflexivity. Qed.

Lemma mul_n_den ks x : sig_ok ks = true -> wf_nof ks x -> forall k,
  wf_nof ks (mul_n ks x x k) /\ forall n, bok ks n -> lc_eq (den ks (mul_n ks x x k) n) (lc_pow (den ks x) (S k) n).
Proof.
  intros Hs Hx. induction k as [|k [W IH]].
  - split; [exact Hx|]. intros n _. symmetry. apply lc_bind_unit.
  - rewrite mul_n_succ. split; [apply mul_wf; auto|]. intros n Hb.
    rewrite mul_den by auto. apply lc_bind_den_ext; auto.
Qed.

Lemma pow_pos ks x k : pow ks x (Z.of_nat (S k)) = Ok (mul_n ks x x k).
Proof.
  unfold pow. destruct (Z.eqb_spec (Z.of_nat (S k)) 0); [lia|]. destruct (Z.ltb_spec 0 (Z.of_nat (S k))); [|lia].
  do 2 f_equal. lia.
Qed.

Theorem pow_den ks x : sig_ok ks = true -> wf_nof ks x -> forall k,
  exists y, pow ks x (Z.of_nat k) = Ok y /\ wf_nof ks y /\
            forall n, bok ks n -> lc_eq (den ks y n) (lc_pow (den ks x) k n).
Proof.
  intros Hs Hx [|k].
  - exists (one_nof ks). split; [reflexivity|]. split; [apply one_wf|]. intros n _. apply den_one.
  - exists (mul_n ks x x k). split; [apply pow_pos|]. apply mul_n_den; auto.
Qed.

Theorem pow_one ks x : pow ks x 1 = Ok x.
Proof. reflexivity. Qed.

Theorem pow_correct ks x e n :
  sig_ok ks = true -> wf_nof ks x -> bok ks n -> 0 <= e ->
  exists y y', pow ks x e = Ok y /\ pow ks x (e + 1) = Ok y' /\ wf_nof ks y /\ wf_nof ks y' /\
               lc_eq (den ks y' n) (lc_bind (den ks x n) (den ks y)).
Proof.
  intros Hs Hx Hb He.
  destruct (pow_den ks x Hs Hx (Z.to_nat e)) as [y [E [W D]]].
  destruct (pow_den ks x Hs Hx (S (Z.to_nat e))) as [y' [E' [W' D']]].
  rewrite Z2Nat.id in E by exact He. replace (Z.of_nat (S (Z.to_nat e))) with (e + 1) in E' by lia.
  exists y, y'. repeat (split; [assumption|]).
  rewrite D' by exact Hb. cbn [lc_pow]. apply lc_bind_den_ext; auto. intros s Hsb. symmetry. apply D, Hsb.
Qed.

(** ** corollaries: the model operations form a *-algebra homomorphism into Fock-space operators *)
Theorem mul_assoc_den ks x y z :
  sig_ok ks = true -> wf_nof ks x -> wf_nof ks y -> wf_nof ks z ->
  den_eq ks (mul ks (mul ks x y) z) (mul ks x (mul ks y z)).
Proof.
  intros Hs Hx Hy Hz n Hb.
  rewrite !mul_den by (auto using mul_wf).
  rewrite lc_bind_bind.
  apply lc_bind_den_ext; auto. intros s Hsb. apply mul_den; auto.
Qed.

Theorem mul_add_distr_l_den ks x y z :
  sig_ok ks = true -> wf_nof ks x -> wf_nof ks y -> wf_nof ks z ->
  den_eq ks (mul ks x (add y z)) (add (mul ks x y) (mul ks x z)).
Proof.
  intros Hs Hx Hy Hz n Hb.
  rewrite add_correct, !mul_den by (auto using add_wf).
  rewrite (lc_bind_Proper_l _ _ _ (add_correct ks y z n)), lc_bind_app. reflexivity.
Qed.

Theorem mul_add_distr_r_den ks x y z :
  sig_ok ks = true -> wf_nof ks x -> wf_nof ks y -> wf_nof ks z ->
  den_eq ks (mul ks (add x y) z) (add (mul ks x z) (mul ks y z)).
Proof.
  intros Hs Hx Hy Hz n Hb.
  rewrite add_correct, !mul_den by (auto using add_wf).
  rewrite (lc_bind_ext _ _ (fun s => den ks x s ++ den ks y s)) by (intros; apply add_correct).
  apply lc_bind_app_r.
Qed.


Lemma ffall_nonzero v k : (Z.of_nat k <= v) -> ~ geq (ffall v k) g0.
Proof.
  revert v; induction k; intros v H; cbn [ffall]; [apply g1_nonzero|].
  apply gmul_nonzero; [apply gz_nonzero; lia|apply IHk; lia].
Qed.
Lemma mu_nonzero ks : forall n, phys ks n -> ~ geq (mu ks n) g0.
Proof.
  induction ks as [|k ks IH]; intros n H; destruct n as [|v n]; cbn in H; try tauto; cbn [mu]; try apply g1_nonzero.
  destruct H as [H1 [H2 H3]]. apply gmul_nonzero; [|apply IH; auto].
  destruct k; cbn [isB]; try apply g1_nonzero. apply ffall_nonzero. specialize (H2 eq_refl). lia.
Qed.

(** ** physical states are an invariant subspace: a term maps a physical state to a physical
    state or to zero *)
Lemma ffall_zero v k : 0 <= v -> (v < Z.of_nat k) -> geq (ffall v k) g0.
Proof.
  revert v; induction k; intros v H0 H; [cbn in H; lia|]. cbn [ffall].
  destruct (Z.eq_dec v 0) as [E|E]; [subst; rewrite gz_0; ring|].
  rewrite IHk by lia. ring.
Qed.

Lemma term_phys_or_zero ks : forall p n, pow_ok ks p -> phys ks n ->
  phys ks (osub n p) \/ geq (ws ks p n) g0.
Proof.
  induction ks as [|k ks IH]; intros p n Hp Hn; destruct p as [|q p]; cbn in Hp; try tauto;
    destruct n as [|v n]; cbn in Hn; try tauto.
  destruct Hp as [Hp1 Hp2]. destruct Hn as [Hn1 [Hn2 Hn3]].
  destruct (IH p n Hp2 Hn3) as [H|H]; [|right; cbn [ws]; rewrite H; ring].
  cbn [osub ws phys].
  destruct (isInf k) eqn:Ek.
  - destruct k; try discriminate Ek.
    + specialize (Hn2 eq_refl).
      destruct (Z.le_gt_cases q v); [left; repeat split; auto; intros; try discriminate; lia|].
      right. cbn [wloc]. rewrite ffall_zero by lia. ring.
    + left. repeat split; auto; intros; discriminate.
  - destruct (wloc_bin_cases k q v Ek) as [Hz|[_ Hc]]; [right; rewrite Hz; ring|left].
    split; [intros _; destruct (Hn1 eq_refl); lia|]. split; [intros; subst k; discriminate|exact H].
Qed.

Lemma melt_unphys ks x n k : wf_nof ks x -> phys ks n -> ~ phys ks k -> geq (melt ks x n k) g0.
Proof.
  intros [_ Hwf] Hn Hk. unfold melt. pose proof (bok_length _ _ (phys_bok _ _ Hn)) as Hl.
  induction x as [|[p f] x IH]; [reflexivity|].
  inversion Hwf; subst. rewrite den_cons.
  change (den_term ks (p, f) n :: den ks x n) with ([den_term ks (p, f) n] ++ den ks x n).
  rewrite coef_at_app, (IH H2).
  rewrite (coef_at_peq k _ _ (den_term_cf_eq ks (p, f) n (pow_ok_length _ _ H1) Hl)).
  unfold den_term_cf. cbn [fst snd coef_at].
  destruct (occ_eqb_spec (osub n p) k) as [E|E]; [|ring].
  destruct (term_phys_or_zero ks p n H1 Hn) as [H|H]; [subst; contradiction|].
  rewrite H. ring.
Qed.

Lemma phys_dec ks : forall n, {phys ks n} + {~ phys ks n}.
Proof.
  induction ks as [|k ks IH]; intros n; destruct n as [|v n]; cbn [phys]; try (left; exact I); try (right; tauto).
  destruct (IH n) as [H|H]; [|right; tauto].
  destruct (isInf k) eqn:Ek.
  - destruct (Z_le_gt_dec 0 v); [left; repeat split; auto; intros; discriminate|].
    destruct k; try discriminate Ek; [right; intros [_ [H2 _]]; specialize (H2 eq_refl); lia|].
    left; repeat split; auto; intros; discriminate.
  - destruct (Z.eq_dec v 0); [left; repeat split; auto; intros; subst k; discriminate|].
    destruct (Z.eq_dec v 1); [left; repeat split; auto; intros; subst k; discriminate|].
    right. intros [H1 _]. specialize (H1 eq_refl). lia.
Qed.

(** ** matrix elements of a product as a finite sum over intermediate states *)
Lemma sumK_conj S phi : geq (gconj (sumK S phi)) (sumK S (fun s => gconj (phi s))).
Proof.
  induction S as [|s S IH]; cbn [sumK fold_right]; [apply gconj_0|].
  fold (sumK S phi). fold (sumK S (fun s => gconj (phi s))). rewrite gconj_add, IH. reflexivity.
Qed.

Lemma melt_mul_sum ks x y n m S :
  sig_ok ks = true -> wf_nof ks x -> wf_nof ks y -> bok ks n ->
  NoDup S -> (forall cs, In cs (den ks y n) -> In (snd cs) S) ->
  geq (melt ks (mul ks x y) n m) (sumK S (fun k => gmul (melt ks y n k) (melt ks x k m))).
Proof.
  intros Hs Hx Hy Hb Hn Hin. unfold melt at 1.
  rewrite (mul_den ks x y n Hs Hx Hy Hb m).
  apply (bind_sumK (den ks x) m S (den ks y n) Hn Hin).
Qed.

Definition targets (l : lincomb) : list (list Z) := map snd l.

Theorem dagger_mul_correct ks x y n m :
  sig_ok ks = true -> wf_nof ks x -> wf_nof ks y -> phys ks n -> phys ks m ->
  geq (melt ks (adj (mul ks x y)) n m) (melt ks (mul ks (adj y) (adj x)) n m).
Proof.
  intros Hs Hx Hy Hn Hm.
  pose proof (phys_bok _ _ Hn) as Hbn. pose proof (phys_bok _ _ Hm) as Hbm.
  pose proof (mul_wf ks x y Hs Hx Hy) as Wxy.
  pose proof (adj_wf ks x Hx) as Wax. pose proof (adj_wf ks y Hy) as Way.
  apply (gmul_cancel_r _ _ (mu ks m) (mu_nonzero ks m Hm)).
  (* left-hand side through the adjoint theorem *)
  pose proof (adj_correct ks (mul ks x y) m n Wxy Hm Hn) as HL. rewrite <- HL. clear HL.
  set (S := nodup (list_eq_dec Z.eq_dec) (targets (den ks y m) ++ targets (den ks (adj x) n))).
  assert (HS : NoDup S) by apply NoDup_nodup.
  rewrite (melt_mul_sum ks x y m n S Hs Hx Hy Hbm HS)
    by (intros cs Hc; apply nodup_In, in_or_app; left; apply in_map; exact Hc).
  rewrite (melt_mul_sum ks (adj y) (adj x) n m S Hs Way Wax Hbn HS)
    by (intros cs Hc; apply nodup_In, in_or_app; right; apply in_map; exact Hc).
  rewrite sumK_conj, <- !sumK_scale. apply sumK_ext. intros k _.
  destruct (phys_dec ks k) as [Hk|Hk].
  - pose proof (adj_correct ks x k n Hx Hk Hn) as H1.
    pose proof (adj_correct ks y m k Hy Hm Hk) as H2.
    rewrite gconj_mul.
    transitivity (gmul (gconj (melt ks y m k)) (gmul (gconj (melt ks x k n)) (mu ks n))); [ring|].
    rewrite H1.
    transitivity (gmul (melt ks (adj x) n k) (gmul (gconj (melt ks y m k)) (mu ks k))); [ring|].
    rewrite H2. ring.
  - rewrite (melt_unphys ks y m k Hy Hm Hk), (melt_unphys ks (adj x) n k Wax Hn Hk).
    rewrite gconj_mul, gconj_0. ring.
Qed.

(** * Consequences of the operator ordering enforced by [_validate_operators]:
      index tests ([op_index < _n_inf_order], [op_index < _n_bosons]) decide the kind,
      and the Python slices of [preceding_fermions] count fermionic modes. *)
Require Import List ZArith Bool Lia.
Require Import PV.NOF.Fock PV.NOF.FockLemmas PV.NOF.Model PV.NOF.MulOpProof.

Definition sorted4 (a b c d : nat) : sig :=
  repeat Boson a ++ repeat Ladder b ++ repeat Spin c ++ repeat Fermion d.

Lemma kind_eqb_spec x y : reflect (x = y) (kind_eqb x y).
Proof. destruct x, y; constructor; congruence. Qed.
Lemma sig_eqb_eq a b : sig_eqb a b = true -> a = b.
Proof.
  revert b; induction a as [|x a IH]; intros [|y b]; cbn; intros H; try discriminate; auto.
  apply andb_true_iff in H. destruct H as [H1 H2].
  destruct (kind_eqb_spec x y); try discriminate. subst. f_equal. auto.
Qed.
Lemma sig_ok_sorted ks : sig_ok ks = true ->
  ks = sorted4 (count_kind Boson ks) (count_kind Ladder ks) (count_kind Spin ks) (count_kind Fermion ks).
Proof. intros H. apply sig_eqb_eq in H. exact H. Qed.

Lemma count_kind_app k a b : count_kind k (a ++ b) = (count_kind k a + count_kind k b)%nat.
Proof. unfold count_kind. rewrite filter_app, app_length. reflexivity. Qed.
Lemma count_kind_repeat k k' n : count_kind k (repeat k' n) = if kind_eqb k k' then n else O.
Proof.
  unfold count_kind. induction n; cbn [repeat filter]; [destruct (kind_eqb k k'); reflexivity|].
  destruct (kind_eqb k k') eqn:E; cbn [length]; rewrite IHn; reflexivity.
Qed.

Lemma kget_app_repeat k n rest i :
  kget (repeat k n ++ rest) i = if (i <? n)%nat then k else kget rest (i - n).
Proof.
  unfold kget. revert i; induction n; intros i; cbn [repeat app].
  - rewrite Nat.sub_0_r. reflexivity.
  - destruct i; cbn [nth]; [reflexivity|]. rewrite IHn.
    change (S i <? S n)%nat with (i <? n)%nat. reflexivity.
Qed.

Lemma kget_sorted4 a b c d i :
  kget (sorted4 a b c d) i =
  if (i <? a)%nat then Boson else if (i <? a + b)%nat then Ladder
  else if (i <? a + b + c)%nat then Spin else if (i <? a + b + c + d)%nat then Fermion else Boson.
Proof.
  unfold sorted4. rewrite !kget_app_repeat.
  destruct (Nat.ltb_spec i a); [reflexivity|].
  destruct (Nat.ltb_spec (i - a) b), (Nat.ltb_spec i (a + b)); try lia; [reflexivity|].
  destruct (Nat.ltb_spec (i - a - b) c), (Nat.ltb_spec i (a + b + c)); try lia; [reflexivity|].
  rewrite <- (app_nil_r (repeat Fermion d)). rewrite kget_app_repeat.
  destruct (Nat.ltb_spec (i - a - b - c) d), (Nat.ltb_spec i (a + b + c + d)); try lia; try reflexivity.
  apply kget_nil.
Qed.

Lemma sig_ok_index ks i : sig_ok ks = true -> (i < length ks)%nat ->
  (i <? n_inf ks)%nat = isInf (kget ks i) /\ (i <? n_bosons ks)%nat = isB (kget ks i).
Proof.
  intros H Hi. pose proof (sig_ok_sorted ks H) as E.
  set (a := count_kind Boson ks) in *. set (b := count_kind Ladder ks) in *.
  set (c := count_kind Spin ks) in *. set (d := count_kind Fermion ks) in *.
  unfold n_inf, n_bosons. fold a b.
  assert (Hl : length ks = (a + b + c + d)%nat).
  { rewrite E at 1. unfold sorted4. rewrite !app_length, !repeat_length. lia. }
  pose proof (kget_sorted4 a b c d i) as HK. rewrite <- E in HK. rewrite HK.
  destruct (Nat.ltb_spec i a), (Nat.ltb_spec i (a + b)); try lia; cbn [isInf isB]; auto.
  destruct (Nat.ltb_spec i (a + b + c)); cbn [isInf isB]; auto.
  destruct (Nat.ltb_spec i (a + b + c + d)); cbn [isInf isB]; auto. lia.
Qed.

Lemma count_eq_cons v q l : count_eq v (q :: l) = ((if (q =? v)%Z then 1 else 0) + count_eq v l)%nat.
Proof. unfold count_eq. cbn [filter]. rewrite (Z.eqb_sym v q). destruct (q =? v)%Z; reflexivity. Qed.
Lemma odd_count_cons v q l : Nat.odd (count_eq v (q :: l)) = xorb (q =? v)%Z (Nat.odd (count_eq v l)).
Proof.
  rewrite count_eq_cons. destruct (q =? v)%Z; cbn [Nat.add xorb].
  - rewrite Nat.odd_succ, <- Nat.negb_odd. reflexivity.
  - destruct (Nat.odd (count_eq v l)); reflexivity.
Qed.

Lemma cntF_allF v ks : Forall (fun k => isF k = true) ks -> forall p, (length p <= length ks)%nat ->
  cntF v ks p = Nat.odd (count_eq v p).
Proof.
  induction 1 as [|k ks Hk _ IH]; intros p Hp; destruct p as [|q p]; try reflexivity; [cbn in Hp; lia|].
  cbn [cntF]. rewrite Hk, odd_count_cons, IH by (cbn in Hp; lia). reflexivity.
Qed.
Lemma cntF_nonF v A R : Forall (fun k => isF k = false) A -> forall p,
  cntF v (A ++ R) p = cntF v R (skipn (length A) p).
Proof.
  induction 1 as [|k A Hk _ IH]; intros p; [reflexivity|]. destruct p as [|q p]; [destruct R; reflexivity|].
  cbn [app cntF length skipn]. rewrite Hk. cbn [andb]. rewrite xorb_false_l. apply IH.
Qed.
Lemma cntF_after_sorted v A R : Forall (fun k => isF k = false) A -> Forall (fun k => isF k = true) R ->
  forall p i, length p = (length A + length R)%nat -> (length A <= i)%nat ->
  cntF_after v (A ++ R) p i = Nat.odd (count_eq v (skipn (S i) p)).
Proof.
  intros HA HR. induction HA as [|k A Hk _ IH]; intros p i Hp Hi.
  - cbn [app length] in *. clear Hi. revert p i Hp.
    induction HR as [|k R Hk HR IH]; intros p i Hp; destruct p as [|q p]; try discriminate; [destruct i; reflexivity|].
    destruct i; cbn [cntF_after skipn]; [apply cntF_allF; [assumption|cbn in Hp; lia]|apply IH; cbn in Hp; lia].
  - destruct p as [|q p]; [discriminate|]. cbn [length] in *. destruct i; [lia|].
    cbn [app cntF_after skipn]. apply IH; lia.
Qed.

Lemma code_sign_slices ks p i o new :
  sig_ok ks = true -> length p = length ks -> (i < length ks)%nat -> kget ks i = Fermion ->
  Nat.odd (preceding_fermions (n_fermions ks) p i o new) = code_sign ks p i o new.
Proof.
  intros H Hp Hi HF. pose proof (sig_ok_sorted ks H) as E.
  set (a := count_kind Boson ks) in *. set (b := count_kind Ladder ks) in *.
  set (c := count_kind Spin ks) in *. set (d := count_kind Fermion ks) in *.
  set (A := repeat Boson a ++ repeat Ladder b ++ repeat Spin c).
  assert (EA : ks = A ++ repeat Fermion d).
  { rewrite E at 1. unfold sorted4, A. rewrite <- !app_assoc. reflexivity. }
  assert (HA : Forall (fun k => isF k = false) A).
  { unfold A. rewrite !Forall_app. repeat split; apply Forall_forall; intros x Hx; rewrite (repeat_spec _ _ _ Hx); reflexivity. }
  assert (HlA : length A = (a + b + c)%nat) by (unfold A; rewrite !app_length, !repeat_length; lia).
  assert (Hl : length ks = (length A + d)%nat) by (rewrite EA at 1; rewrite app_length, repeat_length; lia).
  assert (Hi2 : (length A <= i)%nat).
  { pose proof (kget_sorted4 a b c d i) as HK. rewrite <- E in HK. rewrite HK in HF.
    destruct (Nat.ltb_spec i a); [discriminate|].
    destruct (Nat.ltb_spec i (a + b)); [discriminate|].
    destruct (Nat.ltb_spec i (a + b + c)); [discriminate|]. lia. }
  assert (HR : Forall (fun k => isF k = true) (repeat Fermion d)).
  { apply Forall_forall. intros x Hx. rewrite (repeat_spec _ _ _ Hx). reflexivity. }
  unfold preceding_fermions, code_sign, n_fermions. fold d.
  replace (length p - d)%nat with (length A) by lia.
  rewrite EA.
  destruct ((o =? 1)%Z || (new =? 1)%Z).
  - rewrite cntF_nonF, skipn_firstn_comm, cntF_allF; auto.
    rewrite firstn_length, skipn_length, repeat_length. lia.
  - rewrite Nat.odd_add, cntF_nonF, cntF_allF, cntF_after_sorted; auto; rewrite ?skipn_length, repeat_length; lia.
Qed.

(** * Coefficient expressions of NumberOrderedForm terms.

    A coefficient is a commutative sympy expression in the number-operator
    placeholders [N_i] (position [i] in [nof.operators]) with Gaussian-rational
    constants.  [_multiply_op] / [_multiply_expr] only ever apply
    [xreplace {N_i: N_i + k}], [xreplace {N_i: 0}], [xreplace {N_i: 1}] to them. *)
Require Import List QArith Lia.
Require Import PV.NOF.Gauss.
Import ListNotations.

Inductive cexpr : Type :=
| CConst (g : G)
| CNum (i : nat)
| CAdd (a b : cexpr)
| CMul (a b : cexpr)
| CNeg (a : cexpr)
| CInv (a : cexpr).

Notation occ := (list Z) (only parsing).
Definition oget (n : occ) (i : nat) : Z := nth i n 0%Z.

(** total evaluation (Coq convention 1/0 = 0) *)
Fixpoint cval (e : cexpr) (n : occ) : G :=
  match e with
  | CConst g => g
  | CNum i => gz (oget n i)
  | CAdd a b => gadd (cval a n) (cval b n)
  | CMul a b => gmul (cval a n) (cval b n)
  | CNeg a => gopp (cval a n)
  | CInv a => ginv (cval a n)
  end.

(** partial evaluation: [None] as soon as a division by zero occurs.  Intermediate
    values are kept in lowest terms ([Qred]). *)
Definition gred (g : G) : G := mkG (Qred (re g)) (Qred (im g)).
Lemma gred_correct g : geq (gred g) g.
Proof. split; cbn; apply Qred_correct. Qed.

Fixpoint ceval (e : cexpr) (n : occ) : option G :=
  match e with
  | CConst g => Some g
  | CNum i => Some (gz (oget n i))
  | CAdd a b => match ceval a n, ceval b n with Some x, Some y => Some (gred (gadd x y)) | _, _ => None end
  | CMul a b => match ceval a n, ceval b n with Some x, Some y => Some (gred (gmul x y)) | _, _ => None end
  | CNeg a => match ceval a n with Some x => Some (gopp x) | None => None end
  | CInv a => match ceval a n with
              | Some x => if gzerob x then None else Some (gred (ginv x))
              | None => None end
  end.

Definition cdefined (e : cexpr) (n : occ) : Prop := ceval e n <> None.

Lemma ceval_cval e n g : ceval e n = Some g -> geq g (cval e n).
Proof.
  revert g; induction e; cbn; intros g0 H.
  - inversion H; reflexivity.
  - inversion H; reflexivity.
  - destruct (ceval e1 n), (ceval e2 n); try discriminate.
    inversion H; subst. rewrite gred_correct, <- (IHe1 _ eq_refl), <- (IHe2 _ eq_refl). reflexivity.
  - destruct (ceval e1 n), (ceval e2 n); try discriminate.
    inversion H; subst. rewrite gred_correct, <- (IHe1 _ eq_refl), <- (IHe2 _ eq_refl). reflexivity.
  - destruct (ceval e n); try discriminate.
    inversion H; subst. rewrite <- (IHe _ eq_refl). reflexivity.
  - destruct (ceval e n); try discriminate.
    destruct (gzerob g); try discriminate.
    inversion H; subst. rewrite gred_correct, <- (IHe _ eq_refl). reflexivity.
Qed.

(** generic substitution of placeholders *)
Fixpoint csubst (s : nat -> cexpr) (e : cexpr) : cexpr :=
  match e with
  | CConst g => CConst g
  | CNum i => s i
  | CAdd a b => CAdd (csubst s a) (csubst s b)
  | CMul a b => CMul (csubst s a) (csubst s b)
  | CNeg a => CNeg (csubst s a)
  | CInv a => CInv (csubst s a)
  end.

(** [xreplace {N_i : N_i + k}] *)
Definition cshift (i : nat) (k : Z) : cexpr -> cexpr :=
  csubst (fun j => if Nat.eqb j i then CAdd (CNum j) (CConst (gz k)) else CNum j).
(** [xreplace {N_i : v}] for an integer constant v (0 or 1 in the code) *)
Definition cset (i : nat) (v : Z) : cexpr -> cexpr :=
  csubst (fun j => if Nat.eqb j i then CConst (gz v) else CNum j).

(** complex conjugation ([coeff.adjoint()] of a commutative expression whose
    symbols are the integer placeholders) *)
Fixpoint cconj (e : cexpr) : cexpr :=
  match e with
  | CConst g => CConst (gconj g)
  | CNum i => CNum i
  | CAdd a b => CAdd (cconj a) (cconj b)
  | CMul a b => CMul (cconj a) (cconj b)
  | CNeg a => CNeg (cconj a)
  | CInv a => CInv (cconj a)
  end.

Fixpoint upd (n : occ) (i : nat) (v : Z) : occ :=
  match n, i with
  | [], _ => []
  | _ :: r, O => v :: r
  | x :: r, S i' => x :: upd r i' v
  end.

Lemma upd_length n i v : length (upd n i v) = length n.
Proof. revert i; induction n; destruct i; cbn; auto. Qed.

Lemma oget_upd_same n i v : (i < length n)%nat -> oget (upd n i v) i = v.
Proof.
  unfold oget. revert i; induction n; destruct i; cbn; intros; try lia; auto.
  apply IHn; lia.
Qed.
Lemma oget_upd_other n i j v : i <> j -> oget (upd n i v) j = oget n j.
Proof.
  unfold oget. revert i j; induction n; destruct i, j; cbn; intros; try lia; auto.
Qed.
Lemma upd_oob n i v : (length n <= i)%nat -> upd n i v = n.
Proof.
  revert i; induction n; destruct i; cbn; intros; try lia; auto.
  f_equal. apply IHn. lia.
Qed.

Lemma upd_same (p : list Z) i : upd p i (oget p i) = p.
Proof. revert i; induction p; destruct i; cbn; auto. unfold oget; cbn. f_equal. apply IHp. Qed.
Lemma upd_upd (p : list Z) i a b : upd (upd p i a) i b = upd p i b.
Proof. revert i; induction p; destruct i; cbn; auto. f_equal; auto. Qed.
Lemma upd_eq_val (M : list Z) i a b : a = b -> upd M i a = upd M i b.
Proof. intros; subst; reflexivity. Qed.
Lemma oget_map_opp (p : list Z) j : oget (map Z.opp p) j = (- oget p j)%Z.
Proof.
  unfold oget. revert j; induction p; destruct j; cbn; auto.
Qed.
Lemma csubst_ext s1 s2 e : (forall j, s1 j = s2 j) -> csubst s1 e = csubst s2 e.
Proof. intros H. induction e; cbn [csubst]; try rewrite IHe1, IHe2; try rewrite IHe; auto. Qed.

Definition osubst (s : nat -> cexpr) (n : occ) (m : occ) : Prop :=
  forall j, geq (cval (s j) n) (gz (oget m j)).

Lemma cval_csubst s e n m : osubst s n m -> geq (cval (csubst s e) n) (cval e m).
Proof.
  intros Hs. induction e; cbn.
  - reflexivity.
  - apply Hs.
  - rewrite IHe1, IHe2. reflexivity.
  - rewrite IHe1, IHe2. reflexivity.
  - rewrite IHe. reflexivity.
  - rewrite IHe. reflexivity.
Qed.

(** evaluation only depends on the occupation through [oget] *)
Lemma cval_ext e n m : (forall j, oget n j = oget m j) -> cval e n = cval e m.
Proof.
  intros H. induction e; cbn; try congruence.
Qed.

Lemma cval_cshift i k e n :
  (i < length n)%nat ->
  geq (cval (cshift i k e) n) (cval e (upd n i (oget n i + k))).
Proof.
  intros Hi. apply cval_csubst. intros j.
  destruct (Nat.eqb_spec j i).
  - subst. cbn. rewrite oget_upd_same by auto. rewrite gz_add. reflexivity.
  - cbn. rewrite oget_upd_other by auto. reflexivity.
Qed.

Lemma cval_cset i v e n :
  (i < length n)%nat ->
  geq (cval (cset i v e) n) (cval e (upd n i v)).
Proof.
  intros Hi. apply cval_csubst. intros j.
  destruct (Nat.eqb_spec j i).
  - subst. cbn. rewrite oget_upd_same by auto. reflexivity.
  - cbn. rewrite oget_upd_other by auto. reflexivity.
Qed.

Lemma cval_cconj e n : geq (cval (cconj e) n) (gconj (cval e n)).
Proof.
  induction e; cbn.
  - reflexivity.
  - rewrite gconj_gz. reflexivity.
  - rewrite IHe1, IHe2, gconj_add. reflexivity.
  - rewrite IHe1, IHe2, gconj_mul. reflexivity.
  - rewrite IHe, gconj_opp. reflexivity.
  - rewrite IHe, gconj_inv. reflexivity.
Qed.

(** products used by the boson branch of [_multiply_op]:
    the product of [N_i - t] for t in range(k), and of [N_i + t] for t in range(1,k+1) *)
Fixpoint cprod (l : list cexpr) : cexpr :=
  match l with
  | [] => CConst g1
  | x :: r => CMul x (cprod r)
  end.
Definition cfalling (i : nat) (k : nat) : cexpr :=
  cprod (map (fun t => CAdd (CNum i) (CConst (gz (- Z.of_nat t)))) (seq 0 k)).
Definition crising (i : nat) (k : nat) : cexpr :=
  cprod (map (fun t => CAdd (CNum i) (CConst (gz (Z.of_nat t)))) (seq 1 k)).

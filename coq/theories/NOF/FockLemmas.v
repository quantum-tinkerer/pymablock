(** * Closed form of the action of a number-ordered term *)
Require Import List QArith Lia.
Require Import PV.NOF.Gauss PV.NOF.Coeff PV.NOF.Fock.
Import ListNotations.
Local Open Scope Z_scope.

Definition lift (v : Z) (cs : G * occ) : G * occ := (fst cs, v :: snd cs).

#[global] Instance lift_Proper v : Proper (peq ==> peq) (lift v).
Proof. intros [c s] [c' s'] [H1 H2]; split; cbn in *; congruence. Qed.

#[global] Instance fst_peq_Proper : Proper (peq ==> geq) (@fst G occ).
Proof. intros a b [H _]; exact H. Qed.
#[global] Instance snd_peq_Proper : Proper (peq ==> eq) (@snd G occ).
Proof. intros a b [_ H]; exact H. Qed.

Lemma pscale_pscale a b cs : peq (pscale a (pscale b cs)) (pscale (gmul a b) cs).
Proof. destruct cs; split; cbn; [ring|reflexivity]. Qed.
Lemma pscale_1 cs : peq (pscale g1 cs) cs.
Proof. destruct cs; split; cbn; [ring|reflexivity]. Qed.
Lemma lift_pscale v a cs : lift v (pscale a cs) = pscale a (lift v cs).
Proof. destruct cs; reflexivity. Qed.

(** a state map is "linear" when used through [papp] *)
Lemma papp_pscale F a cs : peq (papp F (pscale a cs)) (pscale a (papp F cs)).
Proof. destruct cs as [c s]; unfold papp; cbn. destruct (F s); split; cbn; [ring|reflexivity]. Qed.

#[global] Instance papp_Proper F : Proper (peq ==> peq) (papp F).
Proof.
  intros [c s] [c' s'] [H1 H2]; cbn in *; subst. unfold papp; cbn.
  destruct (F s'); split; cbn; [rewrite H1; reflexivity|reflexivity].
Qed.

#[global] Instance iter_step_Proper ks i dag r : Proper (peq ==> peq) (iter_step ks i dag r).
Proof.
  induction r; intros cs cs' H; cbn; auto.
  apply IHr. rewrite H. reflexivity.
Qed.

Lemma iter_step_pscale ks i dag r a cs :
  peq (iter_step ks i dag r (pscale a cs)) (pscale a (iter_step ks i dag r cs)).
Proof.
  revert cs; induction r; intros cs; cbn; [reflexivity|].
  rewrite papp_pscale. apply IHr.
Qed.

Lemma papp_opact ks i q cs :
  peq (papp (opact ks i q) cs) (iter_step ks i (q <? 0) (Z.abs_nat q) cs).
Proof.
  destruct cs as [c s]. unfold papp, opact; cbn [fst snd].
  rewrite <- iter_step_pscale. apply iter_step_Proper. split; cbn; [ring|reflexivity].
Qed.

#[global] Instance apass_aux_Proper ks p i : Proper (peq ==> peq) (apass_aux ks p i).
Proof.
  revert i; induction p; intros i cs cs' H; cbn; auto.
  apply IHp. destruct (0 <? a); [rewrite H; reflexivity|auto].
Qed.
#[global] Instance cpass_aux_Proper ks p i : Proper (peq ==> peq) (cpass_aux ks p i).
Proof.
  revert i; induction p; intros i cs cs' H; cbn; auto.
  destruct (a <? 0); [apply papp_Proper|]; apply IHp; auto.
Qed.

Lemma apass_aux_pscale ks p i a cs :
  peq (apass_aux ks p i (pscale a cs)) (pscale a (apass_aux ks p i cs)).
Proof.
  revert i cs; induction p; intros i cs; cbn; [reflexivity|].
  destruct (0 <? a0); [|apply IHp].
  rewrite papp_pscale. apply IHp.
Qed.
Lemma cpass_aux_pscale ks p i a cs :
  peq (cpass_aux ks p i (pscale a cs)) (pscale a (cpass_aux ks p i cs)).
Proof.
  revert i cs; induction p; intros i cs; cbn; [reflexivity|].
  destruct (a0 <? 0); [|apply IHp].
  rewrite IHp. apply papp_pscale.
Qed.

Lemma pscale_g1 c s : peq (pscale c (g1, s)) (c, s).
Proof. split; cbn; [ring|reflexivity]. Qed.
Lemma papp_g1 F s : peq (papp F (g1, s)) (F s).
Proof. apply pscale_1. Qed.

(** ** the modes behind a head mode
    [F'] acts behind a head mode of kind [k] as [F] acts on the tail, up to the Jordan-Wigner
    sign an occupied fermionic head contributes when [F] applies an odd number ([P]) of
    fermionic operators *)
Definition lifts (k : kind) (P : bool) (F' F : G * occ -> G * occ) : Prop :=
  forall v cs, peq (F' (lift v cs)) (pscale (gsgn (isF k && (v =? 1) && P)) (lift v (F cs))).

Lemma lifts_id k : lifts k false (fun cs => cs) (fun cs => cs).
Proof. intros v cs. rewrite andb_false_r. symmetry. apply pscale_1. Qed.

Lemma lifts_comp k P Q (F' F H' H : G * occ -> G * occ) :
  Proper (peq ==> peq) H' -> (forall a cs, peq (H' (pscale a cs)) (pscale a (H' cs))) ->
  lifts k P F' F -> lifts k Q H' H ->
  lifts k (xorb P Q) (fun cs => H' (F' cs)) (fun cs => H (F cs)).
Proof.
  intros Hp Hl HF HH v cs. rewrite (HF v cs), Hl, (HH v (F cs)), pscale_pscale.
  apply pscale_Proper; [|reflexivity]. rewrite gsgn_andb_xorb. ring.
Qed.

Lemma step_lifts k ks i dag :
  lifts k (isF (kget ks i)) (papp (step (k :: ks) (S i) dag)) (papp (step ks i dag)).
Proof.
  intros v [c n]. unfold papp, lift, step, jw, kget, oget. cbn [fst snd nth firstn occF upd].
  destruct (local (nth i ks Boson) dag (nth i n 0)) as [c1 v1].
  split; cbn [fst snd pscale]; [|reflexivity].
  destruct (isF (nth i ks Boson)); cbn [andb]; [rewrite andb_true_r, gsgn_xorb|rewrite andb_false_r; cbn [gsgn]]; ring.
Qed.

Lemma iter_step_lifts k ks i dag r :
  lifts k (isF (kget ks i) && Nat.odd r) (iter_step (k :: ks) (S i) dag r) (iter_step ks i dag r).
Proof.
  induction r.
  - rewrite andb_false_r. apply lifts_id.
  - replace (isF (kget ks i) && Nat.odd (S r)) with (xorb (isF (kget ks i)) (isF (kget ks i) && Nat.odd r))
      by (rewrite Nat.odd_succ, <- Nat.negb_odd; destruct (isF (kget ks i)), (Nat.odd r); reflexivity).
    exact (lifts_comp k _ _ _ _ _ _ _ (iter_step_pscale _ _ _ _) (step_lifts k ks i dag) IHr).
Qed.

Lemma Zodd_of_nat k : Z.odd (Z.of_nat k) = Nat.odd k.
Proof.
  induction k.
  - reflexivity.
  - rewrite Nat2Z.inj_succ, Z.odd_succ, Nat.odd_succ, <- Z.negb_odd, <- Nat.negb_odd, IHk.
    reflexivity.
Qed.
Lemma Zabs_nat_odd q : Nat.odd (Z.abs_nat q) = Z.odd q.
Proof.
  rewrite <- Zodd_of_nat, Zabs2Nat.id_abs.
  destruct (Z.abs_spec q) as [[_ E]|[_ E]]; rewrite E; [reflexivity|apply Z.odd_opp].
Qed.

Lemma opact_lifts k ks i q :
  lifts k (isF (kget ks i) && Z.odd q) (papp (opact (k :: ks) (S i) q)) (papp (opact ks i q)).
Proof. intros v cs. rewrite !papp_opact, <- Zabs_nat_odd. apply iter_step_lifts. Qed.

(** parity of the number of fermionic operators among the powers selected by [sel] *)
Fixpoint parSel (sel : Z -> bool) (ks : sig) (p : list Z) (i : nat) : bool :=
  match p with
  | [] => false
  | q :: r => xorb (sel q && (isF (kget ks i) && Z.odd q)) (parSel sel ks r (S i))
  end.

Lemma apass_lifts k ks p : forall i,
  lifts k (parSel (Z.ltb 0) ks p i) (apass_aux (k :: ks) p (S i)) (apass_aux ks p i).
Proof.
  induction p as [|q r IH]; intros i; [apply lifts_id|]. cbn [parSel].
  destruct (0 <? q) eqn:E; cbn [andb].
  - intros v cs. cbn [apass_aux]. rewrite E.
    exact (lifts_comp k _ _ _ _ _ _ _ (apass_aux_pscale _ _ _) (opact_lifts k ks i q) (IH (S i)) v cs).
  - rewrite xorb_false_l. intros v cs. cbn [apass_aux]. rewrite E. apply IH.
Qed.

Lemma cpass_lifts k ks p : forall i,
  lifts k (parSel (fun q => q <? 0) ks p i) (cpass_aux (k :: ks) p (S i)) (cpass_aux ks p i).
Proof.
  induction p as [|q r IH]; intros i; [apply lifts_id|]. cbn [parSel].
  destruct (q <? 0) eqn:E; cbn [andb].
  - rewrite xorb_comm.
    intros v cs. cbn [cpass_aux]. rewrite E.
    exact (lifts_comp k _ _ _ _ _ _ _ (papp_pscale _) (IH (S i)) (opact_lifts k ks i q) v cs).
  - rewrite xorb_false_l. intros v cs. cbn [cpass_aux]. rewrite E. apply IH.
Qed.

Lemma parSel_cons sel k ks p i : parSel sel (k :: ks) p (S i) = parSel sel ks p i.
Proof. revert i; induction p; intros i; cbn [parSel]; [reflexivity|]. rewrite IHp. reflexivity. Qed.
Lemma kget_nil i : kget [] i = Boson.
Proof. destruct i; reflexivity. Qed.
Lemma parSel_nil sel p i : parSel sel [] p i = false.
Proof.
  revert i; induction p; intros i; cbn [parSel]; [reflexivity|].
  rewrite IHp, kget_nil. cbn [isF andb]. rewrite andb_false_r. reflexivity.
Qed.

Lemma par_split ks p : xorb (parSel (Z.ltb 0) ks p 0) (parSel (fun q => q <? 0) ks p 0) = parF ks p.
Proof.
  revert p; induction ks; intros p.
  - rewrite !parSel_nil. destruct p; reflexivity.
  - destruct p as [|q p]; [reflexivity|].
    cbn [parSel parF]. rewrite !parSel_cons, <- IHks.
    unfold kget; cbn [nth].
    destruct (Z.ltb_spec 0 q), (Z.ltb_spec q 0); try lia; cbn [andb];
      [| |replace q with 0 by lia; rewrite andb_false_r];
      destruct (isF a && Z.odd q), (parSel (Z.ltb 0) ks p 0), (parSel (fun q => q <? 0) ks p 0); reflexivity.
Qed.

(** weight picked up by r successive [step]s of the head mode from occupation v ("weight, iterated"),
    and the occupation they reach *)
Fixpoint wit (k : kind) (dag : bool) (r : nat) (v : Z) : G :=
  match r with
  | O => g1
  | S r' => gmul (fst (local k dag v)) (wit k dag r' (snd (local k dag v)))
  end.
Definition vshift (dag : bool) (r : nat) (v : Z) : Z :=
  if dag then v + Z.of_nat r else v - Z.of_nat r.

Lemma local_snd k dag v : snd (local k dag v) = if dag then v + 1 else v - 1.
Proof. destruct k, dag; reflexivity. Qed.

Lemma iter_step_cons_O k ks dag r c v n :
  peq (iter_step (k :: ks) 0 dag r (c, v :: n))
      (gmul c (wit k dag r v), vshift dag r v :: n).
Proof.
  revert c v; induction r; intros c v.
  - split; cbn [iter_step wit fst snd]; [ring|].
    unfold vshift. destruct dag; f_equal; cbn; lia.
  - cbn [iter_step wit]. unfold papp at 1, step, jw, kget, oget. cbn [fst snd nth firstn occF upd].
    rewrite andb_false_r. destruct (local k dag v) as [c1 v1] eqn:E. unfold pscale. cbn [fst snd]. rewrite IHr.
    split; cbn [fst snd gsgn]; [ring|].
    change v1 with (snd (c1, v1)). rewrite <- E, local_snd. unfold vshift. destruct dag; f_equal; lia.
Qed.

Lemma ffall_succ v k : geq (ffall v (S k)) (gmul (gz v) (ffall (v - 1) k)).
Proof. reflexivity. Qed.

Lemma local_bin k : isInf k = false -> local k = local Spin.
Proof. destruct k; try discriminate; reflexivity. Qed.
Lemma wloc_bin_eq k : isInf k = false -> wloc k = wloc Fermion.
Proof. destruct k; try discriminate; reflexivity. Qed.
Lemma wit_bin k dag r v : isInf k = false -> wit k dag r v = wit Spin dag r v.
Proof. intros H. revert v; induction r; intros v; cbn [wit]; [reflexivity|]. rewrite IHr, (local_bin k H). reflexivity. Qed.

Lemma wloc_bin_cases k q v : isInf k = false ->
  wloc k q v = g0 \/ (wloc k q v = g1 /\ (q = 0 \/ (q = 1 /\ v = 1) \/ (q = -1 /\ v = 0))).
Proof.
  intros H. rewrite (wloc_bin_eq k H). unfold wloc.
  destruct (Z.eqb_spec q 0); [right; auto|].
  destruct (Z.eqb_spec q 1); [destruct (Z.eqb_spec v 1); [right|left]; auto|].
  destruct (Z.eqb_spec q (-1)); [destruct (Z.eqb_spec v 0); [right|left]; auto 6|].
  left; reflexivity.
Qed.

Lemma wloc_zero k v : geq (wloc k 0 v) g1.
Proof. destruct k; reflexivity. Qed.

Lemma wit_wloc k q v : geq (wit k (q <? 0) (Z.abs_nat q) v) (wloc k q v).
Proof.
  destruct (isInf k) eqn:Ek.
  2:{ rewrite (wit_bin k _ _ _ Ek), (wloc_bin_eq k Ek). unfold wloc.
      destruct (Z.eqb_spec q 0); [subst; reflexivity|].
      destruct (Z.eqb_spec q 1); [subst; change (Z.abs_nat 1) with 1%nat; cbn [Z.ltb Z.compare wit local fst snd]; ring|].
      destruct (Z.eqb_spec q (-1)); [subst; change (Z.abs_nat (-1)) with 1%nat; cbn [Z.ltb Z.compare wit local fst snd]; ring|].
      destruct (Z.abs_nat q) as [|[|r]] eqn:E; try lia.
      cbn [wit]. destruct (q <? 0); cbn [local fst snd].
      - destruct (Z.eqb_spec v 0), (Z.eqb_spec (v + 1) 0); cbn [gind]; try lia; ring.
      - destruct (Z.eqb_spec v 1), (Z.eqb_spec (v - 1) 1); cbn [gind]; try lia; ring. }
  destruct k; try discriminate Ek; unfold wloc.
  - destruct (Z.ltb_spec q 0).
    + replace (Z.to_nat q) with O by lia. cbn [ffall].
      generalize (Z.abs_nat q). intros r. revert v. induction r; intros v; cbn [wit]; [reflexivity|].
      cbn [local fst snd]. rewrite IHr. ring.
    + replace (Z.abs_nat q) with (Z.to_nat q) by lia.
      generalize (Z.to_nat q). intros r. revert v. induction r; intros v; cbn [wit ffall]; [reflexivity|].
      cbn [local fst snd]. rewrite IHr. reflexivity.
  - generalize (Z.abs_nat q). intros r. revert v. induction r; intros v; cbn [wit]; [reflexivity|].
    destruct (q <? 0); cbn [local fst snd]; rewrite IHr; ring.
Qed.

Lemma opact_cons_O k ks q v n :
  peq (opact (k :: ks) 0 q (v :: n)) (wloc k q v, (v - q) :: n).
Proof.
  unfold opact. rewrite iter_step_cons_O.
  split; cbn [fst snd]; [rewrite wit_wloc; ring|].
  unfold vshift. destruct (Z.ltb_spec q 0); f_equal; lia.
Qed.

Lemma head_act k ks (b : bool) q c v n cs : peq cs (lift v (c, n)) ->
  peq (if b then papp (opact (k :: ks) 0 q) cs else cs)
      (lift (v - (if b then q else 0)) (gmul c (wloc k (if b then q else 0) v), n)).
Proof.
  intros H. destruct b; rewrite H.
  - unfold papp, lift. cbn [fst snd]. rewrite opact_cons_O. reflexivity.
  - split; cbn [lift fst snd]; [rewrite wloc_zero; ring|f_equal; lia].
Qed.

Lemma wloc_split k q v :
  geq (gmul (wloc k (if 0 <? q then q else 0) v)
            (wloc k (if q <? 0 then q else 0) (v - (if 0 <? q then q else 0))))
      (wloc k q v).
Proof.
  destruct (Z.ltb_spec 0 q), (Z.ltb_spec q 0); try lia; rewrite ?Z.sub_0_r, ?wloc_zero; try ring.
  replace q with 0 by lia. rewrite wloc_zero. ring.
Qed.

Definition gact (g : occ -> G) (s : occ) : G * occ := (g s, s).
Definition den_term_g (ks : sig) (p : list Z) (g : occ -> G) (n : occ) : G * occ :=
  cpass_aux ks p 0 (papp (gact g) (apass_aux ks p 0 (g1, n))).

Lemma den_term_den_term_g ks t n : den_term ks t n = den_term_g ks (fst t) (cval (snd t)) n.
Proof. reflexivity. Qed.

Lemma gact_lift g a v cs :
  peq (papp (gact g) (pscale a (lift v cs))) (pscale a (lift v (papp (gact (fun s => g (v :: s))) cs))).
Proof. destruct cs. split; cbn; [ring|reflexivity]. Qed.

Theorem pass_cf ks : forall p n g c,
  length p = length ks -> length n = length ks ->
  peq (cpass_aux ks p 0 (papp (gact g) (apass_aux ks p 0 (c, n))))
      (gmul c (gmul (ws ks p n) (g (omid n p))), osub n p).
Proof.
  induction ks as [|k ks IH]; intros p n g c Hp Hn.
  - destruct p, n; try discriminate.
    split; cbn; [ring|reflexivity].
  - destruct p as [|q p], n as [|v n]; try discriminate.
    injection Hp as Hp. injection Hn as Hn.
    cbn [apass_aux cpass_aux].
    set (vm := v - (if 0 <? q then q else 0)).
    assert (Em : vm = v - Z.max q 0) by (subst vm; destruct (Z.ltb_spec 0 q); lia).
    etransitivity.
    { apply (head_act k ks (q <? 0) q) with (v := vm) (n := osub n p).
      rewrite (head_act k ks (0 <? q) q c v n) by reflexivity. fold vm.
      rewrite (apass_lifts k ks p 0 _ _), gact_lift, cpass_aux_pscale,
        (cpass_lifts k ks p 0 _ _), (IH p n _ _ Hp Hn).
      unfold pscale, lift. cbn [fst snd]. reflexivity. }
    split; cbn [lift fst snd ws omid osub].
    + rewrite <- Em, <- par_split, <- (wloc_split k q v), gsgn_andb_xorb. fold vm. ring.
    + f_equal. subst vm. destruct (Z.ltb_spec q 0), (Z.ltb_spec 0 q); lia.
Qed.

Corollary den_term_cf_eq ks t n :
  length (fst t) = length ks -> length n = length ks ->
  peq (den_term ks t n) (den_term_cf ks t n).
Proof.
  intros Hp Hn. rewrite den_term_den_term_g. unfold den_term_g, den_term_cf. rewrite pass_cf by auto. split; cbn [fst snd]; [ring|reflexivity].
Qed.

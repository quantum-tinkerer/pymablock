(** * Concrete objects for the non-vacuity examples of Props/C16_scalar.v and Props/C07_mask.v *)
Require Import List QArith.
Require Import PV.NOF.Gauss PV.NOF.Coeff PV.NOF.NofProof PV.NOF.ScalarProof PV.NOF.ScalarDiag PV.NOF.Mask PV.NOF.C08Lemmas.
Import ListNotations.
Local Open Scope Z_scope.

(** H_ii = N_a + 3 N_f,  H_jj = 2 N_a + N_l/2 ,  Y = a† f (N_a+2) + l s† g† N_f  (ex_x) *)
Definition ex_hi : cexpr := CAdd (CNum 0) (CMul (CConst (gz 3)) (CNum 3)).
Definition ex_hj : cexpr := CAdd (CMul (CConst (gz 2)) (CNum 0)) (CMul (CConst (mkG (1 # 2) 0)) (CNum 1)).
Definition ex_n2 : list Z := [3; -2; 1; 1; 1].

Lemma ex_bok2 : bok ex_ks ex_n2. Proof. cbn; repeat split; intros; try discriminate; auto. Qed.

Lemma ex_denom_ok : denom_ok ex_ks ex_hi ex_hj ex_x ex_n2.
Proof.
  intros t [Ht|[Ht|[]]]; subst t; cbn [fst].
  - right. intros H. vm_compute in H. destruct H as [H _]. discriminate H.
  - left. vm_compute. split; reflexivity.
Qed.

Lemma ex_creal : creal ex_hi.
Proof. intros M. unfold ex_hi. cbn [cval]. rewrite gconj_add, gconj_mul, !gconj_gz. reflexivity. Qed.
Definition ex_conds : list (list pat) :=
  [[PEq (-1); PEq 0; PEq 0; PEq 1; PEq 0]; [PEq 1; PEq 0; PEq 0; PEq (-1); PEq 0];
   [PGt 1; PEq 0; PEq 0; PEq 0; PEq 0]; [PLt (-1); PEq 0; PEq 0; PEq 0; PEq 0]].
Lemma ex_conds_closed : forall p, matches (map (map pat_opp) ex_conds) p = matches ex_conds p.
Proof.
  intros p. unfold matches, ex_conds. cbn [map pat_opp existsb Z.opp].
  destruct (cond_match [PEq (-1); PEq 0; PEq 0; PEq 1; PEq 0] p),
           (cond_match [PEq 1; PEq 0; PEq 0; PEq (-1); PEq 0] p),
           (cond_match [PGt 1; PEq 0; PEq 0; PEq 0; PEq 0] p),
           (cond_match [PLt (-1); PEq 0; PEq 0; PEq 0; PEq 0] p); reflexivity.
Qed.

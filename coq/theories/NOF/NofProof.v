(** * Correctness of the NumberOrderedForm operations on whole forms *)
Require Import List QArith Lia.
Require Import PV.NOF.Gauss PV.NOF.Coeff PV.NOF.Fock PV.NOF.FockLemmas PV.NOF.LinComb PV.NOF.Model PV.NOF.MulOpProof PV.NOF.SigLemmas.
Import ListNotations.
Local Open Scope Z_scope.

(** powers aligned with the operator list; spin / fermion powers in {-1,0,1} *)
Fixpoint pow_ok (ks : sig) (p : list Z) : Prop :=
  match ks, p with
  | k :: ks', q :: p' => (isInf k = false -> Z.abs q <= 1) /\ pow_ok ks' p'
  | [], [] => True
  | _, _ => False
  end.
(** occupations aligned with the operator list; spin / fermion occupations in {0,1} *)
Fixpoint bok (ks : sig) (n : list Z) : Prop :=
  match ks, n with
  | k :: ks', v :: n' => (isInf k = false -> v = 0 \/ v = 1) /\ bok ks' n'
  | [], [] => True
  | _, _ => False
  end.
Definition wf_term (ks : sig) (t : term) : Prop := pow_ok ks (fst t).
(** keys of the term dictionary are distinct (it is a Python dict) and well formed *)
Definition wf_nof (ks : sig) (x : nof) : Prop := NoDup (map fst x) /\ Forall (wf_term ks) x.

Lemma pow_ok_length ks : forall p, pow_ok ks p -> length p = length ks.
Proof. induction ks; destruct p; cbn; intros H; try tauto. destruct H. f_equal; auto. Qed.
Lemma bok_length ks : forall n, bok ks n -> length n = length ks.
Proof. induction ks; destruct n; cbn; intros H; try tauto. destruct H. f_equal; auto. Qed.
Lemma pow_ok_get ks : forall p i, pow_ok ks p -> (i < length ks)%nat ->
  isInf (kget ks i) = false -> Z.abs (oget p i) <= 1.
Proof.
  induction ks as [|k ks IH]; intros p i H Hi Hk; [cbn in Hi; lia|].
  destruct p as [|q p]; [cbn in H; tauto|]. destruct H as [H1 H2]. cbn [length] in Hi.
  destruct i; unfold kget, oget in *; cbn [nth] in *; auto. apply IH; auto. lia.
Qed.
Lemma bok_get ks : forall n i, bok ks n -> (i < length ks)%nat ->
  isInf (kget ks i) = false -> oget n i = 0 \/ oget n i = 1.
Proof.
  induction ks as [|k ks IH]; intros n i H Hi Hk; [cbn in Hi; lia|].
  destruct n as [|v n]; [cbn in H; tauto|]. destruct H as [H1 H2]. cbn [length] in Hi.
  destruct i; unfold kget, oget in *; cbn [nth] in *; auto. apply IH; auto. lia.
Qed.
Lemma pow_ok_upd ks : forall p i v, pow_ok ks p ->
  (isInf (kget ks i) = false -> Z.abs v <= 1) -> pow_ok ks (upd p i v).
Proof.
  induction ks as [|k ks IH]; intros p i v H Hv; destruct p as [|q p]; cbn in H; try tauto.
  destruct H as [H1 H2]. destruct i; cbn [upd pow_ok]; split; auto.
Qed.
Lemma bok_upd ks : forall n i v, bok ks n ->
  (isInf (kget ks i) = false -> v = 0 \/ v = 1) -> bok ks (upd n i v).
Proof.
  induction ks as [|k ks IH]; intros n i v H Hv; destruct n as [|w n]; cbn in H; try tauto.
  destruct H as [H1 H2]. destruct i; cbn [upd bok]; split; auto.
Qed.

Lemma dset_notin k v d : ~ In k (map fst d) -> dset k v d = d ++ [(k, v)].
Proof.
  induction d as [|[k' v'] d IH]; intros H; cbn [dset app]; [reflexivity|].
  destruct (occ_eqb_spec k' k).
  - exfalso. apply H. left. auto.
  - rewrite IH; auto. intro; apply H; right; auto.
Qed.
Lemma dict_of_nodup l : NoDup (map fst l) -> dict_of l = l.
Proof.
  unfold dict_of.
  assert (H : forall acc, NoDup (map fst (acc ++ l)) ->
             fold_left (fun d t => dset (fst t) (snd t) d) l acc = acc ++ l).
  { induction l as [|[k v] l IH]; intros acc Hn; cbn [fold_left]; [rewrite app_nil_r; reflexivity|].
    cbn [fst snd]. rewrite dset_notin.
    - rewrite IH; rewrite <- app_assoc; [reflexivity|exact Hn].
    - rewrite map_app in Hn. cbn [map fst] in Hn. apply NoDup_remove_2 in Hn.
      intro Hin. apply Hn. apply in_or_app. left; auto. }
  intros Hn. apply (H []). exact Hn.
Qed.

Lemma upd_shift_inj (p p' : list Z) i q :
  upd p i (oget p i + q) = upd p' i (oget p' i + q) -> p = p'.
Proof.
  revert p' i; induction p as [|a p IH]; intros p' i H; destruct p' as [|b p']; destruct i; cbn [upd] in H;
    try discriminate; auto.
  - unfold oget in H; cbn [nth] in H. injection H as H1 H2. f_equal; auto. lia.
  - injection H as H1 H2. f_equal; auto. unfold oget in H2; cbn [nth] in H2. eapply IH. exact H2.
Qed.

Lemma den_map ks (g : term -> term) x n : den ks (map g x) n = map (fun t => den_term ks (g t) n) x.
Proof. unfold den. rewrite map_map. reflexivity. Qed.

Lemma den_cons ks t x n : den ks (t :: x) n = den_term ks t n :: den ks x n.
Proof. reflexivity. Qed.
Lemma den_app ks x y n : den ks (x ++ y) n = den ks x n ++ den ks y n.
Proof. unfold den. apply map_app. Qed.

Lemma lapp_den ks x cs : lapp (den ks x) cs = map (fun t => papp (den_term ks t) cs) x.
Proof. unfold lapp, den, lc_scale. rewrite map_map. reflexivity. Qed.

Lemma wf_nil ks : wf_nof ks [].
Proof. split; constructor. Qed.
Lemma wf_dict ks x : wf_nof ks x -> dict_of x = x.
Proof. intros [H _]. apply dict_of_nodup, H. Qed.

(** ** operations that act term by term
    [omap h x]: the terms [h t] for [t] in [x]; [None] drops the term *)
Definition omap (h : term -> option term) (x : nof) : nof :=
  flat_map (fun t => match h t with Some t' => [t'] | None => [] end) x.

Lemma omap_Some g x : omap (fun t => Some (g t)) x = map g x.
Proof. unfold omap. induction x; cbn [flat_map map app]; congruence. Qed.
Lemma omap_ext h h' x : (forall t, In t x -> h t = h' t) -> omap h x = omap h' x.
Proof.
  induction x as [|t x IH]; intros H; [reflexivity|]. unfold omap in *. cbn [flat_map].
  rewrite (H t (or_introl eq_refl)), IH; [reflexivity|]. intros u Hu. apply H. right. exact Hu.
Qed.
Lemma in_omap h x t' : In t' (omap h x) <-> exists t, In t x /\ h t = Some t'.
Proof.
  unfold omap. rewrite in_flat_map. split; intros [t [Ht H]]; exists t; split; auto.
  - destruct (h t); [destruct H as [H|[]]; congruence|destruct H].
  - rewrite H. left; reflexivity.
Qed.

Lemma map_omap (g : term -> term) h x : map g (omap h x) = omap (fun t => option_map g (h t)) x.
Proof.
  unfold omap. induction x as [|t x IH]; [reflexivity|]. cbn [flat_map]. rewrite map_app, IH.
  destruct (h t); reflexivity.
Qed.

(** the keys stay distinct when they are changed by an injective map [kf], and well formed when
    each new key is *)
Lemma wf_omap ks h (kf : list Z -> list Z) x :
  (forall a b, kf a = kf b -> a = b) ->
  (forall t t', In t x -> h t = Some t' -> fst t' = kf (fst t) /\ pow_ok ks (fst t')) ->
  NoDup (map fst x) -> wf_nof ks (omap h x).
Proof.
  intros Hk Hh Hn. split.
  - induction x as [|t x IH]; [constructor|]. unfold omap in *. cbn [flat_map map] in *.
    inversion Hn as [|? ? Hnotin Hn']; subst.
    specialize (IH (fun u u' Hu => Hh u u' (or_intror Hu)) Hn').
    destruct (h t) as [t'|] eqn:E; cbn [app map]; [|exact IH].
    constructor; [|exact IH].
    rewrite (proj1 (Hh t t' (or_introl eq_refl) E)). intro Hin. apply Hnotin.
    rewrite in_map_iff in Hin. destruct Hin as [u [Hu1 Hu2]].
    apply (in_omap h x u) in Hu2. destruct Hu2 as [w [Hw1 Hw2]].
    rewrite (proj1 (Hh w u (or_intror Hw1) Hw2)) in Hu1. apply Hk in Hu1.
    rewrite <- Hu1. apply in_map, Hw1.
  - apply Forall_forall. intros t' Ht'. apply in_omap in Ht'. destruct Ht' as [t [Ht E]].
    apply (Hh t t' Ht E).
Qed.

Lemma wf_map ks (g : term -> term) (kf : list Z -> list Z) x :
  (forall a b, kf a = kf b -> a = b) ->
  (forall t, In t x -> fst (g t) = kf (fst t) /\ pow_ok ks (fst (g t))) ->
  NoDup (map fst x) -> wf_nof ks (map g x).
Proof.
  intros Hk Hg. rewrite <- omap_Some. apply (wf_omap ks _ kf); auto.
  intros t t' Ht E. injection E as E. subst t'. auto.
Qed.

Lemma NoDup_filter_keys (P : term -> bool) x : NoDup (map fst x) -> NoDup (map fst (filter P x)).
Proof.
  induction x as [|t x IH]; intros Hn; [constructor|]. cbn [map] in Hn. inversion Hn; subst. cbn [filter].
  destruct (P t); auto. cbn [map]. constructor; auto.
  intro Hin. apply H1. rewrite in_map_iff in *. destruct Hin as [u [Hu1 Hu2]].
  exists u. split; auto. apply filter_In in Hu2. tauto.
Qed.

Lemma sel_wf (P : list Z -> bool) ks x : wf_nof ks x -> wf_nof ks (filter (fun t : term => P (fst t)) x).
Proof.
  intros [Hnd Hwf]. split; [apply NoDup_filter_keys, Hnd|].
  rewrite Forall_forall in *. intros t Ht. apply filter_In in Ht. apply Hwf. tauto.
Qed.

Lemma wf_map_coeff ks (g : term -> cexpr) x :
  wf_nof ks x -> wf_nof ks (map (fun t : term => (fst t, g t)) x).
Proof.
  intros [Hn Hw]. apply (wf_map ks _ (fun k => k)); auto.
  intros t Ht. split; [reflexivity|]. rewrite Forall_forall in Hw. apply (Hw t Ht).
Qed.

Lemma den_omap ks h x n (Gf : term -> G * list Z) :
  (forall t, In t x -> match h t with
                       | Some t' => peq (den_term ks t' n) (Gf t)
                       | None => geq (fst (Gf t)) g0
                       end) ->
  lc_eq (den ks (omap h x) n) (map Gf x).
Proof.
  induction x as [|t x IH]; intros H; [reflexivity|]. unfold omap in *. cbn [flat_map map].
  rewrite den_app, IH by (intros; apply H; right; auto).
  specialize (H t (or_introl eq_refl)). destruct (h t) as [t'|]; cbn [den map app].
  - apply lc_eq_cons; [exact H|reflexivity].
  - destruct (Gf t). symmetry. apply lc_eq_zero_cons, H.
Qed.

(** ** a term whose weight does not vanish
    the coefficient only matters in the middle of the term, and there only if the term acts *)
Lemma den_term_coeff ks p f f' c n : length p = length ks -> length n = length ks ->
  (~ geq (ws ks p n) g0 -> geq (cval f' (omid n p)) (gmul c (cval f (omid n p)))) ->
  peq (den_term ks (p, f') n) (pscale c (den_term ks (p, f) n)).
Proof.
  intros Hp Hn H. rewrite !den_term_cf_eq by auto. unfold den_term_cf, pscale. cbn [fst snd].
  split; cbn [fst snd]; [|reflexivity].
  destruct (geq_dec (ws ks p n) g0) as [Hz|Hnz]; [rewrite Hz; ring|]. rewrite (H Hnz). ring.
Qed.
Lemma den_term_coeff1 ks p f f' n : length p = length ks -> length n = length ks ->
  (~ geq (ws ks p n) g0 -> geq (cval f' (omid n p)) (cval f (omid n p))) ->
  peq (den_term ks (p, f') n) (den_term ks (p, f) n).
Proof.
  intros Hp Hn H. rewrite <- (pscale_1 (den_term ks (p, f) n)). apply den_term_coeff; auto.
  intros Hnz. rewrite (H Hnz). ring.
Qed.

Lemma ws_bin_cases ks p n j :
  (j < length ks)%nat -> length p = length ks -> length n = length ks -> isInf (kget ks j) = false ->
  geq (ws ks p n) g0 \/
  oget p j = 0 \/ (oget p j = 1 /\ oget n j = 1) \/ (oget p j = -1 /\ oget n j = 0).
Proof.
  intros Hj Hp Hn Hk. destruct (ws_has_factor ks j p n Hj Hp Hn) as [R HR].
  destruct (wloc_bin_cases (kget ks j) (oget p j) (oget n j) Hk) as [Hz|[_ Hc]]; [left|right; exact Hc].
  rewrite HR, Hz. ring.
Qed.

Lemma omid_bin ks p n j :
  bok ks n -> length p = length ks -> (j < length ks)%nat -> isInf (kget ks j) = false ->
  ~ geq (ws ks p n) g0 -> oget (omid n p) j = 0 \/ oget (omid n p) j = 1.
Proof.
  intros Hb Hp Hj Hk Hnz. pose proof (bok_length _ _ Hb) as Hn.
  rewrite oget_omid by (auto; congruence).
  destruct (ws_bin_cases ks p n j Hj Hp Hn Hk) as [Hz|[E|[[E E']|[E E']]]]; [contradiction|..]; rewrite E.
  - destruct (bok_get _ _ _ Hb Hj Hk); lia.
  - lia.
  - lia.
Qed.
Lemma omid_bin_zero ks p n j :
  length p = length ks -> length n = length ks -> (j < length ks)%nat -> isInf (kget ks j) = false ->
  oget p j <> 0 -> ~ geq (ws ks p n) g0 -> oget (omid n p) j = 0.
Proof.
  intros Hp Hn Hj Hk Hpj Hnz. rewrite oget_omid by (auto; congruence).
  destruct (ws_bin_cases ks p n j Hj Hp Hn Hk) as [Hz|[E|[[E E']|[E E']]]]; [contradiction|..]; lia.
Qed.

(** ** _multiply_op *)
Lemma mulop_bin_eq_sem ks i q t :
  sig_ok ks = true -> (i < length ks)%nat -> length (fst t) = length ks ->
  mulop_bin (n_fermions ks) (isF (kget ks i)) i q t = mulop_bin_sem ks i q t.
Proof.
  intros Hs Hi Hp. destruct t as [p f]. unfold mulop_bin, mulop_bin_sem. cbn [fst] in Hp.
  destruct (1 <? Z.abs (oget p i + q)); [reflexivity|].
  destruct (isF (kget ks i)) eqn:EF; cbn [andb]; [|reflexivity].
  rewrite code_sign_slices; auto.
  destruct (kget ks i); try discriminate; reflexivity.
Qed.

Lemma mulop_bin_sem_fst ks i q t t' : mulop_bin_sem ks i q t = Some t' ->
  fst t' = upd (fst t) i (oget (fst t) i + q) /\ Z.abs (oget (fst t) i + q) <= 1.
Proof.
  destruct t as [p f]. unfold mulop_bin_sem. cbn [fst].
  destruct (Z.ltb_spec 1 (Z.abs (oget p i + q))); [discriminate|].
  intros HS. injection HS as HS. subst t'. cbn [fst]. split; auto.
Qed.

(** the two branches, with the kind in place of the index tests and without [dict_of] *)
Definition mulop_sem (ks : sig) (x : nof) (i : nat) (q : Z) : nof :=
  if isInf (kget ks i) then map (mulop_inf (isB (kget ks i)) i q) x
  else if 1 <? Z.abs q then [] else omap (mulop_bin_sem ks i q) x.

Lemma mulop_sem_wf ks x i q : wf_nof ks x -> wf_nof ks (mulop_sem ks x i q).
Proof.
  intros [Hn Hw]. rewrite Forall_forall in Hw. unfold mulop_sem.
  destruct (isInf (kget ks i)) eqn:Ek; [|destruct (1 <? Z.abs q); [apply wf_nil|]].
  - apply (wf_map ks _ (fun p => upd p i (oget p i + q))); auto; [intros a b; apply upd_shift_inj|].
    intros [p f] Ht. rewrite mulop_inf_fst. split; [reflexivity|].
    apply pow_ok_upd; [apply (Hw _ Ht)|]. congruence.
  - apply (wf_omap ks _ (fun p => upd p i (oget p i + q))); auto; [intros a b; apply upd_shift_inj|].
    intros t t' Ht E. destruct (mulop_bin_sem_fst _ _ _ _ _ E) as [E1 E2]. split; [exact E1|].
    rewrite E1. apply pow_ok_upd; [apply (Hw _ Ht)|]. auto.
Qed.

Lemma mulop_raw_eq ks x i q : sig_ok ks = true -> wf_nof ks x -> (i < length ks)%nat ->
  mulop_raw ks x i q = mulop_sem ks x i q.
Proof.
  intros Hs W Hi. pose proof (mulop_sem_wf ks x i q W) as W'. destruct W as [_ Hw].
  destruct (sig_ok_index ks i Hs Hi) as [Hinf Hbos].
  unfold mulop_raw, mulop_sem in *. rewrite Hinf, Hbos.
  destruct (isInf (kget ks i)); [apply (wf_dict ks), W'|].
  destruct (1 <? Z.abs q); [reflexivity|]. rewrite <- (wf_dict ks _ W'). f_equal.
  apply omap_ext. intros t Ht. apply mulop_bin_eq_sem; auto.
  rewrite Forall_forall in Hw. apply pow_ok_length, (Hw t Ht).
Qed.

Lemma mulop_raw_wf ks x i q :
  sig_ok ks = true -> wf_nof ks x -> (i < length ks)%nat -> wf_nof ks (mulop_raw ks x i q).
Proof. intros Hs W Hi. rewrite mulop_raw_eq by auto. apply mulop_sem_wf, W. Qed.

Theorem mulop_raw_den ks x i q n :
  sig_ok ks = true -> wf_nof ks x -> bok ks n -> (i < length ks)%nat -> q <> 0 ->
  lc_eq (den ks (mulop_raw ks x i q) n) (lapp (den ks x) (opact ks i q n)).
Proof.
  intros Hs W Hb Hi Hq. pose proof (bok_length _ _ Hb) as Hn.
  rewrite mulop_raw_eq, lapp_den by auto. unfold mulop_sem.
  destruct W as [_ Hw]. rewrite Forall_forall in Hw.
  destruct (isInf (kget ks i)) eqn:Ek; [|destruct (Z.ltb_spec 1 (Z.abs q)) as [Hq2|Hq1]].
  - rewrite den_map. apply lc_eq_map. intros t Ht.
    apply mulop_inf_term; auto. apply pow_ok_length, (Hw t Ht).
  - (* nilpotent *)
    rewrite <- lapp_den. symmetry. apply lapp_zero, opact_nilpotent; auto.
  - apply den_omap. intros t Ht.
    apply (mulop_bin_sem_term ks i q t n Hi (pow_ok_length _ _ (Hw t Ht)) Hn Ek
             (pow_ok_get _ _ _ (Hw t Ht) Hi Ek) (bok_get _ _ _ Hb Hi Ek)). lia.
Qed.

(** ** _multiply_expr *)
Lemma mulexpr_subst_ok ks p n :
  sig_ok ks = true -> length p = length ks -> length n = length ks ->
  ~ geq (ws ks p n) g0 -> osubst (mulexpr_subst ks p) (omid n p) n.
Proof.
  intros Hs Hp Hn Hnz j. unfold mulexpr_subst.
  destruct (Nat.lt_ge_cases j (length ks)) as [Hj|Hj].
  2:{ assert (E : oget p j = 0) by (unfold oget; apply nth_overflow; lia).
      rewrite E. cbn [Z.eqb cval]. unfold oget. rewrite !nth_overflow by (rewrite ?omid_length; lia).
      reflexivity. }
  destruct (sig_ok_index ks j Hs Hj) as [Hinf _]. rewrite Hinf.
  assert (Em : oget (omid n p) j = oget n j - Z.max (oget p j) 0) by (apply oget_omid; auto; congruence).
  destruct (Z.eqb_spec (oget p j) 0) as [E0|E0].
  { cbn [cval]. rewrite Em, E0. replace (oget n j - Z.max 0 0) with (oget n j) by lia. reflexivity. }
  destruct (isInf (kget ks j)) eqn:Ek.
  - destruct (Z.ltb_spec 0 (oget p j)); cbn [cval]; rewrite <- ?gz_add, Em.
    + replace (oget n j - Z.max (oget p j) 0 + oget p j) with (oget n j) by lia. reflexivity.
    + replace (oget n j - Z.max (oget p j) 0) with (oget n j) by lia. reflexivity.
  - destruct (ws_bin_cases ks p n j Hj Hp Hn Ek) as [Hz|[E|[[E E']|[E E']]]]; [contradiction|lia|..];
      rewrite E, E'; reflexivity.
Qed.

Lemma mulexpr_eq ks x e : wf_nof ks x ->
  mulexpr ks x e = map (fun t : term => (fst t, CMul (snd t) (csubst (mulexpr_subst ks (fst t)) e))) x.
Proof. intros W. apply (wf_dict ks), wf_map_coeff, W. Qed.

Lemma mulexpr_wf ks x e : wf_nof ks x -> wf_nof ks (mulexpr ks x e).
Proof. intros W. rewrite mulexpr_eq by auto. apply wf_map_coeff, W. Qed.

Theorem mulexpr_den ks x e n :
  sig_ok ks = true -> wf_nof ks x -> length n = length ks ->
  lc_eq (den ks (mulexpr ks x e) n) (lapp (den ks x) (fact e n)).
Proof.
  intros Hs W Hn. rewrite mulexpr_eq, den_map, lapp_den by auto. destruct W as [_ Hw].
  apply lc_eq_map. intros [p f] Ht. unfold papp, fact. cbn [fst snd].
  rewrite Forall_forall in Hw. pose proof (pow_ok_length _ _ (Hw _ Ht)) as Hp.
  apply den_term_coeff; auto. intros Hnz. cbn [cval].
  rewrite (cval_csubst _ e (omid n p) n) by (apply mulexpr_subst_ok; auto). ring.
Qed.

(** ** _linearize_binary_operators *)
Lemma cval_lin1 f j M :
  (j < length M)%nat -> (oget M j = 0 \/ oget M j = 1) -> geq (cval (lin1 f j) M) (cval f M).
Proof.
  intros Hj Hv. unfold lin1. cbn [cval]. rewrite !cval_cset by auto.
  destruct Hv as [E|E]; rewrite E.
  - rewrite <- E at 2. rewrite upd_same. rewrite gz_0. ring.
  - rewrite <- E at 3. rewrite upd_same. rewrite gz_1. ring.
Qed.

Lemma cval_lin_fold f js M :
  (forall j, In j js -> (j < length M)%nat /\ (oget M j = 0 \/ oget M j = 1)) ->
  geq (cval (fold_left lin1 js f) M) (cval f M).
Proof.
  revert f; induction js as [|j js IH]; intros f H; cbn [fold_left]; [reflexivity|].
  rewrite IH by (intros; apply H; right; auto).
  apply cval_lin1; apply H; left; auto.
Qed.

Lemma cval_linearized ks p f n :
  sig_ok ks = true -> bok ks n -> length p = length ks -> ~ geq (ws ks p n) g0 ->
  geq (cval (fold_left lin1 (seq (n_inf ks) (length ks - n_inf ks)) f) (omid n p)) (cval f (omid n p)).
Proof.
  intros Hs Hb Hp Hnz. apply cval_lin_fold. intros j Hj. rewrite in_seq in Hj.
  assert (Hjl : (j < length ks)%nat) by lia.
  split; [rewrite omid_length, (bok_length _ _ Hb); lia|].
  apply (omid_bin ks p n j); auto.
  destruct (sig_ok_index ks j Hs Hjl) as [Hinf _].
  destruct (Nat.ltb_spec j (n_inf ks)); [lia|]. auto.
Qed.

Lemma linearize_eq ks x : wf_nof ks x ->
  linearize ks x = x \/
  linearize ks x = map (fun t : term => (fst t, fold_left lin1 (seq (n_inf ks) (length ks - n_inf ks)) (snd t))) x.
Proof.
  intros W. unfold linearize. destruct (_ =? 0)%nat; [left; reflexivity|right].
  apply (wf_dict ks), wf_map_coeff, W.
Qed.

Lemma linearize_wf ks x : wf_nof ks x -> wf_nof ks (linearize ks x).
Proof. intros W. destruct (linearize_eq ks x W) as [E|E]; rewrite E; [exact W|apply wf_map_coeff, W]. Qed.

Theorem linearize_den ks x n :
  sig_ok ks = true -> wf_nof ks x -> bok ks n -> lc_eq (den ks (linearize ks x) n) (den ks x n).
Proof.
  intros Hs W Hb. destruct (linearize_eq ks x W) as [E|E]; rewrite E; [reflexivity|].
  rewrite den_map. destruct W as [_ Hw]. rewrite Forall_forall in Hw.
  apply lc_eq_map. intros [p f] Ht. pose proof (pow_ok_length _ _ (Hw _ Ht)) as Hp.
  apply den_term_coeff1; auto; [apply bok_length, Hb|]. apply cval_linearized; auto.
Qed.

(** ** linearity of a term in its coefficient; __add__, __neg__ *)
Lemma den_term_g_lin ks p g n :
  peq (den_term_g ks p g n)
      (pscale (g (snd (apass_aux ks p 0 (g1, n)))) (den_term_g ks p (fun _ => g1) n)).
Proof.
  unfold den_term_g. destruct (apass_aux ks p 0 (g1, n)) as [cA m]. cbn [snd].
  rewrite <- cpass_aux_pscale. apply cpass_aux_Proper.
  split; unfold papp, gact, pscale; cbn [fst snd]; [ring|reflexivity].
Qed.

Lemma lc_single_add a b D : lc_eq [pscale (gadd a b) D] [pscale a D; pscale b D].
Proof.
  intros m. destruct D as [c s]. unfold pscale. cbn [coef_at fst snd].
  destruct (occ_eqb s m); ring.
Qed.

Lemma den_term_CAdd ks p a b n :
  lc_eq [den_term ks (p, CAdd a b) n] [den_term ks (p, a) n; den_term ks (p, b) n].
Proof.
  change (den_term ks (p, CAdd a b) n) with (den_term_g ks p (cval (CAdd a b)) n).
  change (den_term ks (p, a) n) with (den_term_g ks p (cval a) n).
  change (den_term ks (p, b) n) with (den_term_g ks p (cval b) n).
  set (m := snd (apass_aux ks p 0 (g1, n))). set (D := den_term_g ks p (fun _ => g1) n).
  assert (H : forall f, peq (den_term_g ks p (cval f) n) (pscale (cval f m) D)) by (intros; apply den_term_g_lin).
  transitivity [pscale (cval (CAdd a b) m) D].
  { apply lc_eq_cons; [apply H|reflexivity]. }
  cbn [cval]. rewrite lc_single_add.
  apply lc_eq_cons; [symmetry; apply H|]. apply lc_eq_cons; [symmetry; apply H|reflexivity].
Qed.


Lemma lc_eq_swap_mid (a b : G * occ) l : lc_eq (a :: l ++ [b]) (a :: b :: l).
Proof.
  intros m. destruct a as [ca sa], b as [cb sb]. cbn [coef_at]. rewrite coef_at_app. cbn [coef_at].
  ring.
Qed.

Lemma dadd_den ks k v d n : lc_eq (den ks (dadd k v d) n) (den ks d n ++ [den_term ks (k, v) n]).
Proof.
  induction d as [|[k' v'] d IH]; cbn [dadd].
  - reflexivity.
  - destruct (occ_eqb_spec k' k) as [E|E].
    + subst k'. rewrite !den_cons.
      change (den_term ks (k, CAdd v' v) n :: den ks d n) with ([den_term ks (k, CAdd v' v) n] ++ den ks d n).
      rewrite den_term_CAdd. cbn [app].
      symmetry. apply lc_eq_swap_mid.
    + rewrite !den_cons. cbn [app]. apply lc_eq_cons; [reflexivity|exact IH].
Qed.

Lemma dadd_keys k v d : map fst (dadd k v d) = if in_dec (list_eq_dec Z.eq_dec) k (map fst d) then map fst d else map fst d ++ [k].
Proof.
  induction d as [|[k' v'] d IH]; cbn [dadd map fst].
  - destruct (in_dec _ k []); [contradiction|reflexivity].
  - destruct (occ_eqb_spec k' k) as [E|E].
    + subst. cbn [map fst]. destruct (in_dec _ k (k :: map fst d)) as [|Hn]; [reflexivity|exfalso; apply Hn; left; auto].
    + cbn [map fst]. rewrite IH.
      destruct (in_dec _ k (map fst d)) as [Hi|Hi], (in_dec _ k (k' :: map fst d)) as [Hj|Hj]; try reflexivity.
      * exfalso. apply Hj. right. auto.
      * exfalso. destruct Hj; auto.
Qed.

Lemma NoDup_snoc {A} (l : list A) a : NoDup l -> ~ In a l -> NoDup (l ++ [a]).
Proof.
  induction l as [|b l IH]; intros Hn Hi; cbn [app].
  - constructor; [intros []|constructor].
  - inversion Hn; subst. constructor.
    + rewrite in_app_iff. intros [H|[H|[]]]; [auto|]. subst. apply Hi. left; auto.
    + apply IH; auto. intro; apply Hi; right; auto.
Qed.

Lemma dadd_wf ks k v d : wf_nof ks d -> pow_ok ks k -> wf_nof ks (dadd k v d).
Proof.
  intros [Hnd Hwf] Hk. split.
  - rewrite dadd_keys. destruct (in_dec _ k (map fst d)); auto.
    apply NoDup_snoc; auto.
  - induction d as [|[k' v'] d IH]; cbn [dadd].
    + constructor; auto.
    + inversion Hwf; subst. inversion Hnd; subst.
      destruct (occ_eqb k' k); constructor; auto.
Qed.

Lemma fold_dadd_den ks l : forall acc n,
  lc_eq (den ks (fold_left (fun d t => dadd (fst t) (snd t) d) l acc) n) (den ks acc n ++ den ks l n).
Proof.
  induction l as [|[k v] l IH]; intros acc n; cbn [fold_left].
  - cbn [den map]. rewrite app_nil_r. reflexivity.
  - rewrite IH. cbn [fst snd]. rewrite dadd_den. rewrite den_cons. rewrite <- app_assoc. reflexivity.
Qed.
Lemma fold_dadd_wf ks l : forall acc, wf_nof ks acc -> Forall (wf_term ks) l ->
  wf_nof ks (fold_left (fun d t => dadd (fst t) (snd t) d) l acc).
Proof.
  induction l as [|[k v] l IH]; intros acc Ha Hl; cbn [fold_left]; auto.
  inversion Hl; subst. apply IH; auto. apply dadd_wf; auto.
Qed.


Theorem add_correct ks x y n :
  lc_eq (den ks (add x y) n) (den ks x n ++ den ks y n).
Proof. unfold add. rewrite fold_dadd_den. cbn [den map app]. rewrite den_app. reflexivity. Qed.
Theorem add_wf ks x y : wf_nof ks x -> wf_nof ks y -> wf_nof ks (add x y).
Proof.
  intros [_ Hx] [_ Hy]. unfold add. apply fold_dadd_wf; [apply wf_nil|]. apply Forall_app; auto.
Qed.

Lemma den_term_scale ks p f g c n :
  (forall M, geq (cval g M) (gmul c (cval f M))) ->
  peq (den_term ks (p, g) n) (pscale c (den_term ks (p, f) n)).
Proof.
  intros H.
  change (den_term ks (p, g) n) with (den_term_g ks p (cval g) n).
  change (den_term ks (p, f) n) with (den_term_g ks p (cval f) n).
  rewrite (den_term_g_lin ks p (cval g)), (den_term_g_lin ks p (cval f)).
  rewrite pscale_pscale. apply pscale_Proper; [apply H|reflexivity].
Qed.

Theorem neg_correct ks x n : lc_eq (den ks (neg x) n) (lc_scale (gopp g1) (den ks x n)).
Proof.
  unfold neg. rewrite den_map. unfold den, lc_scale. rewrite map_map.
  apply lc_eq_map. intros [p f] _. cbn [fst snd].
  apply den_term_scale. intros M. cbn [cval]. ring.
Qed.
Theorem neg_wf ks x : wf_nof ks x -> wf_nof ks (neg x).
Proof. apply wf_map_coeff. Qed.

(** ** validity of intermediate states: zero weight or physical spin/fermion occupations *)
Definition vok (ks : sig) (cs : G * list Z) : Prop := geq (fst cs) g0 \/ bok ks (snd cs).

Lemma vok_peq ks a b : peq a b -> vok ks a -> vok ks b.
Proof. intros [H1 H2] [H|H]; [left; rewrite <- H1; auto|right; rewrite <- H2; auto]. Qed.

Lemma vok_papp ks F cs : (forall s, bok ks s -> vok ks (F s)) -> vok ks cs -> vok ks (papp F cs).
Proof.
  intros HF [Hz|Hb]; destruct cs as [c n]; unfold papp, pscale; cbn [fst snd] in *.
  - left. cbn [fst]. rewrite Hz. ring.
  - destruct (HF n Hb) as [H|H]; [left; cbn [fst]; rewrite H; ring|right; exact H].
Qed.

Lemma vok_opact ks i q cs : (i < length ks)%nat -> vok ks cs -> vok ks (papp (opact ks i q) cs).
Proof.
  intros Hi. apply vok_papp. intros n Hb. pose proof (bok_length _ _ Hb) as Hn.
  apply (vok_peq ks _ _ (symmetry (opact_cf ks i q n Hi Hn))). unfold vok. cbn [fst snd].
  destruct (isInf (kget ks i)) eqn:Ek.
  - right. apply bok_upd; auto. congruence.
  - destruct (wloc_bin_cases (kget ks i) q (oget n i) Ek) as [Hz|[_ Hc]].
    + left. rewrite Hz. ring.
    + right. apply bok_upd; auto. intros _. destruct (bok_get _ _ _ Hb Hi Ek); lia.
Qed.

Lemma vok_fact ks f cs : vok ks cs -> vok ks (papp (fact f) cs).
Proof. apply vok_papp. intros s Hs. right. exact Hs. Qed.

Lemma vok_apass ks p : forall i cs, (i + length p <= length ks)%nat -> vok ks cs -> vok ks (apass_aux ks p i cs).
Proof.
  induction p as [|q r IH]; intros i cs Hi Hv; cbn [apass_aux]; auto.
  cbn [length] in Hi. apply IH; [lia|].
  destruct (0 <? q); auto. apply vok_opact; auto. lia.
Qed.
Lemma vok_cpass ks p : forall i cs, (i + length p <= length ks)%nat -> vok ks cs -> vok ks (cpass_aux ks p i cs).
Proof.
  induction p as [|q r IH]; intros i cs Hi Hv; cbn [cpass_aux]; auto.
  cbn [length] in Hi.
  destruct (q <? 0); [apply vok_opact; [lia|]|]; apply IH; auto; lia.
Qed.

Lemma lapp_ext_vok ks F F' cs :
  vok ks cs -> (forall s, bok ks s -> lc_eq (F s) (F' s)) -> lc_eq (lapp F cs) (lapp F' cs).
Proof.
  intros [Hz|Hb] H.
  - rewrite !lapp_zero by exact Hz. reflexivity.
  - unfold lapp. rewrite (H _ Hb). reflexivity.
Qed.

Lemma lapp_lin F (L : G * list Z -> G * list Z) cs :
  Proper (peq ==> peq) L -> (forall a cs, peq (L (pscale a cs)) (pscale a (L cs))) ->
  lc_eq (lapp (fun s => lapp F (L (g1, s))) cs) (lapp F (L cs)).
Proof.
  intros HP HL. destruct cs as [c s]. unfold lapp at 1. cbn [fst snd].
  rewrite <- lapp_pscale, <- HL, pscale_g1. reflexivity.
Qed.

(** ** the three passes of __mul__ *)
Lemma creation_pass_wf ks : sig_ok ks = true -> forall p i part,
  (i + length p <= length ks)%nat -> wf_nof ks part -> wf_nof ks (creation_pass ks part p i).
Proof.
  intros Hs. induction p as [|q r IH]; intros i part Hi W; cbn [creation_pass]; [exact W|].
  cbn [length] in Hi. apply IH; [lia|]. destruct (q <? 0); [apply mulop_raw_wf; auto; lia|exact W].
Qed.
Lemma annihilation_pass_wf ks : sig_ok ks = true -> forall p i part,
  (i + length p <= length ks)%nat -> wf_nof ks part -> wf_nof ks (annihilation_pass ks part p i).
Proof.
  intros Hs. induction p as [|q r IH]; intros i part Hi W; cbn [annihilation_pass]; [exact W|].
  cbn [length] in Hi. destruct (0 <? q); [apply mulop_raw_wf; auto; try lia|]; apply IH; auto; lia.
Qed.

Lemma creation_pass_den ks : sig_ok ks = true -> forall p i part n,
  (i + length p <= length ks)%nat -> wf_nof ks part -> bok ks n ->
  lc_eq (den ks (creation_pass ks part p i) n) (lapp (den ks part) (cpass_aux ks p i (g1, n))).
Proof.
  intros Hs. induction p as [|q r IH]; intros i part n Hi W Hb; cbn [creation_pass cpass_aux].
  - unfold lapp. cbn [fst snd]. rewrite lc_scale_1. reflexivity.
  - cbn [length] in Hi. destruct (Z.ltb_spec q 0) as [Hq|Hq]; [|apply IH; auto; lia].
    rewrite IH by (auto; try lia; apply mulop_raw_wf; auto; lia).
    rewrite <- (lapp_lin (den ks part) (papp (opact ks i q))) by (try apply papp_pscale; typeclasses eauto).
    apply (lapp_ext_vok ks); [apply vok_cpass; [lia|right; exact Hb]|].
    intros s Hsb. rewrite papp_g1. apply mulop_raw_den; auto; lia.
Qed.

Lemma annihilation_pass_den ks : sig_ok ks = true -> forall p i part n,
  (i + length p <= length ks)%nat -> wf_nof ks part -> bok ks n ->
  lc_eq (den ks (annihilation_pass ks part p i) n) (lapp (den ks part) (apass_aux ks p i (g1, n))).
Proof.
  intros Hs. induction p as [|q r IH]; intros i part n Hi W Hb; cbn [annihilation_pass apass_aux].
  - unfold lapp. cbn [fst snd]. rewrite lc_scale_1. reflexivity.
  - cbn [length] in Hi. destruct (Z.ltb_spec 0 q) as [Hq|Hq]; [|apply IH; auto; lia].
    rewrite mulop_raw_den by (auto; try lia; apply annihilation_pass_wf; auto; lia).
    rewrite <- (lapp_lin (den ks part) (apass_aux ks r (S i))) by (try apply apass_aux_pscale; typeclasses eauto).
    rewrite papp_g1.
    apply (lapp_ext_vok ks).
    + apply (vok_peq ks _ _ (papp_g1 _ _)). apply vok_opact; [lia|right; exact Hb].
    + intros s Hsb. apply IH; auto; lia.
Qed.

Lemma mul_term_wf ks x t : sig_ok ks = true -> wf_nof ks x -> wf_term ks t -> wf_nof ks (mul_term ks x t).
Proof.
  intros Hs W Ht. pose proof (pow_ok_length _ _ Ht) as Hp. unfold mul_term.
  apply linearize_wf, annihilation_pass_wf; auto; [lia|].
  apply mulexpr_wf, creation_pass_wf; auto. lia.
Qed.

Theorem mul_term_den ks x t n :
  sig_ok ks = true -> wf_nof ks x -> wf_term ks t -> bok ks n ->
  lc_eq (den ks (mul_term ks x t) n) (lapp (den ks x) (den_term ks t n)).
Proof.
  intros Hs W Ht Hb. destruct t as [p f]. pose proof (pow_ok_length _ _ Ht) as Hp. cbn [fst] in Hp.
  unfold mul_term, den_term. cbn [fst snd].
  assert (W1 : wf_nof ks (creation_pass ks x p 0)) by (apply creation_pass_wf; auto; lia).
  assert (W2 : wf_nof ks (mulexpr ks (creation_pass ks x p 0) f)) by apply mulexpr_wf, W1.
  rewrite linearize_den by (auto; apply annihilation_pass_wf; auto; lia).
  rewrite annihilation_pass_den by (auto; lia).
  rewrite <- (lapp_lin (den ks x) (fun cs => cpass_aux ks p 0 (papp (fact f) cs))).
  2:{ intros a b Hab. rewrite Hab. reflexivity. }
  2:{ intros a cs. rewrite papp_pscale. apply cpass_aux_pscale. }
  apply (lapp_ext_vok ks); [apply vok_apass; [lia|right; exact Hb]|].
  intros s Hsb. rewrite mulexpr_den by (auto; apply bok_length, Hsb).
  unfold lapp at 1, fact at 1. cbn [fst snd].
  rewrite creation_pass_den, <- lapp_pscale, <- cpass_aux_pscale by (auto; lia).
  apply lapp_Proper, cpass_aux_Proper. split; cbn; [ring|reflexivity].
Qed.

Lemma mul_wf ks x y : sig_ok ks = true -> wf_nof ks x -> wf_nof ks y -> wf_nof ks (mul ks x y).
Proof.
  intros Hs Hx [_ Hy]. unfold mul. generalize (wf_nil ks). generalize (@nil term) as acc.
  induction Hy as [|t y Ht _ IH]; intros acc Ha; cbn [fold_left]; [exact Ha|].
  apply IH, add_wf; [exact Ha|apply mul_term_wf; auto].
Qed.

Theorem mul_den ks x y n :
  sig_ok ks = true -> wf_nof ks x -> wf_nof ks y -> bok ks n ->
  lc_eq (den ks (mul ks x y) n) (lc_bind (den ks y n) (den ks x)).
Proof.
  intros Hs Hx [_ Hy] Hb. unfold mul.
  assert (H : forall acc, lc_eq (den ks (fold_left (fun res t => add res (mul_term ks x t)) y acc) n)
                                (den ks acc n ++ lc_bind (den ks y n) (den ks x))).
  { induction Hy as [|t y Ht _ IH]; intros acc; cbn [fold_left].
    - cbn [den map lc_bind flat_map]. rewrite app_nil_r. reflexivity.
    - rewrite IH, add_correct, mul_term_den, den_cons, lc_bind_cons, <- app_assoc by auto. reflexivity. }
  apply (H []).
Qed.

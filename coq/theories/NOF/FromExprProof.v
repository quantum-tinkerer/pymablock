(** * from_expr denotes the expression; as_expr denotes the form; round trip *)
Require Import List QArith Lia.
Require Import PV.NOF.Gauss PV.NOF.Coeff PV.NOF.Fock PV.NOF.FockLemmas PV.NOF.LinComb PV.NOF.Model PV.NOF.MulOpProof PV.NOF.NofProof PV.NOF.NofProof2 PV.NOF.FromExpr PV.NOF.SolveScalar.
Import ListNotations.
Local Open Scope Z_scope.

(** ** a generator power stored as one term: each pass applies at most the one operator *)
Lemma apass_unit ks (l : sig) : forall j i q cs, (j < length l)%nat ->
  apass_aux ks (upd (zeros l) j q) i cs = if 0 <? q then papp (opact ks (i + j) q) cs else cs.
Proof.
  induction l; intros j i q cs Hj; [cbn in Hj; lia|]. destruct j; cbn [zeros map upd apass_aux]; fold (zeros l).
  - rewrite Nat.add_0_r. destruct (0 <? q); apply apass_zeros.
  - rewrite <- Nat.add_succ_comm. apply IHl. cbn in Hj; lia.
Qed.
Lemma cpass_unit ks (l : sig) : forall j i q cs, (j < length l)%nat ->
  cpass_aux ks (upd (zeros l) j q) i cs = if q <? 0 then papp (opact ks (i + j) q) cs else cs.
Proof.
  induction l; intros j i q cs Hj; [cbn in Hj; lia|]. destruct j; cbn [zeros map upd cpass_aux]; fold (zeros l).
  - rewrite Nat.add_0_r, cpass_zeros. reflexivity.
  - rewrite <- Nat.add_succ_comm. apply IHl. cbn in Hj; lia.
Qed.

Lemma den_gen_term ks i q n : (i < length ks)%nat -> lc_eq (den ks (gen_term ks i q) n) [opact ks i q n].
Proof.
  intros Hi. unfold gen_term, den, den_term, unit_powers. cbn [map fst snd].
  rewrite apass_unit, cpass_unit by exact Hi. cbn [Nat.add].
  apply lc_eq_cons; [|reflexivity].
  assert (H1 : forall cs, peq (papp (fact (CConst g1)) cs) cs) by (intros [c s]; split; cbn; [ring|reflexivity]).
  destruct (Z.ltb_spec 0 q), (Z.ltb_spec q 0); try lia; rewrite H1; try apply papp_g1.
  replace q with 0 by lia. reflexivity.
Qed.

Lemma gen_term_wf ks i q : (isInf (kget ks i) = false -> Z.abs q <= 1) -> wf_nof ks (gen_term ks i q).
Proof.
  intros H. apply wf_single, pow_ok_upd; auto. apply pow_ok_zeros.
Qed.

Lemma opact_one ks i dag n : opact ks i (opsign dag) n = papp (step ks i dag) (g1, n).
Proof. destruct dag; reflexivity. Qed.

Lemma opact_pow ks i dag : forall k n,
  lc_eq (lc_pow (fun s => [opact ks i (opsign dag) s]) k n) [opact ks i (opsign dag * Z.of_nat k) n].
Proof.
  induction k; intros n.
  - cbn [lc_pow]. replace (opsign dag * Z.of_nat 0) with 0 by lia. reflexivity.
  - cbn [lc_pow]. rewrite lc_bind_single.
    unfold lapp.
    assert (E : lc_eq (lc_pow (fun s => [opact ks i (opsign dag) s]) k (snd (opact ks i (opsign dag) n)))
                      [opact ks i (opsign dag * Z.of_nat k) (snd (opact ks i (opsign dag) n))]) by apply IHk.
    rewrite E. unfold lc_scale. cbn [map].
    apply lc_eq_cons; [|reflexivity].
    change (pscale (fst (opact ks i (opsign dag) n)) (opact ks i (opsign dag * Z.of_nat k) (snd (opact ks i (opsign dag) n))))
      with (papp (opact ks i (opsign dag * Z.of_nat k)) (opact ks i (opsign dag) n)).
    rewrite papp_opact. rewrite opact_one. unfold opact.
    assert (E1 : (opsign dag * Z.of_nat k <? 0) = dag \/ k = O).
    { destruct k; [right; auto|left]. destruct dag; cbn [opsign]; [apply Z.ltb_lt|apply Z.ltb_ge]; lia. }
    assert (E2 : (opsign dag * Z.of_nat (S k) <? 0) = dag).
    { destruct dag; cbn [opsign]; [apply Z.ltb_lt|apply Z.ltb_ge]; lia. }
    assert (E3 : Z.abs_nat (opsign dag * Z.of_nat (S k)) = S (Z.abs_nat (opsign dag * Z.of_nat k))).
    { destruct dag; cbn [opsign]; lia. }
    rewrite E2, E3. cbn [iter_step].
    destruct E1 as [E1|E1]; [rewrite E1; reflexivity|].
    subst k. replace (Z.abs_nat (opsign dag * Z.of_nat 0)) with O by (destruct dag; cbn; lia).
    reflexivity.
Qed.

Lemma lc_pow_congr ks F F' :
  (forall s, bok ks s -> lc_eq (F s) (F' s)) -> (forall s, bok ks s -> Forall (vok ks) (F s)) ->
  forall k n, bok ks n -> lc_eq (lc_pow F k n) (lc_pow F' k n).
Proof.
  intros H Hv. induction k; intros n Hb; cbn [lc_pow]; [reflexivity|].
  rewrite (lc_bind_ext_vok ks (F n) _ (lc_pow F' k)); [|apply Hv; auto|intros; apply IHk; auto].
  apply lc_bind_Proper_l. apply H; auto.
Qed.

(** ** from_expr denotes the expression *)
Theorem from_expr_f_correct ks : sig_ok ks = true -> forall e flip x,
  from_expr_f ks flip e = Ok x ->
  wf_nof ks x /\ forall n, bok ks n -> lc_eq (den ks x n) (eden_f ks flip e n).
Proof.
  intros Hs. induction e as [i dag|i|g|a IHa b IHb|a IHa b IHb|a IHa k|a IHa]; intros flip x H.
  - (* generator *)
    cbn [from_expr_f] in H. destruct (Nat.ltb_spec i (length ks)) as [Hi|Hi]; [|discriminate].
    injection H as H. subst x. split.
    + apply gen_term_wf. intros _. destruct (xorb dag flip); cbn; lia.
    + intros n Hb. cbn [eden_f]. apply den_gen_term, Hi.
  - injection H as H. subst x. split; [apply wf_single, pow_ok_zeros|]. intros n _. apply den_zeros.
  - injection H as H. subst x. split; [apply wf_single, pow_ok_zeros|]. intros n _. apply den_zeros.
  - (* sum *)
    cbn [from_expr_f] in H.
    destruct (from_expr_f ks flip a) as [xa|] eqn:Ea; [|discriminate].
    destruct (from_expr_f ks flip b) as [xb|] eqn:Eb; [|discriminate].
    cbn [rbind] in H. injection H as H. subst x.
    destruct (IHa flip xa Ea) as [Wa Da]. destruct (IHb flip xb Eb) as [Wb Db].
    split; [apply add_wf; auto; apply add_wf; auto; apply wf_nil|].
    intros n Hb. cbn [eden_f]. rewrite !add_correct. cbn [den map app]. rewrite Da, Db by auto. reflexivity.
  - (* product *)
    cbn [from_expr_f] in H.
    destruct (from_expr_f ks flip a) as [xa|] eqn:Ea; [|discriminate].
    destruct (from_expr_f ks flip b) as [xb|] eqn:Eb; [|discriminate].
    cbn [rbind] in H. injection H as H. subst x.
    destruct (IHa flip xa Ea) as [Wa Da]. destruct (IHb flip xb Eb) as [Wb Db].
    assert (HM : forall x1 x2 e1 e2, wf_nof ks x1 -> wf_nof ks x2 ->
              (forall n, bok ks n -> lc_eq (den ks x1 n) (e1 n)) -> (forall n, bok ks n -> lc_eq (den ks x2 n) (e2 n)) ->
              wf_nof ks (mul ks x1 x2) /\ forall n, bok ks n -> lc_eq (den ks (mul ks x1 x2) n) (lc_bind (e2 n) e1)).
    { intros x1 x2 e1 e2 W1 W2 D1 D2. split; [apply mul_wf; auto|]. intros n Hb.
      rewrite mul_den, (lc_bind_den_ext ks x2 n _ e1) by auto. apply lc_bind_Proper_l, D2, Hb. }
    destruct flip; apply HM; auto.
  - (* power *)
    assert (Hgen : forall xa, from_expr_f ks flip a = Ok xa -> pow ks xa (Z.of_nat k) = Ok x ->
              wf_nof ks x /\ forall n, bok ks n -> lc_eq (den ks x n) (eden_f ks flip (EPow a k) n)).
    { intros xa Ea Hp. destruct (IHa flip xa Ea) as [Wa Da].
      destruct (pow_den ks xa Hs Wa k) as [y [Hy [Wy Dy]]].
      assert (y = x) by congruence. subst y. split; auto.
      intros n Hb. cbn [eden_f]. rewrite Dy by auto.
      apply (lc_pow_congr ks); auto. intros; apply den_vok; auto. }
    destruct a as [i dag| | | | | |];
      try (cbn [from_expr_f] in H;
           match type of H with rbind ?r _ = _ => destruct r as [xa|] eqn:Ea; [|discriminate] end;
           cbn [rbind] in H; apply (Hgen xa Ea H)).
    destruct k as [|k].
    + change (rbind (from_expr_f ks flip (EOp i dag)) (fun x => pow ks x (Z.of_nat 0)) = Ok x) in H.
      destruct (from_expr_f ks flip (EOp i dag)) as [xa|] eqn:Ea; [|discriminate].
      apply (Hgen xa eq_refl H).
    + cbn [from_expr_f] in H. destruct (Nat.ltb_spec i (length ks)) as [Hi|Hi]; [|discriminate].
      set (sg := opsign (xorb dag flip)) in *.
      assert (HE : forall n, bok ks n ->
                 lc_eq (eden_f ks flip (EPow (EOp i dag) (S k)) n) [opact ks i (sg * Z.of_nat (S k)) n]).
      { intros n Hb. cbn [eden_f]. apply opact_pow. }
      assert (Hsg : Z.abs sg = 1) by (subst sg; destruct (xorb dag flip); reflexivity).
      destruct (negb (isInf (kget ks i)) && (0 <? k)%nat) eqn:Eb; injection H as H; subst x.
      * (* a spin / fermion generator squares to zero *)
        apply andb_true_iff in Eb. destruct Eb as [Ek Hk]. apply negb_true_iff in Ek. apply Nat.ltb_lt in Hk.
        split; [apply wf_nil|]. intros n Hb. rewrite HE by auto. cbn [den map]. symmetry.
        pose proof (opact_nilpotent ks i (sg * Z.of_nat (S k)) n Hi (bok_length _ _ Hb) Ek ltac:(lia)) as HO.
        destruct (opact ks i (sg * Z.of_nat (S k)) n). apply lc_eq_zero_cons, HO.
      * split; [|intros n Hb; rewrite HE by auto; apply den_gen_term, Hi].
        apply gen_term_wf. intros Ek. rewrite Ek in Eb. apply Nat.ltb_ge in Eb. lia.
  - (* Dagger *)
    cbn [from_expr_f] in H. destruct (IHa (negb flip) x H) as [W D]. split; auto.
Qed.

(** ** as_expr denotes the form *)
Lemma eden_gen_pow ks i dag k n :
  lc_eq (eden_f ks false (EPow (EOp i dag) k) n) [opact ks i (opsign dag * Z.of_nat k) n].
Proof.
  cbn [eden_f]. rewrite xorb_false_r. apply opact_pow.
Qed.

Lemma lc_single_scale c cs : lc_scale c [cs] = [pscale c cs].
Proof. reflexivity. Qed.

Lemma eden_coeff ks f n : cpoly f -> lc_eq (eden ks (coeff_expr f) n) [(cval f n, n)].
Proof.
  unfold eden. revert n. induction f; intros n Hp; cbn [coeff_expr eden_f cval cpoly] in *; try reflexivity; try tauto.
  - destruct Hp as [H1 H2]. rewrite IHf1, IHf2 by auto. intros m. cbn [app coef_at].
    destruct (occ_eqb n m); ring.
  - destruct Hp as [H1 H2]. rewrite (lc_bind_Proper_l _ _ _ (IHf2 n H2)). rewrite lc_bind_single.
    unfold lapp. cbn [fst snd]. rewrite IHf1 by auto. rewrite lc_single_scale.
    apply lc_eq_cons; [|reflexivity]. split; unfold pscale; cbn [fst snd]; [ring|reflexivity].
  - rewrite (lc_bind_Proper_l _ _ _ (IHf n Hp)). rewrite lc_bind_single. unfold lapp. cbn [fst snd].
    rewrite lc_single_scale. apply lc_eq_cons; [|reflexivity].
    split; unfold pscale; cbn [fst snd]; [ring|reflexivity].
Qed.

Lemma eden_ann ks acc : forall p i n,
  lc_eq (eden_f ks false (ann_expr p i acc) n) (lapp (eden_f ks false acc) (apass_aux ks p i (g1, n))).
Proof.
  induction p as [|q r IH]; intros i n; cbn [ann_expr apass_aux].
  - unfold lapp. cbn [fst snd]. rewrite lc_scale_1. reflexivity.
  - destruct (Z.ltb_spec 0 q) as [Hq|Hq]; [|apply IH].
    change (eden_f ks false (EMul (ann_expr r (S i) acc) (EPow (EOp i false) (Z.to_nat q))) n)
      with (lc_bind (eden_f ks false (EPow (EOp i false) (Z.to_nat q)) n) (eden_f ks false (ann_expr r (S i) acc))).
    rewrite (lc_bind_Proper_l _ _ _ (eden_gen_pow ks i false (Z.to_nat q) n)).
    replace (opsign false * Z.of_nat (Z.to_nat q)) with q by (cbn [opsign]; lia).
    rewrite lc_bind_single.
    rewrite papp_g1. destruct (opact ks i q n) as [c1 n1]. unfold lapp at 1. cbn [fst snd].
    rewrite IH, <- lapp_pscale, <- apass_aux_pscale, pscale_g1. reflexivity.
Qed.

Lemma eden_cre ks inner : forall p i n,
  lc_eq (eden_f ks false (cre_expr p i inner) n)
        (lc_bind (eden_f ks false inner n) (fun s => [cpass_aux ks p i (g1, s)])).
Proof.
  induction p as [|q r IH]; intros i n; cbn [cre_expr cpass_aux].
  - symmetry. apply lc_bind_unit.
  - destruct (Z.ltb_spec q 0) as [Hq|Hq]; [|apply IH].
    change (eden_f ks false (EMul (EPow (EOp i true) (Z.to_nat (- q))) (cre_expr r (S i) inner)) n)
      with (lc_bind (eden_f ks false (cre_expr r (S i) inner) n) (eden_f ks false (EPow (EOp i true) (Z.to_nat (- q))))).
    rewrite (lc_bind_Proper_l _ _ _ (IH (S i) n)). rewrite lc_bind_bind.
    apply lc_bind_ext. intros s. rewrite lc_bind_single.
    unfold lapp. rewrite eden_gen_pow.
    replace (opsign true * Z.of_nat (Z.to_nat (- q))) with q by (cbn [opsign]; lia).
    rewrite lc_single_scale. reflexivity.
Qed.

Lemma eden_term ks t n : cpoly (snd t) -> lc_eq (eden ks (term_expr t) n) [den_term ks t n].
Proof.
  intros Hp. destruct t as [p f]. unfold eden, term_expr, den_term. cbn [fst snd] in *.
  rewrite eden_cre. rewrite (lc_bind_Proper_l _ _ _ (eden_ann ks (coeff_expr f) p 0%nat n)).
  destruct (apass_aux ks p 0 (g1, n)) as [cA nA]. unfold lapp. cbn [fst snd].
  pose proof (eden_coeff ks f nA Hp) as HC. unfold eden in HC. rewrite HC. rewrite lc_single_scale. rewrite lc_bind_single.
  unfold lapp, pscale. cbn [fst snd]. rewrite lc_single_scale.
  apply lc_eq_cons; [|reflexivity].
  rewrite <- cpass_aux_pscale. apply cpass_aux_Proper.
  split; unfold papp, fact, pscale; cbn [fst snd]; [ring|reflexivity].
Qed.

Definition cpoly_nof (x : nof) : Prop := Forall (fun t : term => cpoly (snd t)) x.

Theorem as_expr_correct ks x n : cpoly_nof x -> lc_eq (eden ks (as_expr x) n) (den ks x n).
Proof.
  intros Hp. unfold as_expr.
  assert (H : forall acc, lc_eq (eden ks (fold_left (fun acc t => EAdd acc (term_expr t)) x acc) n)
                                (eden ks acc n ++ den ks x n)).
  { induction x as [|t x IH]; intros acc; cbn [fold_left].
    - cbn [den map]. rewrite app_nil_r. reflexivity.
    - inversion Hp; subst. rewrite (IH H2). unfold eden. cbn [eden_f].
      pose proof (eden_term ks t n H1) as HT. unfold eden in HT. rewrite HT.
      rewrite den_cons, <- app_assoc. reflexivity. }
  rewrite H. unfold eden. cbn [eden_f]. apply lc_eq_zero_cons. reflexivity.
Qed.

(** ** from_expr never raises on the output of as_expr *)
Fixpoint eok (ks : sig) (e : expr) : Prop :=
  match e with
  | EOp i _ => (i < length ks)%nat
  | ENum _ | EConst _ => True
  | EAdd a b | EMul a b => eok ks a /\ eok ks b
  | EPow a _ => eok ks a
  | EDag a => eok ks a
  end.

Lemma pow_total ks x k : exists y, pow ks x (Z.of_nat k) = Ok y.
Proof.
  unfold pow. destruct (Z.eqb_spec (Z.of_nat k) 0); [eexists; reflexivity|].
  destruct (Z.ltb_spec 0 (Z.of_nat k)); [eexists; reflexivity|lia].
Qed.

Lemma from_expr_total ks : forall e flip, eok ks e -> exists x, from_expr_f ks flip e = Ok x.
Proof.
  induction e as [i dag|i|g|a IHa b IHb|a IHa b IHb|a IHa k|a IHa]; intros flip H; cbn [eok] in H.
  - cbn [from_expr_f]. destruct (Nat.ltb_spec i (length ks)); [eexists; reflexivity|lia].
  - eexists; reflexivity.
  - eexists; reflexivity.
  - destruct H as [H1 H2]. destruct (IHa flip H1) as [xa Ea]. destruct (IHb flip H2) as [xb Eb].
    cbn [from_expr_f]. rewrite Ea, Eb. eexists; reflexivity.
  - destruct H as [H1 H2]. destruct (IHa flip H1) as [xa Ea]. destruct (IHb flip H2) as [xb Eb].
    cbn [from_expr_f]. rewrite Ea, Eb. eexists; reflexivity.
  - destruct (IHa flip H) as [xa Ea].
    destruct a as [i dag| | | | | |];
      try (match goal with |- exists x, from_expr_f ks flip (EPow ?A k) = _ =>
             change (from_expr_f ks flip (EPow A k)) with (rbind (from_expr_f ks flip A) (fun x => pow ks x (Z.of_nat k))) end;
           rewrite Ea; cbn [rbind]; apply pow_total).
    destruct k as [|k].
    + change (from_expr_f ks flip (EPow (EOp i dag) 0)) with (rbind (from_expr_f ks flip (EOp i dag)) (fun x => pow ks x (Z.of_nat 0))).
      rewrite Ea. cbn [rbind]. apply (pow_total ks xa 0).
    + cbn [from_expr_f eok] in *. destruct (Nat.ltb_spec i (length ks)); [|lia].
      destruct (negb (isInf (kget ks i)) && (0 <? k)%nat); eexists; reflexivity.
  - cbn [from_expr_f]. apply IHa. exact H.
Qed.

Lemma eok_coeff ks f : eok ks (coeff_expr f).
Proof. induction f; cbn; auto. Qed.
Lemma eok_ann ks acc : eok ks acc -> forall p i, (i + length p <= length ks)%nat -> eok ks (ann_expr p i acc).
Proof.
  intros Ha. induction p as [|q r IH]; intros i Hi; cbn [ann_expr]; auto. cbn [length] in Hi.
  destruct (0 <? q); [cbn [eok]; split; [apply IH; lia|lia]|apply IH; lia].
Qed.
Lemma eok_cre ks inner : eok ks inner -> forall p i, (i + length p <= length ks)%nat -> eok ks (cre_expr p i inner).
Proof.
  intros Ha. induction p as [|q r IH]; intros i Hi; cbn [cre_expr]; auto. cbn [length] in Hi.
  destruct (q <? 0); [cbn [eok]; split; [lia|apply IH; lia]|apply IH; lia].
Qed.
Lemma eok_as_expr ks x : wf_nof ks x -> eok ks (as_expr x).
Proof.
  intros [_ Hwf]. unfold as_expr.
  assert (H : forall acc, eok ks acc -> eok ks (fold_left (fun acc t => EAdd acc (term_expr t)) x acc)).
  { induction x as [|t x IH]; intros acc Ha; cbn [fold_left]; auto.
    inversion Hwf; subst. apply IH; auto. cbn [eok]. split; auto.
    pose proof (pow_ok_length _ _ H1) as Hl. unfold term_expr.
    apply eok_cre; [|lia]. apply eok_ann; [apply eok_coeff|lia]. }
  apply H. exact I.
Qed.

Theorem from_expr_correct ks e x : sig_ok ks = true -> from_expr ks e = Ok x ->
  wf_nof ks x /\ forall n, bok ks n -> lc_eq (den ks x n) (eden ks e n).
Proof. intros Hs H. apply (from_expr_f_correct ks Hs e false x H). Qed.

Theorem roundtrip_correct ks x : sig_ok ks = true -> wf_nof ks x -> cpoly_nof x ->
  exists x', from_expr ks (as_expr x) = Ok x' /\ wf_nof ks x' /\
             forall n, bok ks n -> lc_eq (den ks x' n) (den ks x n).
Proof.
  intros Hs Hw Hp. destruct (from_expr_total ks (as_expr x) false (eok_as_expr ks x Hw)) as [x' E].
  exists x'. split; [exact E|]. destruct (from_expr_correct ks _ _ Hs E) as [W D]. split; auto.
  intros n Hb. rewrite D by auto. apply as_expr_correct. exact Hp.
Qed.

(** ** __pow__ with a negative integer exponent: supported by the code only for particle-conserving
    forms ([{key: value**exp}], l. 1556-1562); the result is the inverse of the positive power
    wherever the coefficient does not vanish *)
Fixpoint gpow (c : G) (k : nat) : G := match k with O => g1 | S k' => gmul c (gpow c k') end.

Lemma cval_cpow f k n : geq (cval (cpow f k) n) (gpow (cval f n) k).
Proof.
  induction k as [|k IH]; [reflexivity|]. destruct k as [|k]; [cbn [cpow gpow]; ring|].
  change (cpow f (S (S k))) with (CMul f (cpow f (S k))). cbn [cval]. rewrite IH. reflexivity.
Qed.
Lemma gpow_nonzero c k : ~ geq c g0 -> ~ geq (gpow c k) g0.
Proof. intros H. induction k; cbn [gpow]; [apply g1_nonzero|apply gmul_nonzero; auto]. Qed.

Lemma lc_pow_hnof ks f k n : lc_eq (lc_pow (den ks (hnof ks f)) k n) [(gpow (cval f n) k, n)].
Proof.
  induction k as [|k IH]; [reflexivity|]. cbn [lc_pow gpow].
  rewrite (lc_bind_Proper_l _ _ _ (den_zeros ks f n)), lc_bind_single. unfold lapp. cbn [fst snd].
  rewrite IH. apply lc_eq_cons; [|reflexivity]. split; unfold pscale; cbn [fst snd]; [ring|reflexivity].
Qed.

Lemma forallb_zeros (l : sig) : forallb (Z.eqb 0) (zeros l) = true.
Proof. induction l; cbn; auto. Qed.

Theorem pow_neg_correct ks f e n :
  e < 0 -> ~ geq (cval f n) g0 ->
  exists y, pow ks (hnof ks f) e = Ok y /\
            lc_eq (lc_bind (lc_pow (den ks (hnof ks f)) (Z.abs_nat e) n) (den ks y)) [(g1, n)].
Proof.
  intros He Hc. unfold pow, hnof.
  destruct (Z.eqb_spec e 0); [lia|]. destruct (Z.ltb_spec 0 e); [lia|].
  cbn [particle_conserving forallb fst]. rewrite forallb_zeros. cbn [andb map fst snd].
  eexists. split; [reflexivity|].
  unfold dict_of. cbn [fold_left dset fst snd].
  fold (hnof ks f). rewrite (lc_bind_Proper_l _ _ _ (lc_pow_hnof ks f (Z.abs_nat e) n)).
  rewrite lc_bind_single. unfold lapp. cbn [fst snd].
  rewrite den_zeros.
  apply lc_eq_cons; [|reflexivity]. split; unfold pscale; cbn [fst snd cval]; [|reflexivity].
  rewrite cval_cpow. apply gmul_inv_r. apply gpow_nonzero. exact Hc.
Qed.

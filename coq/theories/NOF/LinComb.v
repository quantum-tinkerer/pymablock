(** * Formal linear combinations of basis states: basic algebra *)
Require Import List QArith.
Require Import PV.NOF.Gauss PV.NOF.Coeff PV.NOF.Fock.
Import ListNotations.

#[global] Instance lc_eq_Equivalence : Equivalence lc_eq.
Proof.
  split.
  - intros a m; reflexivity.
  - intros a b H m; symmetry; apply H.
  - intros a b c H1 H2 m; rewrite (H1 m); apply H2.
Qed.

Lemma coef_at_app m a b : geq (coef_at m (a ++ b)) (gadd (coef_at m a) (coef_at m b)).
Proof.
  induction a as [|[c s] a IH]; cbn [coef_at app].
  - ring.
  - rewrite IH. ring.
Qed.

Lemma coef_at_scale m c l : geq (coef_at m (lc_scale c l)) (gmul c (coef_at m l)).
Proof.
  induction l as [|[c' s] l IH]; cbn [coef_at lc_scale map pscale fst snd].
  - ring.
  - fold (lc_scale c l). rewrite IH. destruct (occ_eqb s m); ring.
Qed.

#[global] Instance app_lc_Proper : Proper (lc_eq ==> lc_eq ==> lc_eq) (@app (G * occ)).
Proof. intros a a' Ha b b' Hb m. rewrite !coef_at_app, (Ha m), (Hb m). reflexivity. Qed.

#[global] Instance lc_scale_Proper : Proper (geq ==> lc_eq ==> lc_eq) lc_scale.
Proof. intros c c' Hc a a' Ha m. rewrite !coef_at_scale, (Ha m), Hc. reflexivity. Qed.

Lemma lc_scale_app c a b : lc_scale c (a ++ b) = lc_scale c a ++ lc_scale c b.
Proof. apply map_app. Qed.
Lemma lc_scale_scale c d l : lc_eq (lc_scale c (lc_scale d l)) (lc_scale (gmul c d) l).
Proof. intros m. rewrite !coef_at_scale. ring. Qed.
Lemma lc_scale_1 l : lc_eq (lc_scale g1 l) l.
Proof. intros m. rewrite coef_at_scale. ring. Qed.
Lemma lc_scale_0 c l : geq c g0 -> lc_eq (lc_scale c l) [].
Proof. intros H m. rewrite coef_at_scale, H. cbn [coef_at]. ring. Qed.

Lemma coef_at_peq m a b : peq a b -> geq (coef_at m [a]) (coef_at m [b]).
Proof.
  destruct a as [c s], b as [c' s']. intros [H1 H2]; cbn in *; subst.
  destruct (occ_eqb s' m); rewrite ?H1; reflexivity.
Qed.

Lemma lc_eq_cons a b l l' : peq a b -> lc_eq l l' -> lc_eq (a :: l) (b :: l').
Proof.
  intros H1 H2. change (lc_eq ([a] ++ l) ([b] ++ l')).
  apply app_lc_Proper; auto. intros m. apply coef_at_peq; auto.
Qed.

Lemma lc_eq_map {A} (f g : A -> G * occ) l :
  (forall a, In a l -> peq (f a) (g a)) -> lc_eq (map f l) (map g l).
Proof.
  induction l; intros H; cbn [map]; [reflexivity|].
  apply lc_eq_cons; [apply H; left; auto|apply IHl; intros; apply H; right; auto].
Qed.

(** a weighted basis state with zero weight is the zero vector *)
Lemma lc_eq_zero_cons c s l : geq c g0 -> lc_eq ((c, s) :: l) l.
Proof. intros H m. cbn [coef_at]. destruct (occ_eqb s m); rewrite ?H; ring. Qed.

(** apply a (linear-combination valued) map to a weighted state *)
Definition lapp (F : occ -> lincomb) (cs : G * occ) : lincomb := lc_scale (fst cs) (F (snd cs)).

#[global] Instance lapp_Proper F : Proper (peq ==> lc_eq) (lapp F).
Proof. intros [c s] [c' s'] [H1 H2]; cbn in *; subst. unfold lapp; cbn [fst snd]. rewrite H1. reflexivity. Qed.

Lemma lapp_pscale F a cs : lc_eq (lapp F (pscale a cs)) (lc_scale a (lapp F cs)).
Proof. destruct cs; unfold lapp, pscale; cbn [fst snd]. rewrite lc_scale_scale. reflexivity. Qed.

Lemma lapp_zero F cs : geq (fst cs) g0 -> lc_eq (lapp F cs) [].
Proof. intros H. unfold lapp. apply lc_scale_0. auto. Qed.

Lemma lc_bind_single cs F : lc_eq (lc_bind [cs] F) (lapp F cs).
Proof. unfold lc_bind. cbn [flat_map]. rewrite app_nil_r. reflexivity. Qed.
Lemma lc_bind_cons cs l F : lc_bind (cs :: l) F = lapp F cs ++ lc_bind l F.
Proof. reflexivity. Qed.
Lemma lc_bind_app a b F : lc_bind (a ++ b) F = lc_bind a F ++ lc_bind b F.
Proof. unfold lc_bind. apply flat_map_app. Qed.

Lemma lc_bind_ext l F F' : (forall s, lc_eq (F s) (F' s)) -> lc_eq (lc_bind l F) (lc_bind l F').
Proof.
  intros H. induction l as [|[c s] l IH]; [reflexivity|].
  rewrite !lc_bind_cons. apply app_lc_Proper; auto.
  unfold lapp; cbn [fst snd]. rewrite (H s). reflexivity.
Qed.

Lemma lc_bind_scale c l F : lc_eq (lc_bind (lc_scale c l) F) (lc_scale c (lc_bind l F)).
Proof.
  induction l as [|[c' s] l IH]; [reflexivity|].
  cbn [lc_scale map]. fold (lc_scale c l). rewrite !lc_bind_cons, lc_scale_app, IH.
  apply app_lc_Proper; [|reflexivity].
  unfold lapp, pscale; cbn [fst snd]. rewrite lc_scale_scale. reflexivity.
Qed.

Lemma coef_at_bind m l F :
  geq (coef_at m (lc_bind l F))
      (fold_right (fun cs acc => gadd (gmul (fst cs) (coef_at m (F (snd cs)))) acc) g0 l).
Proof.
  induction l as [|[c s] l IH]; [reflexivity|].
  rewrite lc_bind_cons, coef_at_app, IH. unfold lapp. rewrite coef_at_scale. reflexivity.
Qed.

Lemma lc_bind_bind l F H :
  lc_eq (lc_bind (lc_bind l F) H) (lc_bind l (fun s => lc_bind (F s) H)).
Proof.
  induction l as [|[c s] l IH]; [reflexivity|].
  rewrite !lc_bind_cons, lc_bind_app, IH.
  apply app_lc_Proper; [|reflexivity].
  unfold lapp; cbn [fst snd]. apply lc_bind_scale.
Qed.

(** ** finite sums over a list of states; bind respects equality of linear combinations in its
    first argument because its coefficients are such sums of the coefficients of that argument *)
Definition sumK (S : list occ) (phi : occ -> G) : G :=
  fold_right (fun s acc => gadd (phi s) acc) g0 S.

Lemma sumK_ext S phi psi : (forall s, In s S -> geq (phi s) (psi s)) -> geq (sumK S phi) (sumK S psi).
Proof.
  induction S as [|s S IH]; intros H; cbn [sumK fold_right]; [reflexivity|].
  fold (sumK S phi). fold (sumK S psi). rewrite (H s (or_introl eq_refl)), IH; [reflexivity|].
  intros; apply H; right; auto.
Qed.
Lemma sumK_add S phi psi : geq (sumK S (fun s => gadd (phi s) (psi s))) (gadd (sumK S phi) (sumK S psi)).
Proof.
  induction S as [|s S IH]; cbn [sumK fold_right]; [ring|].
  fold (sumK S (fun s => gadd (phi s) (psi s))). fold (sumK S phi). fold (sumK S psi). rewrite IH. ring.
Qed.
Lemma sumK_scale S phi c : geq (sumK S (fun s => gmul (phi s) c)) (gmul (sumK S phi) c).
Proof.
  induction S as [|s S IH]; cbn [sumK fold_right]; [ring|].
  fold (sumK S (fun s => gmul (phi s) c)). fold (sumK S phi). rewrite IH. ring.
Qed.
Lemma sumK_zero S phi : (forall s, In s S -> geq (phi s) g0) -> geq (sumK S phi) g0.
Proof.
  intros H. rewrite (sumK_ext S phi (fun _ => g0) H). induction S; cbn [sumK fold_right]; [reflexivity|].
  fold (sumK S (fun _ => g0)). rewrite IHS; [ring|]. intros; apply H; right; auto.
Qed.

Lemma sumK_pick S c s0 phi : NoDup S -> In s0 S ->
  geq (sumK S (fun s => gmul (if occ_eqb s0 s then c else g0) (phi s))) (gmul c (phi s0)).
Proof.
  induction 1 as [|s S Hs Hn IH]; intros Hi; [destruct Hi|]. cbn [sumK fold_right].
  fold (sumK S (fun s => gmul (if occ_eqb s0 s then c else g0) (phi s))).
  destruct (occ_eqb_spec s0 s) as [E|E].
  - subst s. rewrite sumK_zero; [ring|]. intros s Hin.
    destruct (occ_eqb_spec s0 s); [subst; contradiction|ring].
  - destruct Hi as [Hi|Hi]; [congruence|]. rewrite IH by auto. ring.
Qed.

Lemma bind_sumK F m S l : NoDup S -> (forall cs, In cs l -> In (snd cs) S) ->
  geq (coef_at m (lc_bind l F)) (sumK S (fun s => gmul (coef_at s l) (coef_at m (F s)))).
Proof.
  intros Hn. induction l as [|[c s0] l IH]; intros Hin.
  - symmetry. apply sumK_zero. intros; cbn [coef_at]; ring.
  - rewrite lc_bind_cons, coef_at_app, IH by (intros; apply Hin; right; auto).
    unfold lapp. rewrite coef_at_scale. cbn [fst snd].
    rewrite (sumK_ext S (fun s => gmul (coef_at s ((c, s0) :: l)) (coef_at m (F s)))
               (fun s => gadd (gmul (if occ_eqb s0 s then c else g0) (coef_at m (F s)))
                              (gmul (coef_at s l) (coef_at m (F s)))))
      by (intros; cbn [coef_at]; ring).
    rewrite sumK_add, sumK_pick by (auto; apply (Hin (c, s0)); left; auto). reflexivity.
Qed.

Lemma lc_bind_Proper_l F l l' : lc_eq l l' -> lc_eq (lc_bind l F) (lc_bind l' F).
Proof.
  intros H m.
  set (S := nodup (list_eq_dec Z.eq_dec) (map snd l ++ map snd l')).
  assert (Hn : NoDup S) by apply NoDup_nodup.
  rewrite (bind_sumK F m S l Hn), (bind_sumK F m S l' Hn).
  - apply sumK_ext. intros s _. rewrite (H s). reflexivity.
  - intros cs Hc. apply nodup_In. apply in_or_app. right. apply in_map. exact Hc.
  - intros cs Hc. apply nodup_In. apply in_or_app. left. apply in_map. exact Hc.
Qed.

#[global] Instance lc_bind_Proper : Proper (lc_eq ==> (pointwise_relation _ lc_eq) ==> lc_eq) lc_bind.
Proof.
  intros l l' Hl F F' HF. rewrite (lc_bind_Proper_l F l l' Hl). apply lc_bind_ext. exact HF.
Qed.

Lemma lc_bind_unit l : lc_eq (lc_bind l (fun s => [(g1, s)])) l.
Proof.
  induction l as [|[c s] l IH]; [reflexivity|].
  rewrite lc_bind_cons, IH. unfold lapp, lc_scale, pscale. cbn [map fst snd app].
  apply lc_eq_cons; [split; cbn [fst snd]; [ring|reflexivity]|reflexivity].
Qed.
Lemma lc_bind_nil_r l : lc_eq (lc_bind l (fun _ => [])) [].
Proof. induction l as [|[c s] l IH]; [reflexivity|]. rewrite lc_bind_cons, IH. reflexivity. Qed.
Lemma lc_bind_app_r l F H : lc_eq (lc_bind l (fun s => F s ++ H s)) (lc_bind l F ++ lc_bind l H).
Proof.
  induction l as [|[c s] l IH]; [reflexivity|].
  rewrite !lc_bind_cons, IH. unfold lapp. cbn [fst snd]. rewrite lc_scale_app.
  intros m. rewrite !coef_at_app. ring.
Qed.
Lemma lc_bind_scale_r l F c : lc_eq (lc_bind l (fun s => lc_scale c (F s))) (lc_scale c (lc_bind l F)).
Proof.
  induction l as [|[c' s] l IH]; [reflexivity|].
  rewrite !lc_bind_cons, IH, lc_scale_app. unfold lapp. cbn [fst snd].
  rewrite !lc_scale_scale. apply app_lc_Proper; [|reflexivity].
  apply lc_scale_Proper; [ring|reflexivity].
Qed.

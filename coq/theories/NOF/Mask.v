(** * Model of apply_mask_to_operator / NumberOrderedForm.filter_terms
      (second_quantization.py l. 190-265, number_ordered_form.py l. 1601-1637), one matrix
      element, and its laws.

    A mask element is a NumberOrderedForm whose term keys are the selection conditions.
    A condition entry is an integer or a symbolic power: [k + n] / [k - n] with n a positive
    integer symbol; sympy's [(power - ref).is_zero is not False] then means
    power = k / power > k / power < k. *)
Require Import List QArith Lia.
Require Import PV.NOF.Gauss PV.NOF.Fock PV.NOF.LinComb PV.NOF.Model PV.NOF.NofProof.
Import ListNotations.
Local Open Scope Z_scope.

Inductive pat : Type := PEq (k : Z) | PGt (k : Z) | PLt (k : Z).
Definition pat_match (r : pat) (q : Z) : bool :=
  match r with PEq k => q =? k | PGt k => k <? q | PLt k => q <? k end.
(** [all(... for power, ref in zip(powers, condition))] *)
Fixpoint cond_match (c : list pat) (p : list Z) : bool :=
  match c, p with
  | r :: c', q :: p' => pat_match r q && cond_match c' p'
  | _, _ => true
  end.
Definition matches (conds : list (list pat)) (p : list Z) : bool := existsb (fun c => cond_match c p) conds.

(** filter_terms: keep the term iff [keep == any(...)] *)
Definition filter_terms (x : nof) (conds : list (list pat)) (keep : bool) : nof :=
  filter (fun t : term => Bool.eqb keep (matches conds (fst t))) x.

(** one element of apply_mask_to_operator (value and mask already over a common operator list):
    [if not value: continue] (result 0), [if not mask: result = value unless keep], otherwise filter *)
Definition apply_mask (x : nof) (conds : list (list pat)) (keep : bool) : nof :=
  match x with
  | [] => []
  | _ => match conds with
         | [] => if keep then [] else x
         | _ => filter_terms x conds keep
         end
  end.

Lemma apply_mask_filter x conds keep : apply_mask x conds keep = filter_terms x conds keep.
Proof.
  destruct x as [|t x]; [reflexivity|]. destruct conds as [|c conds]; [|reflexivity].
  unfold apply_mask, filter_terms, matches. cbn [existsb].
  destruct keep; cbn [Bool.eqb].
  - induction (t :: x) as [|a l IH]; [reflexivity|]. cbn [filter]. exact IH.
  - induction (t :: x) as [|a l IH]; [reflexivity|]. cbn [filter]. f_equal. exact IH.
Qed.

Lemma filter_map_keys (P P' : list Z -> bool) (g : term -> term) x :
  (forall t, P (fst (g t)) = P' (fst t)) ->
  filter (fun t : term => P (fst t)) (map g x) = map g (filter (fun t : term => P' (fst t)) x).
Proof.
  intros H. induction x as [|t x IH]; [reflexivity|]. cbn [map filter]. rewrite H, IH.
  destruct (P' (fst t)); reflexivity.
Qed.


Section Laws.
  Variable P : list Z -> bool.
  Let sel (x : nof) : nof := filter (fun t : term => P (fst t)) x.

  Lemma filter_dadd k v d :
    sel (dadd k v d) = if P k then dadd k v (sel d) else sel d.
  Proof.
    unfold sel. induction d as [|[k' v'] d IH]; cbn [dadd filter fst].
    - destruct (P k); reflexivity.
    - destruct (occ_eqb_spec k' k) as [E|E].
      + subst k'. cbn [filter fst]. destruct (P k); cbn [dadd]; [rewrite occ_eqb_refl|]; reflexivity.
      + cbn [filter fst]. rewrite IH. destruct (P k'), (P k); cbn [dadd]; try reflexivity.
        destruct (occ_eqb_spec k' k); [contradiction|reflexivity].
  Qed.

  Lemma filter_fold_dadd l : forall acc,
    sel (fold_left (fun d t => dadd (fst t) (snd t) d) l acc)
    = fold_left (fun d t => dadd (fst t) (snd t) d) (sel l) (sel acc).
  Proof.
    induction l as [|[k v] l IH]; intros acc; [reflexivity|].
    cbn [fold_left fst snd]. rewrite IH, filter_dadd.
    change (sel ((k, v) :: l)) with (if P k then (k, v) :: sel l else sel l).
    destruct (P k); reflexivity.
  Qed.

  (** additive (as an identity of term dictionaries) *)
  Lemma sel_add x y : sel (add x y) = add (sel x) (sel y).
  Proof. unfold add. rewrite filter_fold_dadd. unfold sel. rewrite filter_app. reflexivity. Qed.

  Lemma sel_idem x : sel (sel x) = sel x.
  Proof.
    unfold sel. induction x as [|t x IH]; [reflexivity|]. cbn [filter].
    destruct (P (fst t)) eqn:E; cbn [filter]; rewrite ?E, IH; reflexivity.
  Qed.

  Lemma sel_neg x : sel (neg x) = neg (sel x).
  Proof. apply filter_map_keys. reflexivity. Qed.
End Laws.

Theorem mask_additive x y conds keep :
  apply_mask (add x y) conds keep = add (apply_mask x conds keep) (apply_mask y conds keep).
Proof. rewrite !apply_mask_filter. unfold filter_terms. apply (sel_add (fun p => Bool.eqb keep (matches conds p))). Qed.

Theorem mask_idempotent x conds keep :
  apply_mask (apply_mask x conds keep) conds keep = apply_mask x conds keep.
Proof. rewrite !apply_mask_filter. unfold filter_terms. apply (sel_idem (fun p => Bool.eqb keep (matches conds p))). Qed.

(** the kept and the discarded part add up to the operator *)
Theorem mask_partition ks x conds n :
  lc_eq (den ks (apply_mask x conds true) n ++ den ks (apply_mask x conds false) n) (den ks x n).
Proof.
  rewrite !apply_mask_filter. unfold filter_terms.
  induction x as [|t x IH]; [reflexivity|]. cbn [filter].
  destruct (matches conds (fst t)); cbn [Bool.eqb].
  - rewrite !den_cons. cbn [app]. apply lc_eq_cons; [reflexivity|]. cbn [Bool.eqb] in IH. exact IH.
  - rewrite !den_cons. intros m. specialize (IH m). rewrite !coef_at_app in *. cbn [Bool.eqb] in IH.
    destruct (den_term ks t n) as [c s]. cbn [coef_at]. rewrite <- IH. ring.
Qed.
Theorem mask_partition_keys x conds :
  forall t, In t x <-> In t (apply_mask x conds true) \/ In t (apply_mask x conds false).
Proof.
  intros t. rewrite !apply_mask_filter. unfold filter_terms. rewrite !filter_In.
  destruct (matches conds (fst t)); cbn [Bool.eqb]; intuition congruence.
Qed.

(** commutes with the adjoint when the set of conditions is closed under negation of powers *)
Theorem mask_adjoint x conds keep :
  (forall p, matches conds (map Z.opp p) = matches conds p) ->
  apply_mask (adj x) conds keep = adj (apply_mask x conds keep).
Proof.
  intros H. rewrite !apply_mask_filter. unfold filter_terms, adj.
  apply (filter_map_keys (fun p => Bool.eqb keep (matches conds p)) (fun p => Bool.eqb keep (matches conds p))).
  intros t. cbn [fst]. rewrite H. reflexivity.
Qed.

(** a checkable sufficient condition for closure under negation *)
Definition pat_opp (r : pat) : pat := match r with PEq k => PEq (- k) | PGt k => PLt (- k) | PLt k => PGt (- k) end.
Lemma pat_match_opp r q : pat_match (pat_opp r) (- q) = pat_match r q.
Proof.
  destruct r; cbn [pat_opp pat_match].
  - destruct (Z.eqb_spec (- q) (- k)), (Z.eqb_spec q k); try reflexivity; lia.
  - destruct (Z.ltb_spec (- q) (- k)), (Z.ltb_spec k q); try reflexivity; lia.
  - destruct (Z.ltb_spec (- k) (- q)), (Z.ltb_spec q k); try reflexivity; lia.
Qed.
Lemma cond_match_opp c p : cond_match (map pat_opp c) (map Z.opp p) = cond_match c p.
Proof.
  revert p; induction c as [|r c IH]; intros p; destruct p as [|q p]; cbn [map cond_match]; try reflexivity.
  rewrite pat_match_opp, IH. reflexivity.
Qed.
Lemma matches_closed conds :
  (forall p, matches (map (map pat_opp) conds) p = matches conds p) ->
  forall p, matches conds (map Z.opp p) = matches conds p.
Proof.
  intros H p. rewrite <- (H (map Z.opp p)). unfold matches. clear H.
  induction conds as [|c conds IH]; [reflexivity|]. cbn [map existsb].
  rewrite cond_match_opp, IH. reflexivity.
Qed.

(** selection commutes with multiplication by a function of number operators ([_multiply_expr]):
    it is by keys, and that multiplication keeps the keys *)
Theorem mask_mulexpr ks x e conds keep :
  NoDup (map fst x) ->
  apply_mask (mulexpr ks x e) conds keep = mulexpr ks (apply_mask x conds keep) e.
Proof.
  intros Hnd. rewrite !apply_mask_filter. unfold filter_terms, mulexpr.
  rewrite !dict_of_nodup by (rewrite map_map; try apply NoDup_filter_keys; exact Hnd).
  apply (filter_map_keys (fun p => Bool.eqb keep (matches conds p)) (fun p => Bool.eqb keep (matches conds p))).
  reflexivity.
Qed.

(** observation for the harness: keys kept *)
Definition check_mask (ks : sig) (tx : tree) (conds : list (list pat)) (keep : bool) (expected : list (list Z)) : bool :=
  match teval ks tx with
  | Ok x => let ks' := map fst (apply_mask x conds keep) in
            (length ks' =? length expected)%nat && forallb (fun k => existsb (occ_eqb k) expected) ks'
  | Raise _ => false
  end.

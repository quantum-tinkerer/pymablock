(** * Fock-space semantics of number-ordered terms.

    Modes are listed in the order the code keeps them
    (bosons, ladders, spins, fermions: [generator_types]).  A basis state is an
    occupation vector [n : list Z].  Physical states have boson occupations >= 0 and
    spin/fermion occupations in {0,1}; the operator relations below hold on all
    integer vectors, the physical ones form an invariant subspace.

    Non-normalised boson basis:  a e_n = n e_{n-1},  a† e_n = e_{n+1}.
    Ladder:                      L e_n = e_{n-1},    L† e_n = e_{n+1}.
    Spin-1/2 (sigma_-):          s e_1 = e_0, s e_0 = 0, s† e_0 = e_1, s† e_1 = 0.
    Fermion: the same with the Jordan-Wigner sign (-1)^(number of occupied
    fermionic modes with a smaller index).

    An elementary operator maps a basis state to a multiple of ONE basis state, so
    operators are represented as [occ -> G * occ]; an annihilated state is
    represented by coefficient 0 (the state component is then irrelevant but kept
    canonical: the occupation is always shifted by -1 / +1). *)
Require Import List QArith.
Require Import PV.NOF.Gauss PV.NOF.Coeff.
Import ListNotations.
Local Open Scope Z_scope.

Inductive kind : Type := Boson | Ladder | Spin | Fermion.
Definition sig := list kind.
Definition isF (k : kind) : bool := match k with Fermion => true | _ => false end.
Definition isInf (k : kind) : bool := match k with Boson | Ladder => true | _ => false end.
Definition isB (k : kind) : bool := match k with Boson => true | _ => false end.
Definition kind_eqb (a b : kind) : bool :=
  match a, b with Boson, Boson | Ladder, Ladder | Spin, Spin | Fermion, Fermion => true | _, _ => false end.
Definition kget (ks : sig) (i : nat) : kind := nth i ks Boson.

(** local action on the occupation of the mode itself: (factor, new occupation);
    [dag = true] is the creation operator *)
Definition local (k : kind) (dag : bool) (v : Z) : G * Z :=
  match k, dag with
  | Boson, false => (gz v, v - 1)
  | Boson, true => (g1, v + 1)
  | Ladder, false => (g1, v - 1)
  | Ladder, true => (g1, v + 1)
  | _, false => (gind (v =? 1), v - 1)
  | _, true => (gind (v =? 0), v + 1)
  end.

(** parity of the number of occupied fermionic modes of a state *)
Fixpoint occF (ks : sig) (n : occ) : bool :=
  match ks, n with
  | k :: ks', v :: n' => xorb (isF k && (v =? 1)) (occF ks' n')
  | _, _ => false
  end.

(** Jordan-Wigner sign of an operator of mode i on state n *)
Definition jw (ks : sig) (i : nat) (n : occ) : bool :=
  isF (kget ks i) && occF (firstn i ks) (firstn i n).

(** one elementary operator (mode i, creation iff dag) on a basis state *)
Definition step (ks : sig) (i : nat) (dag : bool) (n : occ) : G * occ :=
  let (c, v') := local (kget ks i) dag (oget n i) in
  (gmul (gsgn (jw ks i n)) c, upd n i v').

Definition peq (a b : G * occ) : Prop := geq (fst a) (fst b) /\ snd a = snd b.
#[global] Instance peq_Equivalence : Equivalence peq.
Proof.
  split.
  - intros [c s]; split; reflexivity.
  - intros [c s] [c' s'] [H1 H2]; split; symmetry; auto.
  - intros [c s] [c' s'] [c'' s''] [H1 H2] [H3 H4]; split; etransitivity; eauto.
Qed.

Definition pscale (c : G) (a : G * occ) : G * occ := (gmul c (fst a), snd a).
#[global] Instance pscale_Proper : Proper (geq ==> peq ==> peq) pscale.
Proof. intros c c' Hc [a s] [a' s'] [H1 H2]; split; cbn in *; [rewrite Hc, H1; reflexivity|auto]. Qed.

(** apply a state map to a weighted state *)
Definition papp (F : occ -> G * occ) (cs : G * occ) : G * occ := pscale (fst cs) (F (snd cs)).

Fixpoint iter_step (ks : sig) (i : nat) (dag : bool) (r : nat) (cs : G * occ) : G * occ :=
  match r with
  | O => cs
  | S r' => iter_step ks i dag r' (papp (step ks i dag) cs)
  end.

(** operator of mode i to the signed power q (q<0: creation^|q|, q>0: annihilation^q) *)
Definition opact (ks : sig) (i : nat) (q : Z) (n : occ) : G * occ :=
  iter_step ks i (q <? 0) (Z.abs_nat q) (g1, n).

Definition term : Type := (list Z * cexpr)%type.

(** annihilation pass: modes in ascending order are applied first to last, i.e. the
    operator product is  a_k^{p_k} ... a_1^{p_1} a_0^{p_0}  (descending, as stored) *)
Fixpoint apass_aux (ks : sig) (p : list Z) (i : nat) (cs : G * occ) : G * occ :=
  match p with
  | [] => cs
  | q :: r => apass_aux ks r (S i) (if 0 <? q then papp (opact ks i q) cs else cs)
  end.
(** creation pass: the last mode acts first, i.e. the product is
    c_0†^{-p_0} c_1†^{-p_1} ... c_k†^{-p_k}  (ascending) *)
Fixpoint cpass_aux (ks : sig) (p : list Z) (i : nat) (cs : G * occ) : G * occ :=
  match p with
  | [] => cs
  | q :: r => let cs' := cpass_aux ks r (S i) cs in
              if q <? 0 then papp (opact ks i q) cs' else cs'
  end.

(** the function of the number operators in the middle *)
Definition fact (f : cexpr) (n : occ) : G * occ := (cval f n, n).

(** a stored term (powers, coeff) denotes
    (creators, ascending mode order) * coeff(N) * (annihilators, descending mode order) *)
Definition den_term (ks : sig) (t : term) (n : occ) : G * occ :=
  cpass_aux ks (fst t) 0 (papp (fact (snd t)) (apass_aux ks (fst t) 0 (g1, n))).

Definition lincomb := list (G * occ).
Fixpoint occ_eqb (a b : occ) : bool :=
  match a, b with
  | [], [] => true
  | x :: a', y :: b' => (x =? y) && occ_eqb a' b'
  | _, _ => false
  end.
Lemma occ_eqb_spec a b : reflect (a = b) (occ_eqb a b).
Proof.
  revert b; induction a; destruct b; cbn; try (constructor; congruence).
  destruct (Z.eqb_spec a z); cbn; [|constructor; congruence].
  destruct (IHa b); constructor; congruence.
Qed.
Lemma occ_eqb_refl a : occ_eqb a a = true.
Proof. destruct (occ_eqb_spec a a); congruence. Qed.
Fixpoint coef_at (m : occ) (l : lincomb) : G :=
  match l with
  | [] => g0
  | (c, s) :: r => gadd (if occ_eqb s m then c else g0) (coef_at m r)
  end.
(** equality of normalised linear combinations *)
Definition lc_eq (a b : lincomb) : Prop := forall m, geq (coef_at m a) (coef_at m b).
Definition lc_scale (c : G) (l : lincomb) : lincomb := map (pscale c) l.
Definition lc_bind (l : lincomb) (F : occ -> lincomb) : lincomb :=
  flat_map (fun cs => lc_scale (fst cs) (F (snd cs))) l.

Definition nof : Type := list term.
(** x e_n = den x n  (as a formal linear combination) *)
Definition den (ks : sig) (x : nof) (n : occ) : lincomb := map (fun t => den_term ks t n) x.
(** matrix element: x e_n = sum_m (melt x n m) e_m *)
Definition melt (ks : sig) (x : nof) (n m : occ) : G := coef_at m (den ks x n).

(** ** The action of a stored term in closed form ([den_term_cf]; equal to [den_term] by
    FockLemmas.den_term_cf_eq, stated as C08_term_closed_form) *)
(** falling factorial v (v-1) ... (v-k+1) *)
Fixpoint ffall (v : Z) (k : nat) : G :=
  match k with O => g1 | S k' => gmul (gz v) (ffall (v - 1) k') end.

(** weight with which the power q of one mode of kind k (q > 0: annihilators, q < 0: creators)
    acts on occupation v, signs apart *)
Definition wloc (k : kind) (q : Z) (v : Z) : G :=
  match k with
  | Boson => ffall v (Z.to_nat q)
  | Ladder => g1
  | _ => if q =? 0 then g1 else if q =? 1 then gind (v =? 1)
         else if q =? -1 then gind (v =? 0) else g0
  end.

(** parity of the number of fermionic elementary operators in a power list *)
Fixpoint parF (ks : sig) (p : list Z) : bool :=
  match ks, p with
  | k :: ks', q :: p' => xorb (isF k && Z.odd q) (parF ks' p')
  | _, _ => false
  end.

(** weight of the whole term with powers p on the state n: the local weights times, for each
    fermionic mode occupied between its own annihilators and creators, the Jordan-Wigner sign of the
    fermionic operators of the modes behind it *)
Fixpoint ws (ks : sig) (p : list Z) (n : occ) : G :=
  match ks, p, n with
  | k :: ks', q :: p', v :: n' =>
      gmul (gmul (wloc k q v) (gsgn (isF k && (v - Z.max q 0 =? 1) && parF ks' p')))
           (ws ks' p' n')
  | _, _, _ => g1
  end.

(** the state after the annihilators (where the coefficient is evaluated), and the final state *)
Fixpoint omid (n : occ) (p : list Z) : occ :=
  match n, p with
  | v :: n', q :: p' => (v - Z.max q 0) :: omid n' p'
  | _, _ => n
  end.
Fixpoint osub (n : occ) (p : list Z) : occ :=
  match n, p with
  | v :: n', q :: p' => (v - q) :: osub n' p'
  | _, _ => n
  end.

Definition den_term_cf (ks : sig) (t : term) (n : occ) : G * occ :=
  (gmul (ws ks (fst t) n) (cval (snd t) (omid n (fst t))), osub n (fst t)).

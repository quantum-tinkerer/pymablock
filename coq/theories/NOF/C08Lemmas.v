(** * Concrete objects of the non-vacuity examples of Props/C08.v *)
Require Import List QArith Lia.
Require Import PV.NOF.Gauss PV.NOF.Coeff PV.NOF.Fock PV.NOF.Model PV.NOF.NofProof PV.NOF.NofProof2.
Import ListNotations.
Local Open Scope Z_scope.

Definition ex_ks : sig := [Boson; Ladder; Spin; Fermion; Fermion].
Definition ex_x : nof := [([-1; 0; 0; 1; 0], CAdd (CNum 0) (CConst (gz 2))); ([0; 1; -1; 0; -1], CNum 3)].
Definition ex_y : nof := [([2; 0; 1; 0; 1], CMul (CNum 0) (CNum 1)); ([0; 0; 0; -1; 1], CConst gi)].
Definition ex_n : list Z := [3; -2; 1; 0; 1].

Lemma ex_sig : sig_ok ex_ks = true. Proof. reflexivity. Qed.
Lemma ex_bok : bok ex_ks ex_n. Proof. cbn; repeat split; intros; try discriminate; auto. Qed.
Lemma ex_phys : phys ex_ks ex_n. Proof. cbn; repeat split; intros; auto; try discriminate; lia. Qed.
Lemma ex_wf_x : wf_nof ex_ks ex_x.
Proof.
  split.
  - repeat constructor; cbn; intuition discriminate.
  - repeat constructor; cbn; intros; lia.
Qed.
Lemma ex_wf_y : wf_nof ex_ks ex_y.
Proof.
  split.
  - repeat constructor; cbn; intuition discriminate.
  - repeat constructor; cbn; intros; lia.
Qed.

(** * Correctness of [_multiply_op] on single terms (boson, ladder, spin and fermion branches) *)
Require Import List QArith Lia.
Require Import PV.NOF.Gauss PV.NOF.Coeff PV.NOF.Fock PV.NOF.FockLemmas PV.NOF.Model.
Local Open Scope Z_scope.

(** ** closed form of one operator power at an arbitrary mode *)
Lemma jw_cons_S k ks i v n :
  jw (k :: ks) (S i) (v :: n) = isF (kget ks i) && xorb (isF k && (v =? 1)) (occF (firstn i ks) (firstn i n)).
Proof. reflexivity. Qed.

Lemma opact_cf ks : forall i q n, (i < length ks)%nat -> length n = length ks ->
  peq (opact ks i q n)
      (gmul (gsgn (jw ks i n && Z.odd q)) (wloc (kget ks i) q (oget n i)), upd n i (oget n i - q)).
Proof.
  induction ks as [|k ks IH]; intros i q n Hi Hn; [cbn in Hi; lia|].
  destruct n as [|v n]; [discriminate|]. injection Hn as Hn.
  destruct i as [|i].
  - rewrite opact_cons_O. unfold jw, kget, oget. cbn [nth firstn occF upd].
    rewrite andb_false_r. cbn [andb gsgn]. split; cbn [fst snd]; [ring|reflexivity].
  - rewrite <- (papp_g1 (opact (k :: ks) (S i) q)). change (g1, v :: n) with (lift v (g1, n)).
    rewrite (opact_lifts k ks i q v (g1, n)), papp_g1, IH by (cbn in Hi; auto; lia).
    rewrite jw_cons_S. unfold kget, oget. cbn [nth upd].
    split; unfold pscale, lift; cbn [fst snd]; [|reflexivity].
    fold (kget ks i). unfold jw.
    destruct (isF (kget ks i)); cbn [andb]; [|rewrite !andb_false_r; cbn [gsgn]; ring].
    rewrite (andb_comm (xorb _ _)), gsgn_andb_xorb, !(andb_comm (Z.odd q)). ring.
Qed.

Lemma opact_nilpotent ks i q n :
  (i < length ks)%nat -> length n = length ks -> isInf (kget ks i) = false -> 1 < Z.abs q ->
  geq (fst (opact ks i q n)) g0.
Proof.
  intros Hi Hn Hk Hq. rewrite opact_cf by auto. cbn [fst].
  destruct (wloc_bin_cases (kget ks i) q (oget n i) Hk) as [Hz|[_ Hc]]; [rewrite Hz; ring|lia].
Qed.

Lemma parF_upd ks : forall p i q', length p = length ks -> (i < length ks)%nat ->
  parF ks (upd p i q') = xorb (parF ks p) (isF (kget ks i) && xorb (Z.odd q') (Z.odd (oget p i))).
Proof.
  induction ks as [|k ks IH]; intros p i q' Hp Hi; [cbn in Hi; lia|].
  destruct p as [|q p]; [discriminate|]. injection Hp as Hp. cbn [length] in Hi.
  destruct i as [|i]; unfold kget, oget; cbn [nth upd parF].
  - destruct (isF k), (Z.odd q'), (Z.odd q), (parF ks p); reflexivity.
  - rewrite (IH p i q') by (auto; lia). unfold kget, oget.
    destruct (isF k && Z.odd q), (parF ks p), (isF (nth i ks Boson) && xorb (Z.odd q') (Z.odd (nth i p 0))); reflexivity.
Qed.

Lemma oget_upd_same' (p : list Z) i v : (i < length p)%nat -> oget (upd p i v) i = v.
Proof. apply oget_upd_same. Qed.



Lemma osub_upd : forall n p i v q, length p = length n ->
  osub (upd n i v) (upd p i q) = upd (osub n p) i (v - q).
Proof.
  induction n as [|x n IH]; intros p i v q H; destruct p as [|y p]; try discriminate; [reflexivity|].
  destruct i; cbn [upd osub]; [reflexivity|]. f_equal. apply IH. cbn in H; lia.
Qed.
Lemma osub_upd_l n p i v : length p = length n ->
  osub (upd n i v) p = upd (osub n p) i (v - oget p i).
Proof. intros H. rewrite <- (osub_upd n p i v (oget p i) H), upd_same. reflexivity. Qed.
Lemma osub_upd_r n p i q : length p = length n ->
  osub n (upd p i q) = upd (osub n p) i (oget n i - q).
Proof. intros H. rewrite <- (osub_upd n p i (oget n i) q H), upd_same. reflexivity. Qed.

Lemma omid_upd : forall n p i v q, length p = length n ->
  omid (upd n i v) (upd p i q) = upd (omid n p) i (v - Z.max q 0).
Proof.
  induction n as [|x n IH]; intros p i v q H; destruct p as [|y p]; try discriminate; [reflexivity|].
  destruct i; cbn [upd omid]; [reflexivity|]. f_equal. apply IH. cbn in H; lia.
Qed.
Lemma omid_upd_l n p i v : length p = length n ->
  omid (upd n i v) p = upd (omid n p) i (v - Z.max (oget p i) 0).
Proof. intros H. rewrite <- (omid_upd n p i v (oget p i) H), upd_same. reflexivity. Qed.
Lemma omid_upd_r n p i q : length p = length n ->
  omid n (upd p i q) = upd (omid n p) i (oget n i - Z.max q 0).
Proof. intros H. rewrite <- (omid_upd n p i (oget n i) q H), upd_same. reflexivity. Qed.
Lemma omid_length n p : length (omid n p) = length n.
Proof. revert p; induction n; destruct p; cbn; auto. Qed.
Lemma osub_length n p : length (osub n p) = length n.
Proof. revert p; induction n; destruct p; cbn; auto. Qed.
Lemma oget_omid : forall n p i, length p = length n -> (i < length n)%nat ->
  oget (omid n p) i = oget n i - Z.max (oget p i) 0.
Proof.
  induction n as [|x n IH]; intros p i H Hi; destruct p as [|y p]; try discriminate; [cbn in Hi; lia|].
  destruct i; unfold oget; cbn [omid nth]; [reflexivity|]. apply IH; cbn in *; lia.
Qed.

Lemma oget_osub : forall n p i, length p = length n -> (i < length n)%nat ->
  oget (osub n p) i = oget n i - oget p i.
Proof.
  induction n as [|x n IH]; intros p i H Hi; destruct p as [|y p]; try discriminate; [cbn in Hi; lia|].
  destruct i; unfold oget; cbn [osub nth]; [reflexivity|]. apply IH; cbn in *; lia.
Qed.

(** ** the weight of a term, factorised at one mode *)

(** parity of the number of fermionic modes whose power is [v]: among all modes, and among
    those behind mode [i] *)
Fixpoint cntF (v : Z) (ks : sig) (p : list Z) : bool :=
  match ks, p with
  | k :: ks', q :: p' => xorb (isF k && (q =? v)) (cntF v ks' p')
  | _, _ => false
  end.
Fixpoint cntF_after (v : Z) (ks : sig) (p : list Z) (i : nat) : bool :=
  match ks, p, i with
  | _ :: ks', _ :: p', S i' => cntF_after v ks' p' i'
  | _ :: ks', _ :: p', O => cntF v ks' p'
  | _, _, _ => false
  end.

(** the sign the code applies: case A ([orig = 1 or new = 1]) / case B *)
Definition code_sign (ks : sig) (p : list Z) (i : nat) (o new : Z) : bool :=
  if (o =? 1) || (new =? 1) then cntF 1 ks (firstn i p)
  else xorb (cntF 1 ks p) (cntF_after (-1) ks p i).

Lemma cntF_split v ks : forall p i, length p = length ks -> (i < length ks)%nat ->
  cntF v ks p = xorb (cntF v ks (firstn i p)) (xorb (isF (kget ks i) && (oget p i =? v)) (cntF_after v ks p i)).
Proof.
  induction ks as [|k ks IH]; intros p i Hp Hi; [cbn in Hi; lia|].
  destruct p as [|q p]; [discriminate|]. injection Hp as Hp. cbn [length] in Hi.
  destruct i as [|i]; unfold kget, oget; cbn [firstn cntF cntF_after nth].
  - destruct (isF k && (q =? v)), (cntF v ks p); reflexivity.
  - rewrite (IH p i) by (auto; lia). unfold kget, oget.
    destruct (isF k && (q =? v)), (cntF v ks (firstn i p)), (isF (nth i ks Boson) && (nth i p 0 =? v)), (cntF_after v ks p i);
      reflexivity.
Qed.

Lemma par_agree_or_zero ks : forall p n, length p = length ks -> length n = length ks ->
  geq (ws ks p n) g0 \/ parF ks p = xorb (cntF 1 ks p) (cntF (-1) ks p).
Proof.
  induction ks as [|k ks IH]; intros p n Hp Hn; [right; destruct p; reflexivity|].
  destruct p as [|q p]; [discriminate|]. destruct n as [|v n]; [discriminate|].
  injection Hp as Hp. injection Hn as Hn.
  destruct (IH p n Hp Hn) as [H|H]; cbn [ws parF cntF]; [left; rewrite H; ring|]. rewrite H.
  destruct (isF k) eqn:Ek; cbn [andb]; [|right; destruct (cntF 1 ks p), (cntF (-1) ks p); reflexivity].
  destruct (wloc_bin_cases k q v) as [Hz|[_ Hc]]; [destruct k; try discriminate; reflexivity|left; rewrite Hz; ring|right].
  destruct Hc as [E|[[E _]|[E _]]]; subst q; destruct (cntF 1 ks p), (cntF (-1) ks p); reflexivity.
Qed.

(** With the power [a] and the occupation [b] of mode [i] left open, the weight is the local
    weight of the mode times a rest [R] that does not depend on them, up to two signs: the
    modes in front see the parity of [a] (an occupied fermionic mode in front, [S], changes sign
    with it), and the mode itself sees the parity [Pb] of the fermionic operators behind it.
    Unless the rest vanishes, [S] and [Pb] are the parities the code counts. *)
Lemma ws_at ks : forall i p n, (i < length ks)%nat -> length p = length ks -> length n = length ks ->
  exists R Pb Sg,
    (forall a b, geq (ws ks (upd p i a) (upd n i b))
       (gmul (gmul (gsgn (isF (kget ks i) && Sg && Z.odd a))
                   (gmul (wloc (kget ks i) a b) (gsgn ((b - Z.max a 0 =? 1) && (isF (kget ks i) && Pb))))) R)) /\
    (geq R g0 \/
     (Sg = xorb (cntF 1 ks (firstn i p)) (occF (firstn i ks) (firstn i n)) /\
      Pb = xorb (cntF_after 1 ks p i) (cntF_after (-1) ks p i))).
Proof.
  induction ks as [|k ks IH]; intros i p n Hi Hp Hn; [cbn in Hi; lia|].
  destruct p as [|q0 p]; [discriminate|]. destruct n as [|v0 n]; [discriminate|].
  injection Hp as Hp. injection Hn as Hn. cbn [length] in Hi.
  destruct i as [|i].
  - exists (ws ks p n), (parF ks p), false. split.
    + intros a b. unfold kget. cbn [upd ws nth]. rewrite andb_false_r.
      destruct (isF k), (b - Z.max a 0 =? 1); cbn [andb gsgn]; ring.
    + destruct (par_agree_or_zero ks p n Hp Hn) as [H|H]; [left; exact H|right; split; [reflexivity|exact H]].
  - destruct (IH i p n ltac:(lia) Hp Hn) as [R [Pb [Sg [HW HS]]]].
    set (c := isF k && (v0 - Z.max q0 0 =? 1)).
    exists (gmul (gmul (wloc k q0 v0) (gsgn (c && parF ks (upd p i 0)))) R), Pb, (xorb c Sg). split.
    + intros a b. unfold kget. cbn [upd ws nth]. fold (kget ks i). rewrite HW. fold c.
      assert (E : c && parF ks (upd p i a)
                  = xorb (c && parF ks (upd p i 0)) (isF (kget ks i) && c && Z.odd a)).
      { rewrite !parF_upd by (auto; lia).
        destruct c, (parF ks p), (isF (kget ks i)), (Z.odd a), (Z.odd (oget p i)); reflexivity. }
      assert (E' : isF (kget ks i) && xorb c Sg && Z.odd a
                   = xorb (isF (kget ks i) && c && Z.odd a) (isF (kget ks i) && Sg && Z.odd a))
        by (destruct (isF (kget ks i)), c, Sg, (Z.odd a); reflexivity).
      rewrite E, E', !gsgn_xorb. ring.
    + destruct HS as [HR|[HS HP]]; [left; rewrite HR; ring|].
      cbn [firstn cntF occF cntF_after]. rewrite <- HP, HS. subst c.
      destruct (isF k) eqn:Ek; cbn [andb]; [|right; rewrite !xorb_false_l; split; reflexivity].
      destruct (wloc_bin_cases k q0 v0) as [Hz|[_ Hc]]; [destruct k; try discriminate; reflexivity|left; rewrite Hz; ring|right].
      split; [|reflexivity].
      destruct Hc as [E|[[E E']|[E E']]]; subst; [rewrite Z.sub_0_r; destruct (v0 =? 1)| |];
        destruct (cntF 1 ks (firstn i p)), (occF (firstn i ks) (firstn i n)); reflexivity.
Qed.

Lemma ws_has_factor ks i p n :
  (i < length ks)%nat -> length p = length ks -> length n = length ks ->
  exists R, geq (ws ks p n) (gmul (wloc (kget ks i) (oget p i) (oget n i)) R).
Proof.
  intros Hi Hp Hn. destruct (ws_at ks i p n Hi Hp Hn) as [R [Pb [Sg [HW _]]]].
  specialize (HW (oget p i) (oget n i)). rewrite !upd_same in HW.
  exists (gmul (gmul (gsgn (isF (kget ks i) && Sg && Z.odd (oget p i)))
                     (gsgn ((oget n i - Z.max (oget p i) 0 =? 1) && (isF (kget ks i) && Pb)))) R).
  rewrite HW. ring.
Qed.

Lemma ffall_add v a b : geq (ffall v (a + b)) (gmul (ffall v a) (ffall (v - Z.of_nat a) b)).
Proof.
  revert v; induction a; intros v.
  - cbn [Nat.add ffall Z.of_nat]. replace (v - 0) with v by lia. ring.
  - cbn [Nat.add ffall]. rewrite IHa. replace (v - 1 - Z.of_nat a) with (v - Z.of_nat (S a)) by lia. ring.
Qed.
Lemma ffall_snoc v k : geq (ffall v (S k)) (gmul (ffall v k) (gz (v - Z.of_nat k))).
Proof.
  replace (S k) with (k + 1)%nat by lia. rewrite ffall_add. cbn [ffall]. ring.
Qed.

Lemma cval_cprod_map (h : nat -> cexpr) l M :
  geq (cval (cprod (map h l)) M) (fold_right (fun t acc => gmul (cval (h t) M) acc) g1 l).
Proof. induction l; cbn [map cprod cval fold_right]; [reflexivity|]. rewrite IHl. reflexivity. Qed.

Lemma cval_cfalling i k M : geq (cval (cfalling i k) M) (ffall (oget M i) k).
Proof.
  unfold cfalling. rewrite cval_cprod_map.
  assert (H : forall s, geq (fold_right (fun t acc => gmul (cval (CAdd (CNum i) (CConst (gz (- Z.of_nat t)))) M) acc) g1 (seq s k))
                    (ffall (oget M i - Z.of_nat s) k)).
  { induction k; intros s; cbn [seq fold_right ffall]; [reflexivity|].
    rewrite (IHk (S s)). cbn [cval].
    replace (oget M i - Z.of_nat s - 1) with (oget M i - Z.of_nat (S s)) by lia.
    rewrite gz_sub, gz_opp. ring. }
  rewrite (H O). cbn [Z.of_nat]. replace (oget M i - 0) with (oget M i) by lia. reflexivity.
Qed.

Lemma cval_crising i k M : geq (cval (crising i k) M) (ffall (oget M i + Z.of_nat k) k).
Proof.
  unfold crising. rewrite cval_cprod_map.
  assert (H : forall s, geq (fold_right (fun t acc => gmul (cval (CAdd (CNum i) (CConst (gz (Z.of_nat t)))) M) acc) g1 (seq s k))
                    (ffall (oget M i + Z.of_nat s + Z.of_nat k - 1) k)).
  { induction k; intros s; cbn [seq fold_right]; [reflexivity|].
    rewrite (IHk (S s)). rewrite ffall_snoc. cbn [cval].
    replace (oget M i + Z.of_nat (S s) + Z.of_nat k - 1) with (oget M i + Z.of_nat s + Z.of_nat (S k) - 1) by lia.
    replace (oget M i + Z.of_nat s + Z.of_nat (S k) - 1 - Z.of_nat k) with (oget M i + Z.of_nat s) by lia.
    rewrite gz_add. ring. }
  rewrite (H 1%nat). replace (oget M i + Z.of_nat 1 + Z.of_nat k - 1) with (oget M i + Z.of_nat k) by lia.
  reflexivity.
Qed.

(** ** boson / ladder branch *)
Lemma cval_cshift_upd i d f M a :
  (i < length M)%nat ->
  geq (cval (cshift i d f) (upd M i a)) (cval f (upd M i (a + d))).
Proof.
  intros Hi. rewrite cval_cshift by (rewrite upd_length; auto).
  rewrite oget_upd_same by auto. rewrite upd_upd. reflexivity.
Qed.


Lemma inf_core_ladder i q o v f M :
  (i < length M)%nat ->
  geq (cval (snd (mulop_inf false i q (upd M i o, f))) (upd M i (v - Z.max (o + q) 0)))
      (cval f (upd M i (v - q - Z.max o 0))).
Proof.
  intros Hi. unfold mulop_inf. rewrite oget_upd_same by auto.
  destruct (Z.ltb_spec 0 q).
  - cbn [snd]. rewrite cval_cshift_upd by auto.
    rewrite (upd_eq_val M i _ (v - q - Z.max o 0)) by lia. reflexivity.
  - destruct (Z.leb_spec (o + q) 0); cbn [snd].
    + rewrite cval_cshift_upd by auto.
      rewrite (upd_eq_val M i _ (v - q - Z.max o 0)) by lia. reflexivity.
    + rewrite (upd_eq_val M i _ (v - q - Z.max o 0)) by lia. reflexivity.
Qed.

(** falling factorials with integer lengths: a negative length counts as 0 *)
Lemma ffall_split v c a b : Z.max a 0 + Z.max b 0 = c ->
  geq (ffall v (Z.to_nat c)) (gmul (ffall v (Z.to_nat a)) (ffall (v - Z.max a 0) (Z.to_nat b))).
Proof.
  intros H. replace (Z.to_nat c) with (Z.to_nat a + Z.to_nat b)%nat by lia. rewrite ffall_add.
  replace (v - Z.of_nat (Z.to_nat a)) with (v - Z.max a 0) by lia. reflexivity.
Qed.

(** both sides are the falling factorial of v of length q+ + o+ *)
Lemma inf_core_boson i q o v f M :
  (i < length M)%nat ->
  geq (gmul (ffall v (Z.to_nat (o + q)))
            (cval (snd (mulop_inf true i q (upd M i o, f))) (upd M i (v - Z.max (o + q) 0))))
      (gmul (gmul (ffall v (Z.to_nat q)) (ffall (v - q) (Z.to_nat o)))
            (cval f (upd M i (v - q - Z.max o 0)))).
Proof.
  intros Hi. unfold mulop_inf. rewrite oget_upd_same by auto.
  destruct (Z.ltb_spec 0 q) as [Hq|Hq]; [|destruct (Z.ltb_spec 0 (o + q)) as [Hn|Hn]].
  - cbn [snd cval]. rewrite cval_cshift_upd, cval_cfalling, oget_upd_same by auto.
    rewrite (upd_eq_val M i _ (v - q - Z.max o 0)) by lia.
    transitivity (gmul (ffall v (Z.to_nat (q + Z.max o 0))) (cval f (upd M i (v - q - Z.max o 0)))).
    + rewrite (ffall_split v (q + Z.max o 0) (o + q) (Z.min q (Z.max (- o) 0))) by lia. ring.
    + rewrite (ffall_split v (q + Z.max o 0) q o) by lia. replace (v - Z.max q 0) with (v - q) by lia. ring.
  - destruct (Z.leb_spec (o + q) 0); [lia|]. cbn [snd cval].
    rewrite cval_cshift_upd, cval_crising, oget_upd_same by auto.
    rewrite (upd_eq_val M i (v - Z.max (o + q) 0) (v - q - Z.max o 0)) by lia.
    replace (Z.min (- q) (Z.max o 0)) with (- q) by lia.
    replace (v - Z.max (o + q) 0 + (o + q) + Z.of_nat (Z.to_nat (- q))) with (v - q) by lia.
    rewrite (ffall_split (v - q) o (- q) (o + q)) by lia.
    replace (v - q - Z.max (- q) 0) with v by lia. replace (Z.to_nat q) with O by lia. cbn [ffall]. ring.
  - destruct (Z.leb_spec (o + q) 0); [|lia]. cbn [snd].
    rewrite cval_cshift_upd by auto. cbn [cval]. rewrite cval_crising, oget_upd_same by auto.
    rewrite (upd_eq_val M i _ (v - q - Z.max o 0)) by lia.
    replace (Z.min (- q) (Z.max o 0)) with (Z.max o 0) by lia.
    replace (v - Z.max (o + q) 0 + (- q - Z.max o 0) + Z.of_nat (Z.to_nat (Z.max o 0))) with (v - q) by lia.
    replace (Z.to_nat (o + q)) with O by lia. replace (Z.to_nat q) with O by lia.
    replace (Z.to_nat (Z.max o 0)) with (Z.to_nat o) by lia. cbn [ffall]. ring.
Qed.

Lemma mulop_inf_fst isbos i q p f : fst (mulop_inf isbos i q (p, f)) = upd p i (oget p i + q).
Proof. unfold mulop_inf. destruct (0 <? q), isbos, (oget p i + q <=? 0); reflexivity. Qed.

Lemma mulop_inf_term ks i q t n :
  (i < length ks)%nat -> length (fst t) = length ks -> length n = length ks ->
  isInf (kget ks i) = true ->
  peq (den_term ks (mulop_inf (isB (kget ks i)) i q t) n) (papp (den_term ks t) (opact ks i q n)).
Proof.
  intros Hi Hp Hn Hk. destruct t as [p f]. cbn [fst] in Hp.
  assert (HF : isF (kget ks i) = false) by (destruct (kget ks i); try discriminate; reflexivity).
  set (o := oget p i). set (v := oget n i).
  rewrite opact_cf by auto. unfold jw. rewrite HF. cbn [andb gsgn].
  unfold papp. cbn [fst snd].
  rewrite (den_term_cf_eq ks (p, f)) by (rewrite ?upd_length; auto).
  rewrite den_term_cf_eq by (rewrite ?mulop_inf_fst, ?upd_length; auto).
  unfold den_term_cf, pscale. cbn [fst snd]. rewrite mulop_inf_fst. fold o v.
  split; cbn [fst snd].
  2:{ rewrite osub_upd_r, osub_upd_l by congruence. fold o v. apply upd_eq_val. lia. }
  destruct (ws_at ks i p n Hi Hp Hn) as [R [Pb [Sg [HW _]]]].
  pose proof (HW (o + q) v) as E1. pose proof (HW o (v - q)) as E2.
  unfold o at 2 in E2. unfold v at 1 in E1. rewrite upd_same, HF, andb_false_r in E1, E2.
  cbn [andb gsgn] in E1, E2. rewrite E1, E2.
  rewrite omid_upd_r, omid_upd_l by congruence. fold o v.
  set (M := omid n p).
  assert (HM : (i < length M)%nat) by (subst M; rewrite omid_length; congruence).
  assert (Hs : forall bb, snd (mulop_inf bb i q (p, f)) = snd (mulop_inf bb i q (upd M i o, f))).
  { intros bb. unfold mulop_inf. fold o. rewrite oget_upd_same by auto. destruct (0 <? q), (o + q <=? 0); reflexivity. }
  rewrite Hs.
  destruct (kget ks i); try discriminate; cbn [isB wloc].
  - transitivity (gmul R (gmul (ffall v (Z.to_nat (o + q)))
                    (cval (snd (mulop_inf true i q (upd M i o, f))) (upd M i (v - Z.max (o + q) 0))))); [ring|].
    rewrite (inf_core_boson i q o v f M HM). ring.
  - rewrite (inf_core_ladder i q o v f M HM). ring.
Qed.

(** * The spin / fermion branch of [_multiply_op] *)
Definition bin_coeff (i : nat) (q o : Z) (f : cexpr) : cexpr :=
  if q =? 1
  then let f0 := cset i 0 f in if o =? 0 then f0 else CMul (CNum i) f0
  else let f0 := cset i (if o =? 0 then 1 else 0) f in
       if o =? 0 then f0 else CMul (CAdd (CConst g1) (CNeg (CNum i))) f0.

Lemma bin_local i q o v f M Pb :
  (i < length M)%nat -> (v = 0 \/ v = 1) -> (q = 1 \/ q = -1) -> Z.abs (o + q) <= 1 -> Z.abs o <= 1 ->
  geq (gmul (gmul (wloc Fermion (o + q) v) (gsgn ((v - Z.max (o + q) 0 =? 1) && Pb)))
            (cval (bin_coeff i q o f) (upd M i (v - Z.max (o + q) 0))))
      (gmul (gmul (gsgn (if (o =? 1) || (o + q =? 1) then false else Pb))
                  (gmul (wloc Fermion o (v - q)) (gsgn ((v - q - Z.max o 0 =? 1) && Pb))))
            (gmul (wloc Fermion q v) (cval f (upd M i (v - q - Z.max o 0))))).
Proof.
  intros Hi Hv Hq Hn Ho.
  assert (Hset : forall c a, geq (cval (cset i c f) (upd M i a)) (cval f (upd M i c))).
  { intros c a. rewrite cval_cset by (rewrite upd_length; auto). rewrite upd_upd. reflexivity. }
  assert (Hnum : forall a, cval (CNum i) (upd M i a) = gz a).
  { intros a. cbn [cval]. rewrite oget_upd_same by auto. reflexivity. }
  unfold bin_coeff.
  destruct Hq as [Hq|Hq]; subst q.
  - (* annihilation *)
    assert (Hoo : o = 0 \/ o = -1) by lia.
    destruct Hoo as [Hoo|Hoo]; subst o; cbn [Z.eqb Z.add Z.max Z.compare orb Z.opp Pos.eqb Z.sub Z.pos_sub].
    + rewrite Hset. destruct Hv; subst v; cbn [wloc Z.eqb gind Z.sub Z.add Z.opp Z.pos_sub andb gsgn Pos.eqb]; ring.
    + cbn [cval]. rewrite Hset, oget_upd_same by auto.
      destruct Hv; subst v; cbn [wloc Z.eqb gind Z.sub Z.add Z.opp Z.pos_sub andb gsgn Pos.eqb];
        destruct Pb; cbn [gsgn]; rewrite ?gz_0, ?gz_1; ring.
  - assert (Hoo : o = 0 \/ o = 1) by lia.
    destruct Hoo as [Hoo|Hoo]; subst o; cbn [Z.eqb Z.add Z.max Z.compare orb Z.opp Pos.eqb Z.sub Z.pos_sub].
    + rewrite Hset. destruct Hv; subst v; cbn [wloc Z.eqb gind Z.sub Z.add Z.opp Z.pos_sub andb gsgn Pos.eqb];
        destruct Pb; cbn [gsgn]; ring.
    + cbn [cval]. rewrite Hset, oget_upd_same by auto.
      destruct Hv; subst v; cbn [wloc Z.eqb gind Z.sub Z.add Z.opp Z.pos_sub andb gsgn Pos.eqb];
        destruct Pb; cbn [gsgn]; rewrite ?gz_0, ?gz_1; ring.
Qed.

(** ** the spin / fermion branch on one term, with the kind-based sign *)
Definition mulop_bin_sem (ks : sig) (i : nat) (q : Z) (t : term) : option term :=
  let (p, f) := t in
  let o := oget p i in
  let new := o + q in
  if 1 <? Z.abs new then None else
  let f1 := bin_coeff i q o f in
  Some (upd p i new, if isF (kget ks i) && code_sign ks p i o new then CNeg f1 else f1).

Lemma wloc_bin_nil q o v :
  (v = 0 \/ v = 1) -> (q = 1 \/ q = -1) -> 1 < Z.abs (o + q) ->
  geq (gmul (wloc Fermion q v) (wloc Fermion o (v - q))) g0.
Proof.
  intros Hv Hq Hn.
  destruct (wloc_bin_cases Fermion o (v - q) eq_refl) as [Hz|[_ Hc]]; [rewrite Hz; ring|lia].
Qed.

Lemma mulop_bin_sem_term ks i q t n :
  (i < length ks)%nat -> length (fst t) = length ks -> length n = length ks ->
  isInf (kget ks i) = false ->
  Z.abs (oget (fst t) i) <= 1 ->
  (oget n i = 0 \/ oget n i = 1) -> (q = 1 \/ q = -1) ->
  match mulop_bin_sem ks i q t with
  | Some t' => peq (den_term ks t' n) (papp (den_term ks t) (opact ks i q n))
  | None => geq (fst (papp (den_term ks t) (opact ks i q n))) g0
  end.
Proof.
  intros Hi Hp Hn Hk Hpo Hv Hq. destruct t as [p f]. cbn [fst] in Hp, Hpo.
  set (o := oget p i) in *. set (v := oget n i) in *.
  unfold mulop_bin_sem. fold o.
  destruct (ws_at ks i p n Hi Hp Hn) as [R [Pb [Sg [HW HS]]]].
  pose proof (HW o (v - q)) as E2. unfold o at 1 in E2. rewrite upd_same, (wloc_bin_eq _ Hk) in E2.
  assert (Hpap : peq (papp (den_term ks (p, f)) (opact ks i q n))
            (gmul (gmul (gsgn (jw ks i n && Z.odd q)) (wloc Fermion q v))
               (gmul (gmul (gmul (gsgn (isF (kget ks i) && Sg && Z.odd o))
                  (gmul (wloc Fermion o (v - q)) (gsgn ((v - q - Z.max o 0 =? 1) && (isF (kget ks i) && Pb))))) R)
                  (cval f (omid (upd n i (v - q)) p))),
             osub (upd n i (v - q)) p)).
  { rewrite opact_cf by auto. unfold papp. cbn [fst snd].
    rewrite (den_term_cf_eq ks (p, f)) by (rewrite ?upd_length; auto).
    unfold den_term_cf, pscale. cbn [fst snd]. fold v.
    split; cbn [fst snd]; [rewrite E2, (wloc_bin_eq _ Hk)|]; reflexivity. }
  clear E2.
  destruct (Z.ltb_spec 1 (Z.abs (o + q))) as [Hnil|Hnew]; rewrite Hpap; clear Hpap.
  - (* nilpotent: the product vanishes *)
    cbn [fst].
    transitivity (gmul (gmul (wloc Fermion q v) (wloc Fermion o (v - q)))
      (gmul (gmul (gsgn (jw ks i n && Z.odd q)) (gmul (gmul (gsgn (isF (kget ks i) && Sg && Z.odd o))
         (gsgn ((v - q - Z.max o 0 =? 1) && (isF (kget ks i) && Pb)))) R)) (cval f (omid (upd n i (v - q)) p)))); [ring|].
    rewrite (wloc_bin_nil q o v Hv Hq Hnil). ring.
  - rewrite den_term_cf_eq by (cbn [fst]; rewrite ?upd_length; auto).
    unfold den_term_cf. cbn [fst snd].
    split; cbn [fst snd].
    2:{ rewrite osub_upd_r, osub_upd_l by congruence. fold o v. apply upd_eq_val. lia. }
    pose proof (HW (o + q) v) as E1. unfold v at 1 in E1. rewrite upd_same, (wloc_bin_eq _ Hk) in E1.
    rewrite E1. clear E1.
    rewrite omid_upd_r, omid_upd_l by congruence. fold o v.
    set (M := omid n p).
    assert (HM : (i < length M)%nat) by (subst M; rewrite omid_length; congruence).
    destruct HS as [HR|[HS HP]]; [rewrite HR; ring|].
    pose proof (bin_local i q o v f M (isF (kget ks i) && Pb) HM Hv Hq ltac:(lia) Hpo) as HL.
    set (A := (o =? 1) || (o + q =? 1)) in *.
    (* the code's sign, the Jordan-Wigner sign and the sign seen by the modes in front *)
    assert (Hcs : isF (kget ks i) && code_sign ks p i o (o + q)
                  = xorb (isF (kget ks i) && cntF 1 ks (firstn i p)) (if A then false else isF (kget ks i) && Pb)).
    { unfold code_sign. fold A. destruct A eqn:EA; [rewrite xorb_false_r; reflexivity|].
      rewrite (cntF_split 1 ks p i), HP by congruence. fold o.
      apply orb_false_iff in EA. rewrite (proj1 EA).
      destruct (isF (kget ks i)), (cntF 1 ks (firstn i p)), (cntF_after 1 ks p i), (cntF_after (-1) ks p i); reflexivity. }
    assert (Hodd : Z.odd q = true /\ Z.odd (o + q) = negb (Z.odd o))
      by (rewrite Z.odd_add; destruct Hq; subst q; split; try reflexivity; destruct (Z.odd o); reflexivity).
    destruct Hodd as [Hq1 Hq2]. rewrite Hq1, Hq2, andb_true_r.
    transitivity (gmul (gmul (gsgn (isF (kget ks i) && Sg && negb (Z.odd o))) (gsgn (isF (kget ks i) && code_sign ks p i o (o + q))))
      (gmul R (gmul (gmul (wloc Fermion (o + q) v) (gsgn ((v - Z.max (o + q) 0 =? 1) && (isF (kget ks i) && Pb))))
                    (cval (bin_coeff i q o f) (upd M i (v - Z.max (o + q) 0)))))).
    { destruct (isF (kget ks i) && code_sign ks p i o (o + q)); cbn [cval gsgn]; ring. }
    rewrite HL, Hcs, HS. unfold jw.
    (* only the signs matter *)
    generalize (wloc Fermion o (v - q)) (gsgn ((v - q - Z.max o 0 =? 1) && (isF (kget ks i) && Pb)))
               (wloc Fermion q v) (cval f (upd M i (v - q - Z.max o 0))).
    intros w1 s0 w2 cf.
    set (fk := isF (kget ks i)). set (C := cntF 1 ks (firstn i p)). set (J := occF (firstn i ks) (firstn i n)).
    set (sA := if A then false else fk && Pb).
    assert (Hb : xorb (xorb (fk && xorb C J && negb (Z.odd o)) (xorb (fk && C) sA)) sA
                 = xorb (fk && J) (fk && xorb C J && Z.odd o))
      by (destruct fk, C, J, (Z.odd o), sA; reflexivity).
    transitivity (gmul (gsgn (xorb (xorb (fk && xorb C J && negb (Z.odd o)) (xorb (fk && C) sA)) sA))
                       (gmul R (gmul (gmul w1 s0) (gmul w2 cf)))); [rewrite !gsgn_xorb; ring|].
    rewrite Hb, gsgn_xorb. ring.
Qed.

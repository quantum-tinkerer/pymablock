(** * Gaussian rationals Q(i) with setoid equality, as a commutative ring with
      conjugation and inverse.  Coefficient field of the NumberOrderedForm model. *)
Require Import Qring Lia.
Open Scope Q_scope.

Record G : Type := mkG { re : Q; im : Q }.

Definition geq (a b : G) : Prop := re a == re b /\ im a == im b.
Definition g0 : G := mkG 0 0.
Definition g1 : G := mkG 1 0.
Definition gi : G := mkG 0 1.
Definition gadd (a b : G) := mkG (re a + re b) (im a + im b).
Definition gmul (a b : G) := mkG (re a * re b - im a * im b) (re a * im b + im a * re b).
Definition gopp (a : G) := mkG (- re a) (- im a).
Definition gsub (a b : G) := gadd a (gopp b).
Definition gconj (a : G) := mkG (re a) (- im a).
Definition gnorm2 (a : G) : Q := re a * re a + im a * im a.
Definition ginv (a : G) := mkG (re a / gnorm2 a) (- im a / gnorm2 a).
Definition gq (q : Q) : G := mkG q 0.
Definition gz (z : Z) : G := mkG (inject_Z z) 0.
Definition geqb (a b : G) : bool := Qeq_bool (re a) (re b) && Qeq_bool (im a) (im b).
Definition gzerob (a : G) : bool := geqb a g0.

Declare Scope G_scope.
Delimit Scope G_scope with G.
Bind Scope G_scope with G.
Infix "==" := geq (at level 70, no associativity) : G_scope.
Infix "+" := gadd : G_scope.
Infix "*" := gmul : G_scope.
Infix "-" := gsub : G_scope.
Notation "- x" := (gopp x) : G_scope.
Notation "0" := g0 : G_scope.
Notation "1" := g1 : G_scope.

#[global] Instance geq_Equivalence : Equivalence geq.
Proof.
  split.
  - intros a; split; reflexivity.
  - intros a b [? ?]; split; symmetry; auto.
  - intros a b c [? ?] [? ?]; split; etransitivity; eauto.
Qed.

#[global] Instance gadd_Proper : Proper (geq ==> geq ==> geq) gadd.
Proof. intros a b [H1 H2] c d [H3 H4]; split; cbn; rewrite ?H1, ?H2, ?H3, ?H4; reflexivity. Qed.
#[global] Instance gmul_Proper : Proper (geq ==> geq ==> geq) gmul.
Proof. intros a b [H1 H2] c d [H3 H4]; split; cbn; rewrite ?H1, ?H2, ?H3, ?H4; reflexivity. Qed.
#[global] Instance gopp_Proper : Proper (geq ==> geq) gopp.
Proof. intros a b [H1 H2]; split; cbn; rewrite ?H1, ?H2; reflexivity. Qed.
#[global] Instance gsub_Proper : Proper (geq ==> geq ==> geq) gsub.
Proof. intros a b H c d H'; unfold gsub; rewrite H, H'; reflexivity. Qed.
#[global] Instance gconj_Proper : Proper (geq ==> geq) gconj.
Proof. intros a b [H1 H2]; split; cbn; rewrite ?H1, ?H2; reflexivity. Qed.
#[global] Instance gnorm2_Proper : Proper (geq ==> Qeq) gnorm2.
Proof. intros a b [H1 H2]; unfold gnorm2; rewrite H1, H2; reflexivity. Qed.
#[global] Instance ginv_Proper : Proper (geq ==> geq) ginv.
Proof.
  intros a b H. pose proof (gnorm2_Proper _ _ H) as Hn. destruct H as [H1 H2].
  split; cbn; rewrite ?H1, ?H2, ?Hn; reflexivity.
Qed.

Lemma G_ring_theory : ring_theory g0 g1 gadd gmul gsub gopp geq.
Proof.
  constructor; intros; split; cbn; try ring.
Qed.

Add Ring Gring : G_ring_theory.

Lemma geqb_spec a b : geqb a b = true <-> geq a b.
Proof.
  unfold geqb, geq. rewrite Bool.andb_true_iff, !Qeq_bool_iff. tauto.
Qed.
Lemma geq_dec a b : {geq a b} + {~ geq a b}.
Proof.
  destruct (geqb a b) eqn:E; [left; apply geqb_spec; auto|right].
  intro H. apply geqb_spec in H. congruence.
Qed.

Lemma gnorm2_zero a : gnorm2 a == 0 -> geq a g0.
Proof.
  unfold gnorm2. intros H.
  assert (H1 : 0 <= re a * re a) by (destruct (re a) as [[|p|p] d]; unfold Qle, Qmult; cbn; lia).
  assert (H2 : 0 <= im a * im a) by (destruct (im a) as [[|p|p] d]; unfold Qle, Qmult; cbn; lia).
  assert (Ha : re a * re a == 0).
  { apply Qle_antisym; auto. rewrite <- H. rewrite <- (Qplus_0_r (re a * re a)) at 1.
    apply Qplus_le_r. auto. }
  assert (Hb : im a * im a == 0).
  { apply Qle_antisym; auto. rewrite <- H. rewrite <- (Qplus_0_l (im a * im a)) at 1.
    apply Qplus_le_l. auto. }
  split; cbn.
  - apply Qmult_integral in Ha. tauto.
  - apply Qmult_integral in Hb. tauto.
Qed.

Lemma gmul_inv_r a : ~ geq a g0 -> geq (gmul a (ginv a)) g1.
Proof.
  intros Hn.
  assert (Hz : ~ gnorm2 a == 0) by (intro Hz; apply Hn, gnorm2_zero; auto).
  split; cbn [re im gmul ginv g1]; unfold Qdiv.
  - setoid_replace (re a * (re a * / gnorm2 a) - im a * (- im a * / gnorm2 a)) with (gnorm2 a * / gnorm2 a)
      by (unfold gnorm2; ring).
    apply Qmult_inv_r, Hz.
  - ring.
Qed.

(** G is an integral domain *)
Lemma gmul_cancel_r a b c : ~ geq c g0 -> geq (gmul a c) (gmul b c) -> geq a b.
Proof.
  intros Hc H. pose proof (gmul_inv_r c Hc) as HI.
  transitivity (gmul (gmul a c) (ginv c)).
  - transitivity (gmul a (gmul c (ginv c))); [rewrite HI; ring|ring].
  - rewrite H. transitivity (gmul b (gmul c (ginv c))); [ring|rewrite HI; ring].
Qed.
Lemma gmul_nonzero a b : ~ geq a g0 -> ~ geq b g0 -> ~ geq (gmul a b) g0.
Proof.
  intros Ha Hb H. apply Ha. apply (gmul_cancel_r a g0 b Hb). rewrite H. ring.
Qed.
Lemma g1_nonzero : ~ geq g1 g0.
Proof. intros [H _]. cbn in H. discriminate H. Qed.

Lemma gz_add x y : geq (gz (x + y)) (gadd (gz x) (gz y)).
Proof. split; cbn; rewrite ?inject_Z_plus; ring. Qed.
Lemma gz_mul x y : geq (gz (x * y)) (gmul (gz x) (gz y)).
Proof. split; cbn; rewrite ?inject_Z_mult; ring. Qed.
Lemma gz_opp x : geq (gz (- x)) (gopp (gz x)).
Proof. split; cbn; rewrite ?inject_Z_opp; ring. Qed.
Lemma gz_sub x y : geq (gz (x - y)) (gsub (gz x) (gz y)).
Proof. unfold Z.sub. rewrite gz_add, gz_opp. reflexivity. Qed.
Lemma gz_0 : geq (gz 0) g0. Proof. split; reflexivity. Qed.
Lemma gz_1 : geq (gz 1) g1. Proof. split; reflexivity. Qed.

Lemma gconj_add a b : geq (gconj (gadd a b)) (gadd (gconj a) (gconj b)).
Proof. split; cbn; ring. Qed.
Lemma gconj_mul a b : geq (gconj (gmul a b)) (gmul (gconj a) (gconj b)).
Proof. split; cbn; ring. Qed.
Lemma gconj_opp a : geq (gconj (gopp a)) (gopp (gconj a)).
Proof. split; cbn; ring. Qed.
Lemma gconj_inv a : geq (gconj (ginv a)) (ginv (gconj a)).
Proof.
  assert (E : gnorm2 (gconj a) == gnorm2 a) by (unfold gnorm2, gconj; cbn [re im]; ring).
  unfold ginv; split; cbn [re im gconj]; fold (gconj a); rewrite E.
  - reflexivity.
  - unfold Qdiv. ring.
Qed.
Lemma gconj_gz z : geq (gconj (gz z)) (gz z).
Proof. split; cbn; ring. Qed.
Lemma gconj_invol a : geq (gconj (gconj a)) a.
Proof. split; cbn; ring. Qed.
Lemma gconj_0 : geq (gconj g0) g0. Proof. split; cbn; ring. Qed.
Lemma gconj_1 : geq (gconj g1) g1. Proof. split; cbn; ring. Qed.

Lemma gz_nonzero z : z <> 0%Z -> ~ geq (gz z) g0.
Proof.
  intros Hz [H _]. cbn in H. apply Hz.
  unfold Qeq in H. cbn in H. lia.
Qed.

Definition gsgn (b : bool) : G := if b then gopp g1 else g1.
Lemma gsgn_xorb a b : geq (gsgn (xorb a b)) (gmul (gsgn a) (gsgn b)).
Proof. destruct a, b; cbn; ring. Qed.
Lemma gsgn_andb_xorb a P Q : geq (gsgn (a && xorb P Q)) (gmul (gsgn (a && P)) (gsgn (a && Q))).
Proof. destruct a; [apply gsgn_xorb|cbn; ring]. Qed.
Lemma gsgn_sq b : geq (gmul (gsgn b) (gsgn b)) g1.
Proof. destruct b; cbn; ring. Qed.
Lemma gconj_gsgn b : geq (gconj (gsgn b)) (gsgn b).
Proof. destruct b; split; cbn; ring. Qed.

Definition gind (b : bool) : G := if b then g1 else g0.

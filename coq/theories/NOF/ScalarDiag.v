(** * [solve_scalar] with [diagonal=True]: only the terms with lexicographically negative
      powers are solved, the rest is minus the adjoint of the result. *)
Require Import List QArith Lia.
Require Import PV.NOF.Gauss PV.NOF.Coeff PV.NOF.Fock PV.NOF.FockLemmas PV.NOF.LinComb PV.NOF.Model PV.NOF.NofProof PV.NOF.NofProof2 PV.NOF.SolveScalar PV.NOF.ScalarProof.
Local Open Scope Z_scope.

Definition yneg (y : nof) : nof := filter (fun t : term => lex_neg (fst t)) y.

Lemma solve_terms_diag ks h y : solve_terms ks h h true y = solve_terms ks h h false (yneg y).
Proof.
  unfold solve_terms, yneg. f_equal.
  induction y as [|[p c] y IH]; [reflexivity|]. cbn [flat_map filter fst]. unfold solve_term at 1.
  destruct (lex_neg p) eqn:E; cbn [negb andb flat_map app].
  - unfold solve_term at 2. rewrite E. cbn [negb andb app]. rewrite IH. reflexivity.
  - exact IH.
Qed.

Lemma yneg_wf ks y : wf_nof ks y -> wf_nof ks (yneg y).
Proof. apply (sel_wf (fun p => lex_neg p)). Qed.

(** adjoint of a term whose coefficient was changed in a value-preserving way *)
Lemma adj_term_coeff ks p f f' n :
  length p = length ks -> length n = length ks ->
  (~ geq (ws ks (map Z.opp p) n) g0 -> geq (cval f' (omid n (map Z.opp p))) (cval f (omid n (map Z.opp p)))) ->
  peq (den_term ks (map Z.opp p, cconj f') n) (den_term ks (map Z.opp p, cconj f) n).
Proof.
  intros Hp Hn H. apply den_term_coeff1; auto; [rewrite map_length; auto|].
  intros Hnz. rewrite !cval_cconj, (H Hnz). reflexivity.
Qed.



Theorem adj_cancel_correct ks x n :
  sig_ok ks = true -> wf_nof ks x -> length n = length ks ->
  lc_eq (den ks (adj (cancel_binary ks x)) n) (den ks (adj x) n).
Proof.
  intros Hs W Hn. destruct (cancel_binary_eq ks x W) as [_ [E|E]]; rewrite E; [reflexivity|].
  destruct W as [_ Hw]. rewrite Forall_forall in Hw.
  unfold adj. rewrite map_omap, den_map. apply den_omap. intros [p f] Ht.
  pose proof (pow_ok_length _ _ (Hw _ Ht)) as Hp. cbn [fst] in Hp.
  assert (HT : peq (den_term ks (map Z.opp p, cconj (cancel_coeff ks (p, f))) n)
                   (den_term ks (map Z.opp p, cconj f) n)).
  { apply adj_term_coeff; auto. apply cancel_coeff_mid; auto; [rewrite map_length; auto|].
    intros j. rewrite oget_map_opp. lia. }
  unfold cancel_term. cbn [fst snd]. destruct (csyn0 _) eqn:Ez; cbn [option_map fst snd]; [|exact HT].
  rewrite <- HT, den_term_cf_eq by (cbn [fst]; rewrite ?map_length; auto). cbn [den_term_cf fst snd].
  rewrite cval_cconj, (csyn0_sound _ _ Ez), gconj_0. ring.
Qed.

Theorem adj_linearize_correct ks x n :
  sig_ok ks = true -> wf_nof ks x -> bok ks n ->
  lc_eq (den ks (adj (linearize ks x)) n) (den ks (adj x) n).
Proof.
  intros Hs W Hb. destruct (linearize_eq ks x W) as [E|E]; rewrite E; [reflexivity|].
  destruct W as [_ Hw]. rewrite Forall_forall in Hw.
  unfold adj. rewrite !den_map, map_map. apply lc_eq_map. intros [p f] Ht. cbn [fst snd].
  pose proof (pow_ok_length _ _ (Hw _ Ht)) as Hp. cbn [fst] in Hp.
  apply adj_term_coeff; auto; [apply bok_length, Hb|].
  apply cval_linearized; auto. rewrite map_length. exact Hp.
Qed.

(** ** commutator with a number-conserving H *)
Definition comm (ks : sig) (h : cexpr) (z : nof) (n : list Z) : lincomb :=
  lc_bind (den ks z n) (den ks (hnof ks h)) ++ lc_scale (gopp g1) (lc_bind (den ks (hnof ks h) n) (den ks z)).

Lemma comm_simpl ks h z n :
  lc_eq (comm ks h z n)
        (lc_bind (den ks z n) (den ks (hnof ks h)) ++ lc_scale (gopp (cval h n)) (den ks z n)).
Proof.
  unfold comm. rewrite (lc_bind_Proper_l _ _ _ (den_zeros ks h n)).
  rewrite lc_bind_single. unfold lapp. cbn [fst snd]. rewrite lc_scale_scale.
  apply app_lc_Proper; [reflexivity|]. apply lc_scale_Proper; [ring|reflexivity].
Qed.

Lemma comm_congr ks h z z' n : lc_eq (den ks z n) (den ks z' n) -> lc_eq (comm ks h z n) (comm ks h z' n).
Proof.
  intros H. rewrite !comm_simpl. rewrite (lc_bind_Proper_l _ _ _ H), H. reflexivity.
Qed.

Lemma comm_sub ks h a b n :
  lc_eq (comm ks h (sub a b) n) (comm ks h a n ++ lc_scale (gopp g1) (comm ks h b n)).
Proof.
  rewrite !comm_simpl.
  assert (HS : lc_eq (den ks (sub a b) n) (den ks a n ++ lc_scale (gopp g1) (den ks b n))).
  { unfold sub. rewrite add_correct, neg_correct. reflexivity. }
  rewrite (lc_bind_Proper_l _ _ _ HS), HS. rewrite lc_bind_app, lc_bind_scale.
  intros m. rewrite !coef_at_app, !coef_at_scale, !coef_at_app, !coef_at_scale. ring.
Qed.

(** the two shifts are exchanged by negating the powers *)

Lemma shift_cre_opp ks p h : shift_cre ks p h = shift_ann ks (map Z.opp p) h.
Proof.
  unfold shift_cre, shift_ann. apply csubst_ext. intros j. cbv zeta. rewrite oget_map_opp.
  destruct (Z.ltb_spec (oget p j) 0), (Z.ltb_spec 0 (- oget p j)); try lia; reflexivity.
Qed.
Lemma shift_ann_opp ks p h : shift_ann ks p h = shift_cre ks (map Z.opp p) h.
Proof.
  unfold shift_cre, shift_ann. apply csubst_ext. intros j. cbv zeta. rewrite oget_map_opp.
  destruct (Z.ltb_spec 0 (oget p j)), (Z.ltb_spec (- oget p j) 0); try lia; try reflexivity.
  rewrite Z.opp_involutive. reflexivity.
Qed.

Definition creal (h : cexpr) : Prop := forall M, geq (gconj (cval h M)) (cval h M).
Definition denom_ok_adj (ks : sig) (h : cexpr) (y : nof) (n : list Z) : Prop :=
  forall t, In t y -> geq (ws ks (map Z.opp (fst t)) n) g0
                      \/ ~ geq (cval (denominator ks h h (fst t)) (omid n (map Z.opp (fst t)))) g0.

Lemma gconj_ginv_real d : geq (gconj d) d -> geq (gconj (ginv d)) (ginv d).
Proof. intros H. rewrite gconj_inv, H. reflexivity. Qed.

Lemma solve_coeff_adj_ok ks h p c n :
  creal h -> length p = length ks -> length n = length ks ->
  ~ geq (ws ks (map Z.opp p) n) g0 ->
  ~ geq (cval (denominator ks h h p) (omid n (map Z.opp p))) g0 ->
  geq (gmul (cval (cconj (solve_coeff ks h h (p, c))) (omid n (map Z.opp p)))
            (gsub (cval h (osub n (map Z.opp p))) (cval h n)))
      (cval (CNeg (cconj c)) (omid n (map Z.opp p))).
Proof.
  intros Hr Hp Hn Hnz Hd. unfold creal in Hr.
  assert (Hp' : length (map Z.opp p) = length ks) by (rewrite map_length; auto).
  set (M := omid n (map Z.opp p)) in *.
  unfold solve_coeff. cbn [fst snd]. rewrite cval_cconj. cbn [cval]. rewrite cval_cconj.
  pose proof (shift_cre_ok ks (map Z.opp p) n h Hp' Hn Hnz) as H1.
  pose proof (shift_ann_ok ks (map Z.opp p) n h Hp' Hn Hnz) as H2.
  rewrite <- shift_ann_opp in H1. rewrite <- shift_cre_opp in H2. fold M in H1, H2.
  set (D := cval (denominator ks h h p) M) in *.
  pose proof (gmul_inv_r D Hd) as HI.
  assert (HDr : geq (gconj D) D).
  { subst D. unfold denominator. destruct (lex_neg p); cbn [cval];
    rewrite gconj_add, gconj_opp, H1, H2, !Hr; reflexivity. }
  rewrite !gconj_mul, (gconj_ginv_real D HDr).
  unfold denominator in D. destruct (lex_neg p); cbn [cval] in D.
  - assert (E : geq (gsub (cval h (osub n (map Z.opp p))) (cval h n)) D).
    { subst D. rewrite H1, H2. ring. }
    rewrite E. assert (Es : geq (gconj (gopp g1)) (gopp g1)) by (rewrite gconj_opp, gconj_1; reflexivity).
    rewrite Es.
    transitivity (gmul (gmul D (ginv D)) (gopp (gconj (cval c M)))); [ring|]. rewrite HI. ring.
  - assert (E : geq (gsub (cval h (osub n (map Z.opp p))) (cval h n)) (gopp D)).
    { subst D. rewrite H1, H2. ring. }
    rewrite E. rewrite gconj_1.
    transitivity (gmul (gmul D (ginv D)) (gopp (gconj (cval c M)))); [ring|]. rewrite HI. ring.
Qed.

(** C16_scalar, diagonal elements ([diagonal=True], H_ii = H_jj = H real):
    [H, X] = Y_neg + Y_neg†, where Y_neg collects the terms of Y with lexicographically negative
    powers (for a Hermitian Y this is Y minus its zero-shift term, which the code leaves out) *)
Theorem solve_scalar_diag_correct ks y h n :
  sig_ok ks = true -> wf_nof ks y -> bok ks n -> creal h ->
  denom_ok ks h h (yneg y) n -> denom_ok_adj ks h (yneg y) n ->
  let x := solve_scalar ks y h h true in
  lc_eq (comm ks h x n) (den ks (yneg y) n ++ den ks (adj (yneg y)) n).
Proof.
  intros Hs Hwf Hb Hr Hd1 Hd2 x. pose proof (bok_length _ _ Hb) as Hn.
  pose proof (yneg_wf ks y Hwf) as Wy.
  unfold solve_scalar in x. subst x. rewrite solve_terms_diag.
  set (x1 := solve_terms ks h h false (yneg y)).
  set (x0 := linearize ks (cancel_binary ks x1)).
  rewrite comm_sub.
  (* first part: the off-diagonal theorem on Y_neg *)
  pose proof (solve_scalar_offdiag_correct ks (yneg y) h h n Hs Wy Hb Hd1) as [HC _].
  cbv zeta in HC. unfold solve_scalar in HC. fold x1 x0 in HC. fold (comm ks h x0 n) in HC.
  rewrite HC.
  apply app_lc_Proper; [reflexivity|].
  (* second part *)
  assert (W1 : wf_nof ks x1) by (unfold x1; rewrite solve_terms_offdiag by exact Wy; apply wf_map_coeff, Wy).
  destruct (cancel_binary_eq ks x1 W1) as [W2 _].
  assert (HA : lc_eq (den ks (adj x0) n) (den ks (adj x1) n)).
  { unfold x0. rewrite adj_linearize_correct by auto. apply adj_cancel_correct; auto. }
  rewrite (comm_congr ks h _ _ n HA).
  rewrite comm_simpl. unfold x1. rewrite solve_terms_offdiag by exact Wy. unfold adj. rewrite !map_map. cbn [fst snd].
  rewrite !den_map. unfold den.
  assert (HT : lc_eq
    (lc_bind (map (fun t : term => den_term ks (map Z.opp (fst t), cconj (solve_coeff ks h h t)) n) (yneg y))
             (den ks (hnof ks h))
     ++ lc_scale (gopp (cval h n))
          (map (fun t : term => den_term ks (map Z.opp (fst t), cconj (solve_coeff ks h h t)) n) (yneg y)))
    (map (fun t : term => den_term ks (map Z.opp (fst t), CNeg (cconj (snd t))) n) (yneg y))).
  { apply comm_sum. intros [p c] Ht. cbn [fst snd].
    destruct Wy as [_ Wy2]. rewrite Forall_forall in Wy2.
    pose proof (pow_ok_length _ _ (Wy2 _ Ht)) as Hp. cbn [fst] in Hp.
    assert (Hp' : length (map Z.opp p) = length ks) by (rewrite map_length; auto).
    rewrite <- (comm_term ks (map Z.opp p) (CNeg (cconj c)) (cconj (solve_coeff ks h h (p, c))) h h n Hp' Hn).
    - apply app_lc_Proper; [reflexivity|].
      unfold lapp. cbn [fst snd]. rewrite lc_scale_scale.
      apply lc_scale_Proper; [ring|reflexivity].
    - intros Hnz. destruct (Hd2 _ Ht) as [Hz|Hd]; [contradiction|]. cbn [fst] in Hd.
      apply solve_coeff_adj_ok; auto. }
  rewrite HT.
  (* -(Y_neg†) *)
  unfold lc_scale. rewrite map_map. apply lc_eq_map. intros [p c] _. cbn [fst snd].
  symmetry. apply den_term_scale. intros M. cbn [cval]. ring.
Qed.

(* Spectrum/CharPolyExecCorrect.v - the list-based algorithms of CharPolyExec.v compute
   MathComp's [\det] and [char_poly].

   Generic statement: let K : Ops A be any operation record and phi : A -> R a map into a
   commutative ring that commutes with the operations ([ops_hom]).  Then
     [det_hom]      phi (det K n M) = \det (matrix of the phi-images of M)
     [charpoly_hom] Poly (map phi (charpoly K n M)) = char_poly (matrix of phi-images)
   for well-formed n x n lists of rows, and [poly_ops_hom]: the polynomial operations on
   coefficient lists are again such a record (phi := Poly o map phi), so the statement
   iterates (Qx, then polynomials over Qx).

   What remains unproved for the tie is said at the head of CharPolyExec.v. *)

From mathcomp Require Import ssreflect ssrfun ssrbool eqtype ssrnat seq fintype bigop.
From mathcomp Require Import ssralg poly matrix mxpoly.
From PV Require Import Spectrum.CharPoly Spectrum.CharPolyExec.
Set Implicit Arguments.
Unset Strict Implicit.
Unset Printing Implicit Defensive.
Import GRing.Theory.
Local Open Scope ring_scope.

Record ops_hom (A : Type) (K : Ops A) (R : comRingType) (phi : A -> R) := OpsHom {
  h_0 : phi (o0 K) = 0;
  h_1 : phi (o1 K) = 1;
  h_add : forall a b, phi (oadd K a b) = phi a + phi b;
  h_mul : forall a b, phi (omul K a b) = phi a * phi b;
  h_opp : forall a, phi (oopp K a) = - phi a;
  h_eqb : forall a b, oeqb K a b = true -> phi a = phi b }.

(* the ring operations of a comRingType, phi = id *)
Definition ROps (R : comRingType) : Ops R :=
  MkOps (0 : R) 1 +%R *%R -%R (fun a b => a == b).

Lemma ROps_hom (R : comRingType) : ops_hom (ROps R) (@id R).
Proof. by split=> //= a b /eqP. Qed.

Section Hom.
Variables (A : Type) (K : Ops A) (R : comRingType) (phi : A -> R).
Hypothesis Hphi : ops_hom K phi.

Definition phiP (l : list A) : {poly R} := Poly (map phi l).

Lemma phiP_cons x l : phiP (x :: l) = phiP l * 'X + (phi x)%:P.
Proof. by rewrite /phiP /= cons_poly_def. Qed.

Lemma phiP_add a b : phiP (padd K a b) = phiP a + phiP b.
Proof.
elim: a b => [|x a IH] [|y b] //=; rewrite ?add0r ?addr0 //.
rewrite !phiP_cons IH (h_add Hphi) polyCD mulrDl.
by rewrite addrACA.
Qed.

Lemma phiP_scale c b : phiP (pscale K c b) = (phi c)%:P * phiP b.
Proof.
elim: b => [|y b IH] /=; first by rewrite /phiP /= mulr0.
by rewrite !phiP_cons IH (h_mul Hphi) polyCM mulrDr mulrA.
Qed.

Lemma phiP_mul a b : phiP (pmul K a b) = phiP a * phiP b.
Proof.
elim: a => [|x a IH] /=; first by rewrite /phiP /= mul0r.
rewrite phiP_add phiP_scale !phiP_cons IH (h_0 Hphi) addr0 mulrDl addrC.
by congr (_ + _); rewrite -!mulrA [phiP b * _]mulrC.
Qed.

Lemma phiP_opp a : phiP (popp K a) = - phiP a.
Proof.
elim: a => [|x a IH] /=; first by rewrite /phiP /= oppr0.
by rewrite !phiP_cons IH (h_opp Hphi) polyCN opprD mulNr.
Qed.

Lemma phiP_all0 a : all0 K a = true -> phiP a = 0.
Proof.
elim: a => [|x a IH] //= /andP[/(h_eqb Hphi) hx /IH ha].
by rewrite phiP_cons ha hx (h_0 Hphi) mul0r add0r.
Qed.

Lemma phiP_eqb a b : peqb K a b = true -> phiP a = phiP b.
Proof.
elim: a b => [|x a IH] [|y b] //.
- by move=> h; rewrite (@phiP_all0 (y :: b) h).
- move=> /= /andP[/(h_eqb Hphi) hx /phiP_all0 ha].
  by rewrite phiP_cons ha hx (h_0 Hphi) mul0r add0r.
- by move=> /= /andP[/(h_eqb Hphi) hx /IH ha]; rewrite !phiP_cons ha hx.
Qed.

Lemma poly_ops_hom : ops_hom (poly_ops K) phiP.
Proof.
split=> /=.
- by [].
- by rewrite phiP_cons /phiP /= mul0r add0r (h_1 Hphi).
- exact: phiP_add.
- exact: phiP_mul.
- exact: phiP_opp.
- exact: phiP_eqb.
Qed.

Definition mxl (n : nat) (M : list (list A)) : 'M[R]_n :=
  \matrix_(i, j) phi (nth (o0 K) (nth [::] M i) j).

Definition wf (n : nat) (M : list (list A)) : bool :=
  (size M == n) && all (fun r => size r == n) M.

Lemma Lmap (T U : Type) (f : T -> U) (l : list T) : List.map f l = map f l.
Proof. by elim: l => //= x l ->. Qed.

Lemma nth_remove_nth x0 j (l : list A) k :
  nth x0 (remove_nth j l) k = nth x0 l (bump j k).
Proof.
elim: l j k => [|x l IH] [|j] [|k] //=; rewrite ?nth_nil //.
by rewrite IH bumpS.
Qed.

Lemma size_remove_nth j (l : list A) : (j < size l)%N -> size (remove_nth j l) = (size l).-1.
Proof.
elim: l j => [|x l IH] [|j] //=; rewrite ltnS => h.
by rewrite IH //; case: (size l) h.
Qed.

(* neg is the parity of the position j + k reached so far, hence the sign (-1)^(neg + k) *)
Lemma phi_altsum (r : list A) j neg f m : size r = m ->
  phi (altsum K r j neg f)
  = \sum_(k < m) (-1) ^+ (neg + k) * (phi (nth (o0 K) r k) * phi (f (j + k)%N)).
Proof.
elim: r j neg m => [|x r IH] j neg m /= <-; first by rewrite big_ord0 (h_0 Hphi).
rewrite big_ord_recl (h_add Hphi) /= addn0; congr (_ + _).
  by case: neg; rewrite /= ?(h_opp Hphi) (h_mul Hphi) addn0 ?expr1 ?mulN1r ?expr0 ?mul1r.
rewrite (IH j.+1 (negb neg) (size r)) //; apply: eq_bigr => k _.
rewrite /bump /= add1n addSnnS; congr (_ * _).
by rewrite addnS exprS; case: neg; rewrite /= ?add0n ?add1n ?exprS ?mulN1r ?opprK.
Qed.

Lemma det_hom n M : wf n M -> phi (det K n M) = \det (mxl n M).
Proof.
elim: n M => [|n IH] M; first by rewrite det_mx00 /= (h_1 Hphi).
case: M => [|r rest] //; rewrite /wf /= eqSS => /andP[/eqP sz /andP[/eqP szr hall]].
rewrite (phi_altsum _ _ _ szr) (expand_det_row _ ord0); apply: eq_bigr => k _.
rewrite /= add0n !mxE /= /cofactor mulrCA Lmap; congr (_ * (_ * _)).
rewrite IH; last first.
  rewrite /wf size_map sz eqxx /=; apply/(all_nthP [::]) => i; rewrite size_map => ir.
  have /eqP sl := (all_nthP [::] hall) i ir.
  by rewrite (nth_map [::]) // size_remove_nth sl.
congr (\det _); apply/matrixP => i j; rewrite !mxE /=.
by rewrite (nth_map [::]) ?sz // nth_remove_nth.
Qed.

Definition ent (l : list A) (j : nat) : R := phi (nth (o0 K) l j).

Lemma ent_nil j : ent [::] j = 0.
Proof. by rewrite /ent nth_nil (h_0 Hphi). Qed.

(* a row read as a polynomial: its entries are the coefficients *)
Lemma entE l j : ent l j = (phiP l)`_j.
Proof.
rewrite /ent /phiP coef_Poly; case: (ltnP j (size l)) => h.
  by rewrite (nth_map (o0 K)).
by rewrite !nth_default ?size_map // (h_0 Hphi).
Qed.

Lemma ent_padd a b j : ent (padd K a b) j = ent a j + ent b j.
Proof. by rewrite !entE phiP_add coefD. Qed.

Lemma ent_scale c r j : ent (pscale K c r) j = phi c * ent r j.
Proof. by rewrite !entE phiP_scale coefCM. Qed.

Lemma ent_zero (T : Type) (l : list T) j : ent (List.map (fun _ => o0 K) l) j = 0.
Proof.
elim: l j => [|y l IH] [|j]; rewrite /= ?ent_nil //; first exact: (h_0 Hphi).
exact: IH.
Qed.

Lemma ent_lincomb cs rows zero j : ent zero j = 0 ->
  ent (lincomb K cs rows zero) j
  = \sum_(t < size cs) phi (nth (o0 K) cs t) * ent (nth [::] rows t) j.
Proof.
move=> hz; elim: cs rows => [|c cs IH] [|r rows] /=.
- by rewrite big_ord0.
- by rewrite big_ord0.
- by rewrite hz big1 // => t _; rewrite nth_nil ent_nil mulr0.
- by rewrite /vadd ent_padd -/(pscale K c r) ent_scale big_ord_recl /= IH.
Qed.

Lemma size_padd a b : size (padd K a b) = maxn (size a) (size b).
Proof.
by elim: a b => [|x a IH] [|y b] //=; rewrite ?IH ?maxnSS ?max0n ?maxn0.
Qed.

Lemma size_lincomb cs rows zero p : size zero = p ->
  all (fun r => size r == p) rows -> size (lincomb K cs rows zero) = p.
Proof.
move=> hz; elim: cs rows => [|c cs IH] [|r rows] //= /andP[/eqP sr hall].
by rewrite /vadd size_padd Lmap size_map sr IH // maxnn.
Qed.

Lemma size_hd n P : wf n P -> size (List.hd [::] P) = n.
Proof. by case: P => [|r P] /andP[/eqP <- //=] /andP[/eqP]. Qed.

Lemma wf_mmul n M P : wf n M -> wf n P -> wf n (mmul K M P).
Proof.
move=> /andP[sM hM] wP; have [_ hP] := andP wP.
rewrite /wf /mmul Lmap size_map sM /= all_map; apply/(all_nthP [::]) => i _ /=.
by rewrite (@size_lincomb _ _ _ n) // Lmap size_map (size_hd wP).
Qed.

Lemma mxl_mmul n M P : wf n M -> mxl n (mmul K M P) = mxl n M *m mxl n P.
Proof.
move=> /andP[/eqP sM hM]; apply/matrixP => i j; rewrite !mxE.
have iM : (i < size M)%N by rewrite sM.
have /eqP sr := (all_nthP [::] hM) i iM.
rewrite /mmul Lmap (nth_map [::]) // -/(ent _ _) ent_lincomb ?ent_zero // sr.
by apply: eq_bigr => t _; rewrite !mxE.
Qed.

Lemma Lseq a n : List.seq a n = iota a n.
Proof. by elim: n a => //= n IH a; rewrite IH. Qed.

Lemma ent_unit_row oi n j : (j < n)%N -> ent (unit_row K oi n) j = (oi == Some j)%:R.
Proof.
elim: n oi j => [|n IH] oi j //.
case: oi => [[|i]|]; case: j => [|j] //=; rewrite ?ltnS /ent /= ?(h_0 Hphi) ?(h_1 Hphi) //;
  by move/IH; rewrite /ent => ->.
Qed.

Lemma mxl_ident n : mxl n (ident K n) = 1%:M.
Proof.
apply/matrixP => i j; rewrite !mxE /ident Lmap Lseq (nth_map 0%N) ?size_iota //.
by rewrite nth_iota // add0n -/(ent _ _) ent_unit_row.
Qed.

Lemma wf_ident n : wf n (ident K n).
Proof.
rewrite /wf /ident Lmap Lseq size_map size_iota eqxx /= all_map.
apply/(all_nthP 0%N) => i _ /=; move: (Some _) => oi.
by elim: n oi => [|n IH] [[|k]|] //=; rewrite eqSS.
Qed.

Lemma nth_cp_row (oi : option nat) (r : list A) j : (j < size r)%N ->
  nth [::] (cp_row K oi r) j
  = if oi == Some j then [:: oopp K (nth (o0 K) r j); o1 K]
    else [:: oopp K (nth (o0 K) r j)].
Proof.
elim: r oi j => [|a r IH] oi j //=.
case: oi => [[|i]|]; case: j => [|j] //=; rewrite ltnS => /IH -> //.
Qed.

Lemma size_cp_row oi (r : list A) : size (cp_row K oi r) = size r.
Proof. by elim: r oi => [|a r IH] [[|i]|] //=; rewrite IH. Qed.

Lemma nth_cp_rows i0 (M : list (list A)) i :
  nth [::] (cp_rows K i0 M) i = if (i < size M)%N then cp_row K (Some (i0 + i)%N) (nth [::] M i) else [::].
Proof.
elim: M i0 i => [|r M IH] i0 [|i] //=; first by rewrite addn0.
by rewrite IH ltnS addSnnS.
Qed.

Lemma size_cp_rows i0 (M : list (list A)) : size (cp_rows K i0 M) = size M.
Proof. by elim: M i0 => [|r M IH] i0 //=; rewrite IH. Qed.

End Hom.

Section CharPolyCorrect.
Variables (A : Type) (K : Ops A) (R : comRingType) (phi : A -> R).
Hypothesis Hphi : ops_hom K phi.

Theorem charpoly_hom n M : wf n M ->
  phiP phi (charpoly K n M) = char_poly (mxl K phi n M).
Proof.
move=> wfM; have [/eqP sz hall] := andP wfM.
rewrite /charpoly (det_hom (poly_ops_hom Hphi)); last first.
  rewrite /wf size_cp_rows sz eqxx /=; apply/(all_nthP [::]) => i.
  rewrite size_cp_rows => iM; rewrite nth_cp_rows iM size_cp_row.
  exact: (all_nthP [::] hall).
congr (\det _); apply/matrixP => i j; rewrite !mxE /=.
have iM : (i < size M)%N by rewrite sz.
have jr : (j < size (nth [::] M i))%N.
  by have /eqP -> := (all_nthP [::] hall) i iM.
rewrite nth_cp_rows iM add0n nth_cp_row //.
have -> : (Some (i : nat) == Some (j : nat)) = (i == j) by [].
case: eqP => _; rewrite !phiP_cons /phiP /= ?(h_opp Hphi) ?(h_1 Hphi).
  by rewrite mul0r add0r mul1r polyCN mulr1n addrC.
by rewrite mul0r add0r polyCN mulr0n sub0r.
Qed.

End CharPolyCorrect.


(* the premise checks of the tie imply the premises of charpoly_trunc *)

Lemma Lfirstn (T : Type) n (l : list T) : List.firstn n l = take n l.
Proof. by elim: n l => [|n IH] [|x l] //=; rewrite IH. Qed.

Lemma forall2b_nth (X : Type) (f : X -> X -> bool) x0 a b :
  forall2b f a b = true ->
  size a = size b /\ forall i, (i < size a)%N -> f (nth x0 a i) (nth x0 b i) = true.
Proof.
elim: a b => [|x a IH] [|y b] //= /andP[fxy /IH [sz h]].
by split; [rewrite sz | case].
Qed.

Section ChecksSound.
Variable F : comRingType.
Let K1 := ROps F.
Let KP := poly_ops K1.
Let phi2 : list F -> {poly F} := phiP (@id F).
Let H2 : ops_hom KP phi2 := poly_ops_hom (ROps_hom F).

(* a list of rows of coefficient lists, read as a matrix of polynomials *)
Definition MX n (M : list (list (list F))) : 'M[{poly F}]_n :=
  \matrix_(i < n, j < n) Poly (nth [::] (nth [::] M i) j).

Lemma phi2E l : phi2 l = Poly l.
Proof. by rewrite /phi2 /phiP map_id. Qed.

Lemma MX_mxl n M : MX n M = mxl KP phi2 n M.
Proof. by apply/matrixP => i j; rewrite !mxE phi2E. Qed.

Lemma eqN_b_sound N p q : g_eqN_b K1 N p q = true -> eqN N (Poly p) (Poly q).
Proof.
rewrite /g_eqN_b /g_trunc !Lfirstn => /(phiP_eqb (ROps_hom F)).
rewrite -/phi2 !phi2E => e i iN.
have := congr1 (fun r : {poly F} => r`_i) e.
by rewrite !coef_Poly !nth_take.
Qed.

Lemma mx_eqN_b_sound N n M P : wf n M ->
  g_mx_eqN_b K1 N M P = true -> forall i j : 'I_n, eqN N (MX n M i j) (MX n P i j).
Proof.
move=> /andP[/eqP sM hM] h i j; rewrite !mxE.
have [_ hrows] := forall2b_nth [::] h.
have iM : (i < size M)%N by rewrite sM.
have [_ hent] := forall2b_nth [::] (hrows i iM).
apply: eqN_b_sound; apply: hent.
by have /eqP -> := (all_nthP [::] hM) i iM.
Qed.

Theorem exec_premises_sound N n U Ui H Ht :
  wf n U -> wf n Ui -> wf n H ->
  g_prem_unitary K1 N n U Ui = true ->
  g_prem_similar K1 N U Ui H Ht = true ->
  (forall i j, eqN N ((MX n Ui *m MX n U) i j) ((1%:M : 'M_n) i j))
  /\ (forall i j, eqN N ((MX n Ui *m MX n H *m MX n U) i j) (MX n Ht i j)).
Proof.
move=> wU wUi wH h1 h2; split=> i j.
- have := mx_eqN_b_sound (wf_mmul KP wUi wU) h1 i j.
  by rewrite !MX_mxl (mxl_mmul H2) // (mxl_ident H2).
- have := mx_eqN_b_sound (wf_mmul KP (wf_mmul KP wUi wH) wU) h2 i j.
  by rewrite !MX_mxl !(mxl_mmul H2) // (wf_mmul KP).
Qed.

(* hence, by charpoly_trunc, the conclusion for the matrices denoted by the lists *)
Corollary exec_sound N n U Ui H Ht :
  wf n U -> wf n Ui -> wf n H ->
  g_prem_unitary K1 N n U Ui = true ->
  g_prem_similar K1 N U Ui H Ht = true ->
  forall k, eqN N (char_poly (MX n Ht))`_k (char_poly (MX n H))`_k.
Proof.
move=> wU wUi wH h1 h2.
have [p1 p2] := exec_premises_sound wU wUi wH h1 h2.
exact: (charpoly_trunc p1 p2).
Qed.

End ChecksSound.

(* [det] on matrices whose entries are coefficient lists of polynomials in x, over an
   arbitrary comRingType F *)
Corollary det_exec_correct (F : comRingType) n (M : list (list (list F))) :
  wf n M ->
  Poly (det (poly_ops (ROps F)) n M)
  = \det (\matrix_(i < n, j < n) Poly (nth [::] (nth [::] M i) j)).
Proof.
by move=> wfM; rewrite -phi2E (det_hom (poly_ops_hom (ROps_hom F)) wfM) -MX_mxl.
Qed.

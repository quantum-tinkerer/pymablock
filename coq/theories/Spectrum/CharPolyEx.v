(* Spectrum/CharPolyEx.v - concrete 2x2 instances showing that the hypotheses of the C04
   theorems are satisfiable (non-vacuity), used by the Examples of Props/C04.v.

   The running example is first-order Schrieffer-Wolff for
       H(x) = [[0, x], [x, 1]]          (H0 = diag(0,1), V = sigma_x)
       U    = [[1, x], [-x, 1]],  Ui = [[1, -x], [x, 1]]      (1 + x W, W antihermitian)
       Ui U = (1 + x^2) 1  ==  1                    (mod x^2),  NOT equal to 1
       Ui H U = [[-x^2, -x^3], [-x^3, 1 + 2 x^2]]  ==  diag(0, 1)   (mod x^2)
   over {poly int}, N = 1. *)

From mathcomp Require Import ssreflect ssrfun ssrbool eqtype ssrnat seq fintype bigop.
From mathcomp Require Import ssralg zmodp poly matrix ssrint.
From PV Require Import Spectrum.CharPoly Spectrum.CharPolyExecCorrect.
Set Implicit Arguments.
Unset Strict Implicit.
Unset Printing Implicit Defensive.
Import GRing.Theory.
Local Open Scope ring_scope.

Section Mx2.
Variable R : ringType.

Definition mx2 (a b c d : R) : 'M[R]_2 :=
  \matrix_(i, j) (if (i : nat) is 0%N then (if (j : nat) is 0%N then a else b)
                  else (if (j : nat) is 0%N then c else d)).

Lemma ord2_ind (P : 'I_2 -> Prop) : P 0 -> P 1 -> forall i, P i.
Proof.
move=> h0 h1 [[|[|k]] hk] //.
  by have -> : Ordinal hk = 0 by apply: val_inj.
by have -> : Ordinal hk = 1 by apply: val_inj.
Qed.

Lemma mx2_mul a b c d a' b' c' d' :
  mx2 a b c d *m mx2 a' b' c' d'
  = mx2 (a * a' + b * c') (a * b' + b * d') (c * a' + d * c') (c * b' + d * d').
Proof.
apply/matrixP; elim/ord2_ind; elim/ord2_ind;
  by rewrite !mxE !big_ord_recl big_ord0 !mxE /= addr0.
Qed.

Lemma mx2_1 : 1%:M = mx2 1 0 0 1.
Proof. by apply/matrixP; elim/ord2_ind; elim/ord2_ind; rewrite !mxE. Qed.

Lemma mx2_block a d :
  block_mx (a%:M : 'M_1) 0 0 (d%:M : 'M_1) = mx2 a 0 0 d.
Proof.
have e0 : (0 : 'I_2) = lshift 1 (0 : 'I_1) by apply: val_inj.
have e1 : (1 : 'I_2) = rshift 1 (0 : 'I_1) by apply: val_inj.
apply/matrixP; elim/ord2_ind; elim/ord2_ind; rewrite [RHS]mxE /= ?e0 ?e1.
- by rewrite block_mxEul !mxE.
- by rewrite block_mxEur !mxE.
- by rewrite block_mxEdl !mxE.
- by rewrite block_mxEdr !mxE.
Qed.

End Mx2.

(* exact similarity over int *)

Definition exU : 'M[int]_2 := mx2 1 1 0 1.
Definition exUi : 'M[int]_2 := mx2 1 (-1) 0 1.
Definition exH : 'M[int]_2 := mx2 0 1 1 2.

Lemma ex_similar_hyp : exUi *m exU = 1%:M /\ exU <> 1%:M.
Proof.
split; first by rewrite /exUi /exU mx2_mul mx2_1.
by move/matrixP/(_ 0 1); rewrite !mxE.
Qed.

(* truncated similarity over {poly int}, N = 1 *)

Local Notation x := ('X : {poly int}).

Definition swU : 'M[{poly int}]_2 := mx2 1 x (- x) 1.
Definition swUi : 'M[{poly int}]_2 := mx2 1 (- x) x 1.
Definition swH : 'M[{poly int}]_2 := mx2 0 x x 1.
Definition swHt : 'M[{poly int}]_2 := mx2 0 0 0 1.

(* the same four matrices as lists of coefficient lists, as CharPolyExec.v reads them *)
Definition swU_l : seq (seq (seq int)) := [:: [:: [:: 1]; [:: 0; 1]]; [:: [:: 0; -1]; [:: 1]]].
Definition swUi_l : seq (seq (seq int)) := [:: [:: [:: 1]; [:: 0; -1]]; [:: [:: 0; 1]; [:: 1]]].
Definition swH_l : seq (seq (seq int)) := [:: [:: [::]; [:: 0; 1]]; [:: [:: 0; 1]; [:: 1]]].
Definition swHt_l : seq (seq (seq int)) := [:: [:: [::]; [::]]; [:: [::]; [:: 1]]].

Lemma MX_mx2 (R : comRingType) (a b c d : seq R) :
  MX 2 [:: [:: a; b]; [:: c; d]] = mx2 (Poly a) (Poly b) (Poly c) (Poly d).
Proof. by apply/matrixP; elim/ord2_ind; elim/ord2_ind; rewrite !mxE. Qed.

Lemma Poly_X (R : ringType) (c : R) : Poly [:: 0; c] = c *: 'X.
Proof. by rewrite /= !cons_poly_def mul0r add0r addr0 mul_polyC. Qed.

Lemma Poly_1 (R : ringType) : Poly [:: (1 : R)] = 1.
Proof. by rewrite /= cons_poly_def mul0r add0r. Qed.

(* Both premises are decided by the executable checks that the tie runs on the
   implementation's output. *)
Lemma sw_premises :
  mx_cong (eqN_cong _ 1) (swUi *m swU) 1%:M /\
  mx_cong (eqN_cong _ 1) (swUi *m swH *m swU) swHt.
Proof.
have := @exec_premises_sound _ 1 2 swU_l swUi_l swH_l swHt_l isT isT isT.
rewrite !MX_mx2 !Poly_X !Poly_1 scale1r scaleN1r; apply; by vm_compute.
Qed.

Lemma sw_unitary : mx_cong (eqN_cong _ 1) (swUi *m swU) 1%:M.
Proof. by case: sw_premises. Qed.

Lemma sw_similar : mx_cong (eqN_cong _ 1) (swUi *m swH *m swU) swHt.
Proof. by case: sw_premises. Qed.

(* the similarity is genuinely only modulo x^2 *)
Lemma sw_not_exact : swUi *m swU <> 1%:M.
Proof.
rewrite /swUi /swU mx2_mul mx2_1 => /matrixP/(_ 0 0); rewrite !mxE /=.
move/(congr1 (fun p : {poly int} => p.[1])).
by rewrite !hornerE.
Qed.

Lemma swHt_block :
  swHt = block_mx (diag_mx (0 : 'rV_1)) 0 0 ((1 : {poly int})%:M : 'M_1).
Proof.
have -> : diag_mx (0 : 'rV[{poly int}]_1) = (0 : {poly int})%:M.
  by apply/matrixP => i j; rewrite !mxE !ord1 /= mulr1n.
by rewrite /swHt -mx2_block.
Qed.

(* Rayleigh-Schroedinger uniqueness: p = X (X - 1), e = x^2 == 0 (mod x^2) *)

Definition rsd (j : 'I_2) : {poly int} := ((j : nat)%:R)%:P.
Definition rsp : {poly {poly int}} := \prod_j ('X - (rsd j)%:P).
Definition rse : {poly int} := 'X^2.

Lemma rs_ex_distinct : forall j : 'I_2, j != 0 -> (rsd j)`_0 != (rsd 0)`_0.
Proof. by elim/ord2_ind => // _; rewrite /rsd !coefC. Qed.

Lemma rs_ex_root : eqN 1 rsp.[rse] 0.
Proof.
rewrite /rsp /rse horner_prod !big_ord_recl big_ord0 !hornerXsubC /rsd /=.
by rewrite mulr1 subr0 mulrC; apply/eqNP; exists ('X^2 - 1); rewrite add0r.
Qed.

Lemma rs_ex_e0 : rse`_0 = (rsd 0)`_0.
Proof. by rewrite /rse /rsd coefXn coefC. Qed.

Lemma rs_ex_nontrivial : rse <> rsd 0.
Proof.
move/(congr1 (fun p : {poly int} => p.[1])).
by rewrite /rse /rsd !hornerE.
Qed.

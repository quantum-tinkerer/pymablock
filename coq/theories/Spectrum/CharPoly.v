(* Characteristic polynomials under similarity modulo a ring congruence (property C04).

   A ring congruence [ring_cong] is an equivalence compatible with sum, opposite and
   product: "equality modulo an ideal".  Determinants and polynomial evaluation respect
   it, so the characteristic polynomial is invariant, modulo the congruence, under a
   similarity that holds modulo the congruence [charpoly_cong]; only Uinv * U == 1 is
   needed, not U * Uinv == 1.  Exact similarity is the case of equality; C04 is the case
   of [eqN N], "equal modulo 'X^(N+1)" on {poly F}, with one formal parameter x.  The
   Rayleigh-Schroedinger clause is the uniqueness modulo 'X^(N+1) of a root with a
   prescribed simple constant term [rs_split].

   Several parameters / "total order <= N"
   ---------------------------------------
   F is an ARBITRARY commutative ring.  For a Hamiltonian H(l_1..l_k) with coefficients
   in a field K take F := K[c_1..c_k] and substitute l_j := c_j * x.  A monomial
   l^n = l_1^n_1 ... l_k^n_k becomes c^n * x^|n|, so the coefficient of x^m of any
   polynomial expression in the l_j is the generating polynomial (in the c_j) of its
   coefficients of total order m; two expressions agree in all coefficients of total order
   <= N iff their images agree modulo x^(N+1) over F.  Hence the multi-parameter clause of
   C04 is the instance F = K[c] of [charpoly_trunc]; nothing about multivariate polynomials
   has to be formalised, and no narrower hypothesis is involved.  (Alternatively
   [charpoly_cong] can be instantiated directly with the congruence "equal up to total
   order N" of any multivariate polynomial ring.) *)

From mathcomp Require Import ssreflect ssrfun ssrbool eqtype ssrnat seq fintype bigop.
From mathcomp Require Import ssralg zmodp poly matrix mxpoly.
Set Implicit Arguments.
Unset Strict Implicit.
Unset Printing Implicit Defensive.
Import GRing.Theory.
Local Open Scope ring_scope.

Record ring_cong (R : ringType) := RingCong {
  rc_rel :> R -> R -> Prop;
  rc_refl : forall a, rc_rel a a;
  rc_sym : forall a b, rc_rel a b -> rc_rel b a;
  rc_trans : forall a b c, rc_rel a b -> rc_rel b c -> rc_rel a c;
  rc_add : forall a a' b b', rc_rel a a' -> rc_rel b b' -> rc_rel (a + b) (a' + b');
  rc_opp : forall a a', rc_rel a a' -> rc_rel (- a) (- a');
  rc_mul : forall a a' b b', rc_rel a a' -> rc_rel b b' -> rc_rel (a * b) (a' * b')
}.

Section CongTheory.
Variables (R : ringType) (E : ring_cong R).

Lemma rc_eq a b : a = b -> E a b.
Proof. by move=> ->; apply: rc_refl. Qed.

Lemma rc_sub a a' b b' : E a a' -> E b b' -> E (a - b) (a' - b').
Proof. by move=> ha hb; apply: rc_add => //; apply: rc_opp. Qed.

Lemma rc_sum I (r : seq I) (P : pred I) (f g : I -> R) :
  (forall i, P i -> E (f i) (g i)) ->
  E (\sum_(i <- r | P i) f i) (\sum_(i <- r | P i) g i).
Proof.
move=> h; elim/big_rec2: _ => [|i x y Pi exy]; first exact: rc_refl.
by apply: rc_add => //; apply: h.
Qed.

Lemma rc_prod I (r : seq I) (P : pred I) (f g : I -> R) :
  (forall i, P i -> E (f i) (g i)) ->
  E (\prod_(i <- r | P i) f i) (\prod_(i <- r | P i) g i).
Proof.
move=> h; elim/big_rec2: _ => [|i x y Pi exy]; first exact: rc_refl.
by apply: rc_mul => //; apply: h.
Qed.

Lemma rc_exp a b k : E a b -> E (a ^+ k) (b ^+ k).
Proof.
move=> h; elim: k => [|k IH]; first by rewrite !expr0; apply: rc_refl.
by rewrite !exprS; apply: rc_mul.
Qed.

(* entry-wise congruence of matrices *)
Definition mx_cong m n (A B : 'M[R]_(m, n)) := forall i j, E (A i j) (B i j).

Lemma mx_cong_refl m n (A : 'M[R]_(m, n)) : mx_cong A A.
Proof. by move=> i j; apply: rc_refl. Qed.

Lemma mx_cong_sym m n (A B : 'M[R]_(m, n)) : mx_cong A B -> mx_cong B A.
Proof. by move=> h i j; apply: rc_sym. Qed.

Lemma mx_cong_trans m n (A B C : 'M[R]_(m, n)) :
  mx_cong A B -> mx_cong B C -> mx_cong A C.
Proof. by move=> h1 h2 i j; apply: rc_trans (h1 i j) (h2 i j). Qed.

Lemma mx_cong_mul m n p (A A' : 'M[R]_(m, n)) (B B' : 'M[R]_(n, p)) :
  mx_cong A A' -> mx_cong B B' -> mx_cong (A *m B) (A' *m B').
Proof.
by move=> hA hB i j; rewrite !mxE; apply: rc_sum => k _; apply: rc_mul.
Qed.

Lemma mx_cong_add m n (A A' B B' : 'M[R]_(m, n)) :
  mx_cong A A' -> mx_cong B B' -> mx_cong (A + B) (A' + B').
Proof. by move=> hA hB i j; rewrite !mxE; apply: rc_add. Qed.

Lemma mx_cong_scale m n a (A A' : 'M[R]_(m, n)) :
  mx_cong A A' -> mx_cong (a *: A) (a *: A').
Proof. by move=> hA i j; rewrite !mxE; apply: rc_mul (rc_refl _ _) (hA i j). Qed.

(* coefficient-wise congruence of polynomials: again a ring congruence *)
Definition poly_rel (p q : {poly R}) := forall k, E p`_k q`_k.

Lemma poly_rel_mul p p' q q' :
  poly_rel p p' -> poly_rel q q' -> poly_rel (p * q) (p' * q').
Proof.
by move=> hp hq k; rewrite !coefM; apply: rc_sum => j _; apply: rc_mul.
Qed.

Definition poly_cong : ring_cong [ringType of {poly R}].
Proof.
exists poly_rel.
- by move=> p k; apply: rc_refl.
- by move=> p q h k; apply: rc_sym.
- by move=> p q r h1 h2 k; apply: rc_trans (h1 k) (h2 k).
- by move=> p p' q q' hp hq k; rewrite !coefD; apply: rc_add.
- by move=> p p' hp k; rewrite !coefN; apply: rc_opp.
- exact: poly_rel_mul.
Defined.

Lemma poly_rel_C a b : E a b -> poly_rel a%:P b%:P.
Proof. by move=> h k; rewrite !coefC; case: eqP => _ //; apply: rc_refl. Qed.

(* evaluation respects the congruence *)
Lemma rc_horner p q x y : poly_rel p q -> E x y -> E p.[x] q.[y].
Proof.
move=> hpq hxy.
rewrite (@horner_coef_wide _ (maxn (size p) (size q)) p) ?leq_maxl //.
rewrite (@horner_coef_wide _ (maxn (size p) (size q)) q) ?leq_maxr //.
by apply: rc_sum => i _; apply: rc_mul => //; apply: rc_exp.
Qed.

End CongTheory.

Arguments mx_cong {R} E {m n} A B.
Arguments poly_rel {R} E p q.

Section CongDet.
Variables (R : comRingType) (E : ring_cong R).

Lemma rc_det n (A B : 'M[R]_n) : mx_cong E A B -> E (\det A) (\det B).
Proof.
move=> h; rewrite /determinant; apply: rc_sum => s _; apply: rc_mul.
  exact: rc_refl.
by apply: rc_prod => i _; apply: h.
Qed.

End CongDet.

Section CongCharPoly.
Variables (R : comRingType) (E : ring_cong R).

Let PE := poly_cong E.
Let C n (A : 'M[R]_n) : 'M[{poly R}]_n := map_mx (@polyC R) A.

Lemma mx_cong_C n (A B : 'M[R]_n) : mx_cong E A B -> mx_cong PE (C A) (C B).
Proof. by move=> h i j; rewrite !mxE; apply: poly_rel_C. Qed.

Lemma mx_cong_char_poly_mx n (A B : 'M[R]_n) :
  mx_cong E A B -> mx_cong PE (char_poly_mx A) (char_poly_mx B).
Proof.
move=> h i j; rewrite /char_poly_mx !mxE; apply: rc_sub; first exact: rc_refl.
exact: poly_rel_C.
Qed.

Lemma mx_cong_char_poly n (A B : 'M[R]_n) :
  mx_cong E A B -> poly_rel E (char_poly A) (char_poly B).
Proof. by move=> h; apply: (@rc_det _ PE); apply: mx_cong_char_poly_mx. Qed.

(* The characteristic polynomial is invariant, modulo the congruence, under a
   similarity that holds modulo the congruence. *)
Theorem charpoly_cong n (U Ui H Ht : 'M[R]_n) :
  mx_cong E (Ui *m U) 1%:M ->
  mx_cong E (Ui *m H *m U) Ht ->
  poly_rel E (char_poly Ht) (char_poly H).
Proof.
move=> hU hH.
have hX : mx_cong PE 'X%:M ('X *: C (Ui *m U)).
  rewrite -scalemx1 -(map_mx1 (polyC_rmorphism R)).
  by apply: mx_cong_scale; apply: mx_cong_C; apply: mx_cong_sym.
apply: (@rc_trans _ PE _ (char_poly (Ui *m H *m U))).
  by apply: mx_cong_char_poly; apply: mx_cong_sym.
(* X - C(Ui H U) is congruent to X C(Ui U) - C(Ui H U) = C Ui (X - C H) C U *)
apply: (@rc_trans _ PE _ (\det ('X *: C (Ui *m U) - C (Ui *m H *m U)))).
  by apply: (@rc_det _ PE); apply: mx_cong_add hX (mx_cong_refl _ _).
have -> : 'X *: C (Ui *m U) - C (Ui *m H *m U) = C Ui *m char_poly_mx H *m C U.
  rewrite /char_poly_mx /C !map_mxM mulmxBr mulmxBl.
  by rewrite -scalemx1 -scalemxAr -scalemxAl mulmx1.
(* det is multiplicative, and det (C (Ui U)) is congruent to 1 *)
rewrite !det_mulmx mulrAC -det_mulmx -[X in PE _ X]mul1r.
apply: (@rc_mul _ PE); last exact: rc_refl.
rewrite /C -map_mxM -(det1 _ n) -(map_mx1 (polyC_rmorphism R)).
by apply: (@rc_det _ PE); apply: mx_cong_C.
Qed.

End CongCharPoly.

(* Equality is a ring congruence, so exact similarity is a case of the above. *)
Definition eq_cong (R : ringType) : ring_cong R.
Proof. by exists eq => // [a b c -> | a a' b b' -> -> | a a' -> | a a' b b' -> ->]. Defined.

Section Similar.
Variable (F : comRingType) (n : nat).
Implicit Types U Ui H : 'M[F]_n.

Lemma charpoly_similar U Ui H :
  Ui *m U = 1%:M -> char_poly (Ui *m H *m U) = char_poly H.
Proof.
move=> UiU; apply/polyP; apply: (@charpoly_cong _ (eq_cong F) _ U Ui) => // i j.
by rewrite UiU.
Qed.

(* for square matrices over a commutative ring a left inverse is a right inverse *)
Lemma left_inverse_right U Ui : Ui *m U = 1%:M -> U *m Ui = 1%:M.
Proof. exact: mulmx1C. Qed.

End Similar.

Section Trunc.
Variable F : comRingType.

Definition eqN (N : nat) (p q : {poly F}) :=
  forall i, (i <= N)%N -> p`_i = q`_i.

Lemma eqN_mul N p p' q q' : eqN N p p' -> eqN N q q' -> eqN N (p * q) (p' * q').
Proof.
move=> hp hq i iN; rewrite !coefM; apply: eq_bigr => j _.
rewrite hp ?hq //; first exact: leq_trans (leq_subr _ _) iN.
by apply: leq_trans iN; rewrite -ltnS.
Qed.

Definition eqN_cong (N : nat) : ring_cong [ringType of {poly F}].
Proof.
exists (eqN N).
- by move=> p i _.
- by move=> p q h i iN; rewrite h.
- by move=> p q r h1 h2 i iN; rewrite h1 ?h2.
- by move=> p p' q q' hp hq i iN; rewrite !coefD hp ?hq.
- by move=> p p' hp i iN; rewrite !coefN hp.
- exact: eqN_mul.
Defined.

(* the congruence is "the difference is a multiple of 'X^(N+1)" *)
Lemma eqNP N p q : eqN N p q <-> exists r, p = q + r * 'X^N.+1.
Proof.
split=> [h|[r ->] i iN]; last first.
  by rewrite coefD coefMXn ltnS iN addr0.
exists (\poly_(i < size (p - q)) (p - q)`_(i + N.+1)).
apply/polyP => i; rewrite coefD coefMXn ltnS.
case: leqP => [iN|Ni]; first by rewrite addr0; apply: h.
rewrite coef_poly subnK //; case: ltnP => [_|le]; first by rewrite coefB addrC subrK.
have /eqP : (p - q)`_i = 0.
  by apply: nth_default; apply: leq_trans le (leq_subr _ _).
by rewrite coefB subr_eq0 addr0 => /eqP.
Qed.

Lemma eqN_le N M p q : (M <= N)%N -> eqN N p q -> eqN M p q.
Proof. by move=> MN h i iM; apply: h; apply: leq_trans iM MN. Qed.

(* The C04 statement for one formal parameter (see the header for several). *)
Theorem charpoly_trunc N n (U Ui H Ht : 'M[{poly F}]_n) :
  (forall i j, eqN N ((Ui *m U) i j) ((1%:M : 'M_n) i j)) ->
  (forall i j, eqN N ((Ui *m H *m U) i j) (Ht i j)) ->
  forall k, eqN N (char_poly Ht)`_k (char_poly H)`_k.
Proof. exact: (@charpoly_cong _ (eqN_cong N)). Qed.

(* every d with p == ('X - d) * q modulo 'X^(N+1) is a root of p modulo 'X^(N+1) *)
Lemma rs_root N (p q : {poly {poly F}}) (d : {poly F}) :
  poly_rel (eqN_cong N) p (('X - d%:P) * q) -> eqN N p.[d] 0.
Proof.
move=> hp.
have := @rc_horner _ (eqN_cong N) _ _ d d hp (rc_refl _ _).
by rewrite hornerM hornerXsubC subrr mul0r.
Qed.

Lemma coef0_prod_horner (I : finType) (P : pred I) (f : I -> {poly F}) :
  (\prod_(i | P i) f i)`_0 = \prod_(i | P i) (f i)`_0.
Proof.
rewrite -horner_coef0 horner_prod; apply: eq_bigr => i _.
by rewrite horner_coef0.
Qed.

End Trunc.

Section BlockDiag.
Variable R : comRingType.

Lemma charpoly_blockdiag n1 n2 (A : 'M[R]_n1) (B : 'M[R]_n2) :
  char_poly (block_mx A 0 0 B) = char_poly A * char_poly B.
Proof. by rewrite /char_poly char_block_diag_mx det_ublock. Qed.

Lemma charpoly_diag n (d : 'rV[R]_n) :
  char_poly (diag_mx d) = \prod_i ('X - (d 0 i)%:P).
Proof.
rewrite char_poly_trig ?diag_mx_is_trig //.
by apply: eq_bigr => i _; rewrite mxE eqxx.
Qed.

(* any number of blocks: a sequence of square matrices of arbitrary sizes *)
Definition sqmx := {n : nat & 'M[R]_n}.

Fixpoint bd_size (s : seq sqmx) : nat :=
  if s is b :: s' then (tag b + bd_size s')%N else 0%N.

Fixpoint bd_mx (s : seq sqmx) : 'M[R]_(bd_size s) :=
  if s is b :: s' return 'M[R]_(bd_size s)
  then block_mx (tagged b) 0 0 (bd_mx s') else 0.

End BlockDiag.

Section RS.
Variable F : idomainType.
Implicit Types (p q : {poly {poly F}}) (d e a b : {poly F}).

Local Notation "p ==[ N ] q" := (poly_rel (eqN_cong F N) p q) (at level 70).

(* a factor with non-zero constant term can be cancelled modulo 'X^(N+1)
   (it is a unit of F[[x]] when F is a field; over a domain it is at least regular) *)
Lemma eqN_mul_cancel N a b : a`_0 != 0 -> eqN N (a * b) 0 -> eqN N b 0.
Proof.
move=> a0 h; elim/ltn_ind => i IH iN; rewrite coef0.
have := h i iN; rewrite coefM coef0 big_ord_recl /= subn0 big1 => [|j _].
  by rewrite addr0 => /eqP; rewrite mulf_eq0 (negbTE a0) /= => /eqP.
rewrite /bump /= add1n IH ?coef0 ?mulr0 //; first by rewrite subnSK ?leq_subr.
by apply: leq_trans iN; apply: leq_subr.
Qed.

(* if p == ('X - d) * q, a root e of p with q(e) non-zero at order 0 is d *)
Lemma rs_unique_factor N p q d e :
  p ==[N] (('X - d%:P) * q) ->
  eqN N p.[e] 0 -> (q.[e])`_0 != 0 -> eqN N e d.
Proof.
move=> hp he hq.
have h1 := @rc_horner _ (eqN_cong F N) _ _ e e hp (rc_refl _ _).
have h2 : eqN N (q.[e] * (e - d)) 0.
  move=> i iN; rewrite mulrC -[RHS](he i iN).
  by rewrite (h1 i iN) hornerM hornerXsubC.
have h3 := eqN_mul_cancel hq h2.
by move=> i iN; apply/eqP; rewrite -subr_eq0 -coefB h3 ?coef0.
Qed.

(* p == prod_j ('X - d_j) * c: every d_i is a root, and the only one with its constant
   term if d_i(0) differs from the other d_j(0) and is not a root of c at order 0 *)
Lemma rs_split N n (d : 'I_n -> {poly F}) c p (i : 'I_n) :
  p ==[N] (\prod_j ('X - (d j)%:P) * c) ->
  eqN N p.[d i] 0
  /\ forall e, eqN N p.[e] 0 -> e`_0 = (d i)`_0 ->
       (forall j, j != i -> (d j)`_0 != (d i)`_0) -> (c.[e])`_0 != 0 -> eqN N e (d i).
Proof.
rewrite (bigD1 i) //= -mulrA => hp; split=> [|e he e0 hd hc]; first exact: rs_root hp.
apply: (rs_unique_factor hp he).
rewrite hornerM -horner_coef0 hornerM !horner_coef0 mulf_neq0 //.
rewrite horner_prod coef0_prod_horner; apply/prodf_neq0 => j ji.
by rewrite hornerXsubC coefB e0 subr_eq0 eq_sym; apply: hd.
Qed.

(* fully split case: c = 1 *)
Theorem rs_unique N n (d : 'I_n -> {poly F}) p (i : 'I_n) e :
  p ==[N] (\prod_j ('X - (d j)%:P)) ->
  (forall j, j != i -> (d j)`_0 != (d i)`_0) ->
  eqN N p.[e] 0 -> e`_0 = (d i)`_0 -> eqN N e (d i).
Proof.
rewrite -[\prod_j _]mulr1 => /(rs_split i)[_ h] hd he e0; apply: h => //.
by rewrite hornerC coefC oner_neq0.
Qed.

End RS.

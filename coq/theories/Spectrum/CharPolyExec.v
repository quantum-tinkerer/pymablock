(* Spectrum/CharPolyExec.v - executable (list-based) reading of the C04 statement, used by the
   tie tools/harness/k_charpoly.py.

   MathComp's 'M[{poly R}] does not reduce under vm_compute, so the tie evaluates the
   premises and the conclusion of [CharPoly.charpoly_trunc] with the small stand-alone
   definitions below: polynomials are coefficient lists (low degree first), matrices are
   lists of rows, determinants are Laplace expansions along the first row.  They are
   generic in the coefficient operations, and are used at two levels:
     Qx  := polynomials in the formal parameter x with coefficients in Q,
     QxX := polynomials in the eigenvalue variable X with coefficients in Qx.

   What is proved about them: Spectrum/CharPolyExecCorrect.v shows, for the operations of
   ANY MathComp comRingType in place of Q, that [det]/[charpoly] below compute MathComp's
   [\det]/[char_poly] and that the premise checks [g_prem_unitary]/[g_prem_similar] imply
   the premises of charpoly_trunc.  NOT proved: that the instance [Qops] (stdlib Q, sum and
   product followed by Qred, opposite Qopp, comparison Qeq_bool) is such a ring - only the
   arithmetic of Q is trusted, the algorithm is the same Gallina term; and nothing is
   proved about the conclusion check [g_concl_charpoly]/[g_coefs_eqN_b].  What the tie
   establishes inside Coq is therefore a TEST, on the implementation's outputs, of (a) the
   premises of charpoly_trunc and (b) its conclusion (this file: stdlib only). *)

Require Import List QArith.
Import ListNotations.

Set Implicit Arguments.

Record Ops (A : Type) := MkOps {
  o0 : A; o1 : A;
  oadd : A -> A -> A; omul : A -> A -> A; oopp : A -> A;
  oeqb : A -> A -> bool }.

Section Generic.
Variables (A : Type) (K : Ops A).

Fixpoint padd (a b : list A) : list A :=
  match a, b with
  | [], _ => b
  | _, [] => a
  | x :: a', y :: b' => oadd K x y :: padd a' b'
  end.

Definition pscale (c : A) (a : list A) : list A := map (omul K c) a.
Definition popp (a : list A) : list A := map (oopp K) a.

Fixpoint pmul (a b : list A) : list A :=
  match a with
  | [] => []
  | x :: a' => padd (pscale x b) (o0 K :: pmul a' b)
  end.

Fixpoint all0 (a : list A) : bool :=
  match a with [] => true | x :: a' => oeqb K x (o0 K) && all0 a' end.

Fixpoint peqb (a b : list A) {struct a} : bool :=
  match a with
  | [] => all0 b
  | x :: a' =>
      match b with
      | [] => oeqb K x (o0 K) && all0 a'
      | y :: b' => oeqb K x y && peqb a' b'
      end
  end.

Definition poly_ops : Ops (list A) :=
  MkOps [] [o1 K] padd pmul popp peqb.

Definition vadd (u v : list A) : list A := padd u v.   (* entry-wise, same length *)

Fixpoint lincomb (cs : list A) (rows : list (list A)) (zero : list A) : list A :=
  match cs, rows with
  | c :: cs', r :: rows' => vadd (map (omul K c) r) (lincomb cs' rows' zero)
  | _, _ => zero
  end.

Definition mmul (M P : list (list A)) : list (list A) :=
  let zero := map (fun _ => o0 K) (hd [] P) in
  map (fun r => lincomb r P zero) M.

(* row i of the identity; the position is tracked with an option (None = already passed) *)
Fixpoint unit_row (i : option nat) (n : nat) : list A :=
  match n with
  | O => []
  | S n' =>
      match i with
      | Some O => o1 K :: unit_row None n'
      | Some (S i') => o0 K :: unit_row (Some i') n'
      | None => o0 K :: unit_row None n'
      end
  end.

Definition ident (n : nat) : list (list A) :=
  map (fun i => unit_row (Some i) n) (seq 0 n).

Fixpoint remove_nth (j : nat) (l : list A) : list A :=
  match l with
  | [] => []
  | x :: l' => match j with O => l' | S j' => x :: remove_nth j' l' end
  end.

(* alternating sum  sum_j (-1)^j r_j * f j  *)
Fixpoint altsum (r : list A) (j : nat) (neg : bool) (f : nat -> A) : A :=
  match r with
  | [] => o0 K
  | x :: r' =>
      let t := omul K x (f j) in
      oadd K (if neg then oopp K t else t) (altsum r' (S j) (negb neg) f)
  end.

(* determinant by Laplace expansion along the first row; n = dimension (fuel) *)
Fixpoint det (n : nat) (M : list (list A)) : A :=
  match n with
  | O => o1 K
  | S n' =>
      match M with
      | [] => o1 K
      | r :: rest => altsum r 0 false (fun j => det n' (map (remove_nth j) rest))
      end
  end.

End Generic.

(* characteristic polynomial: det (X - M) over polynomials in X *)
Section CharPoly.
Variables (A : Type) (K : Ops A).

Fixpoint cp_row (i : option nat) (r : list A) : list (list A) :=
  match r with
  | [] => []
  | a :: r' =>
      match i with
      | Some O => [oopp K a; o1 K] :: cp_row None r'
      | Some (S i') => [oopp K a] :: cp_row (Some i') r'
      | None => [oopp K a] :: cp_row None r'
      end
  end.

Fixpoint cp_rows (i : nat) (M : list (list A)) : list (list (list A)) :=
  match M with
  | [] => []
  | r :: M' => cp_row (Some i) r :: cp_rows (S i) M'
  end.

Definition charpoly (n : nat) (M : list (list A)) : list A :=
  det (poly_ops K) n (cp_rows 0 M).

End CharPoly.

Definition Qops : Ops Q :=
  MkOps 0%Q 1%Q (fun a b => Qred (a + b)) (fun a b => Qred (a * b)) Qopp Qeq_bool.

Fixpoint forall2b {X : Type} (f : X -> X -> bool) (a b : list X) : bool :=
  match a, b with
  | [], [] => true
  | x :: a', y :: b' => f x y && forall2b f a' b'
  | _, _ => false
  end.

Section Checks.
Variables (A : Type) (K : Ops A).
Let KP := poly_ops K.          (* polynomials in x: coefficient lists over A *)

Definition g_trunc (N : nat) (p : list A) : list A := firstn (S N) p.

Definition g_eqN_b (N : nat) (p q : list A) : bool := peqb K (g_trunc N p) (g_trunc N q).

Definition g_mx_eqN_b (N : nat) (M P : list (list (list A))) : bool :=
  forall2b (forall2b (g_eqN_b N)) M P.

(* premises of charpoly_trunc *)
Definition g_prem_unitary (N n : nat) (U Ui : list (list (list A))) : bool :=
  g_mx_eqN_b N (mmul KP Ui U) (ident KP n).

Definition g_prem_similar (N : nat) (U Ui H Ht : list (list (list A))) : bool :=
  g_mx_eqN_b N (mmul KP (mmul KP Ui H) U) Ht.

(* conclusion: all n+1 coefficients (polynomials in x) agree modulo x^(N+1) *)
Fixpoint g_coefs_eqN_b (N : nat) (k : nat) (p q : list (list A)) : bool :=
  match k with
  | O => true
  | S k' => g_eqN_b N (hd [] p) (hd [] q) && g_coefs_eqN_b N k' (tl p) (tl q)
  end.

Definition g_concl_charpoly (N n : nat) (H Ht : list (list (list A))) : bool :=
  g_coefs_eqN_b N (S n) (charpoly KP n Ht) (charpoly KP n H).

End Checks.

(* the instance used by the tie: rational coefficients *)
Definition Qx := list Q.
Definition QxOps : Ops Qx := poly_ops Qops.

Definition trunc : nat -> Qx -> Qx := g_trunc (A:=Q).
Definition eqN_b : nat -> Qx -> Qx -> bool := g_eqN_b Qops.
Definition mx_eqN_b : nat -> list (list Qx) -> list (list Qx) -> bool := g_mx_eqN_b Qops.
Definition prem_unitary : nat -> nat -> list (list Qx) -> list (list Qx) -> bool :=
  g_prem_unitary Qops.
Definition prem_similar :
  nat -> list (list Qx) -> list (list Qx) -> list (list Qx) -> list (list Qx) -> bool :=
  g_prem_similar Qops.
Definition concl_charpoly : nat -> nat -> list (list Qx) -> list (list Qx) -> bool :=
  g_concl_charpoly Qops.

(* self-tests: the first-order Schrieffer-Wolff example of CharPolyEx.v *)
Local Open Scope Q_scope.
Definition t_U  : list (list Qx) := [[ [1]; [0; 1] ]; [ [0; -1 # 1]; [1] ]].
Definition t_Ui : list (list Qx) := [[ [1]; [0; -1 # 1] ]; [ [0; 1]; [1] ]].
Definition t_H  : list (list Qx) := [[ []; [0; 1] ]; [ [0; 1]; [1] ]].
Definition t_Ht : list (list Qx) := [[ []; [] ]; [ []; [1] ]].
Definition t_bad : list (list Qx) := [[ []; [] ]; [ []; [1; 1] ]].

Example exec_selftest :
  (prem_unitary 1 2 t_U t_Ui, prem_similar 1 t_U t_Ui t_H t_Ht, concl_charpoly 1 2 t_H t_Ht,
   (* negative controls: not exact at order 2; a wrong H_tilde is rejected *)
   prem_unitary 2 2 t_U t_Ui, prem_similar 1 t_U t_Ui t_H t_bad, concl_charpoly 1 2 t_H t_bad)
  = (true, true, true, false, false, false).
Proof. vm_compute. reflexivity. Qed.

(* char poly of [[0,x],[x,1]] is X^2 - X - x^2 *)
Example exec_charpoly_value :
  forall2b (eqN_b 5) (charpoly QxOps 2 t_H) [ [0; 0; -1 # 1]; [-1 # 1]; [1] ] = true.
Proof. vm_compute. reflexivity. Qed.

(* 3x3 determinant sanity: det [[2,0,1],[1,3,2],[1,1,1]] = 2*(3-2) - 0 + 1*(1-3) = 0;
   det [[2,0,1],[1,3,2],[1,1,4]] = 2*(12-2) + (1-3) = 18 *)
Example exec_det3 :
  (Qeq_bool (det Qops 3 [[2;0;1];[1;3;2];[1;1;1]]) 0,
   Qeq_bool (det Qops 3 [[2;0;1];[1;3;2];[1;1;4]]) 18) = (true, true).
Proof. vm_compute. reflexivity. Qed.

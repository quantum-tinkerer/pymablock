(* Theorems about the validation model (Front/Validate.v). *)

Require Import List Bool Arith Lia.
Require Import PV.Front.Validate.
Import ListNotations.

(* the exception classes the property allows *)
Definition listed (e : exn) : Prop :=
  e = ValueError \/ e = TypeError \/ e = NotImplementedError.

(* rejected at definition, by a listed exception or by the unbound [diagonal] of a custom solver *)
Definition rejected (c : call) : Prop :=
  exists e, validate c = Reject e AtDefinition /\
            (listed e \/ (e = UnboundLocalError /\ custom c = true)).

Lemma validate_accept_iff c :
  validate c = Accept <-> forall p, In p (checks c) -> fst p = false.
Proof.
  unfold validate. split.
  - destruct (find _ (checks c)) as [[b e]|] eqn:E; [discriminate|]. intros _ p Hp.
    exact (find_none _ _ E p Hp).
  - intro H. destruct (find _ (checks c)) as [[b e]|] eqn:E; [|reflexivity].
    apply find_some in E. destruct E as [Hin Hb]. rewrite (H _ Hin) in Hb. discriminate.
Qed.

Lemma validate_reject c e s :
  validate c = Reject e s -> s = AtDefinition /\ In (true, e) (checks c).
Proof.
  unfold validate. destruct (find _ (checks c)) as [[b e']|] eqn:E; [|discriminate].
  intro H. inversion H; subst. apply find_some in E. destruct E as [Hin Hb]. cbn in Hb. subst.
  split; [reflexivity|exact Hin].
Qed.

(* every test raises a listed exception, except the unbound [diagonal] *)
Lemma checks_exn c p :
  In p (checks c) ->
  listed (snd p) \/ (snd p = UnboundLocalError /\ (fst p = true -> custom c = true)).
Proof.
  unfold checks. cbn [In]. unfold listed. intro H.
  (* the test at position 28 is the only one that raises UnboundLocalError *)
  do 28 (destruct H as [<-|H]; [left; cbn [snd]; auto|]).
  destruct H as [<-|H].
  - right. split; [reflexivity|]. cbn [fst]. intro Hb.
    apply andb_prop in Hb. destruct Hb as [Hb _]. apply andb_prop in Hb. exact (proj1 Hb).
  - do 2 (destruct H as [<-|H]; [left; cbn [snd]; auto|]). contradiction.
Qed.

Lemma accept_or_rejected c : validate c = Accept \/ rejected c.
Proof.
  destruct (validate c) as [|e s] eqn:E; [left; reflexivity|right].
  destruct (validate_reject _ _ _ E) as [-> Hin]. exists e. split; [exact E|].
  destruct (checks_exn _ _ Hin) as [Hl|[He Hc]]; [left; exact Hl|right; auto].
Qed.

(* the test at position k of [checks c] (counted from 0) fires: the call is rejected, by that
   test or by an earlier one *)
Lemma reject_at c k b e :
  nth_error (checks c) k = Some (b, e) -> b = true -> rejected c.
Proof.
  intros Hk ->. destruct (accept_or_rejected c) as [Ha|Hr]; [|exact Hr].
  rewrite validate_accept_iff in Ha. discriminate (Ha _ (nth_error_In _ _ Hk)).
Qed.

Lemma andb_false_imp a b : (a = true -> b = false) -> a && b = false.
Proof. destruct a; [intro H; exact (H eq_refl)|reflexivity]. Qed.

Lemma fmt_is_iff c f : fmt_is c f = true <-> c_format c = f.
Proof. unfold fmt_is. destruct (c_format c), f; split; intro H; try reflexivity; discriminate. Qed.

Lemma tri_is_no_false t : t <> No -> tri_is_no t = false.
Proof. destruct t; [reflexivity|contradiction|reflexivity]. Qed.

Lemma evb_some c ev f : c_eigvecs c = Some ev -> evb c f = f ev.
Proof. unfold evb. intros ->. reflexivity. Qed.

Lemma implicit_some c ev : c_eigvecs c = Some ev -> implicit c = negb (ev_complete ev).
Proof. apply evb_some. Qed.

Lemma evb_false c f : (forall ev, c_eigvecs c = Some ev -> f ev = false) -> evb c f = false.
Proof. unfold evb. destruct (c_eigvecs c) as [ev|]; [intro H; exact (H ev eq_refl)|reflexivity]. Qed.

Lemma has_eigvecs_inv c : has_eigvecs c = true -> exists ev, c_eigvecs c = Some ev.
Proof. unfold has_eigvecs, evb. destruct (c_eigvecs c) as [ev|]; [exists ev; reflexivity|discriminate]. Qed.

Lemma implicit_inv c :
  implicit c = true -> exists ev, c_eigvecs c = Some ev /\ ev_complete ev = false.
Proof.
  unfold implicit, evb. destruct (c_eigvecs c) as [ev|]; [|discriminate].
  intro H. exists ev. split; [reflexivity|apply negb_true_iff, H].
Qed.

Lemma diag_pair_not_custom c i j : diag_pair c i j = true -> custom c = false.
Proof.
  unfold diag_pair, solver_of. destruct (custom c); [discriminate|reflexivity].
Qed.

Lemma custom_false_legacy c : custom c = false -> legacy c = false.
Proof. unfold custom, legacy. destruct (c_solver_arity c) as [[|[|n]]|]; try discriminate; reflexivity. Qed.

Lemma in_all_pairs_iff n i j : In (i, j) (all_pairs n) <-> i < n /\ j < n.
Proof.
  unfold all_pairs. rewrite in_flat_map. split.
  - intros [i' [Hi Hj]]. apply in_map_iff in Hj. destruct Hj as [j' [Heq Hj]]. inversion Heq; subst.
    apply in_seq in Hi. apply in_seq in Hj. lia.
  - intros [Hi Hj]. exists i. split; [apply in_seq; lia|]. apply in_map, in_seq. lia.
Qed.

(* H_0 not block diagonal: a scanned block pair whose zeroth-order block is a numeric
   array not allclose to zero or a sympy object that is decidably non-zero.  (A symbolic
   block whose vanishing sympy cannot decide only produces a UserWarning: [BUndecided].) *)
Definition defect_h0_offdiag (c : call) : Prop :=
  exists i j, i < c_nblocks c /\ j < c_nblocks c /\ scanned c i j = true /\
              c_h0_off c i j = BNonzero.

(* eigenvectors not (bi)orthonormal *)
Definition defect_biorth (c : call) : Prop :=
  exists ev, c_eigvecs c = Some ev /\ ev_kind ev <> VecOtherType /\ ev_overlap ev = No.

(* every subspace (bi)orthonormal within itself, but two different subspaces overlap: the check
   is on the stacked overlap matrix, so this is rejected as well *)
Definition defect_cross_overlap (c : call) : Prop :=
  exists ev, c_eigvecs c = Some ev /\ ev_kind ev <> VecOtherType /\ ev_overlap_cross ev = No.

Definition defect_mask_asym (c : call) : Prop :=
  c_hermitian c = true /\ c_second_quant c = false /\
  exists m, In m (fd_masks (fd_eff c)) /\ m_symmetric m = false.

Definition defect_mask_equal (c : call) : Prop :=
  c_second_quant c = false /\ exists m, In m (fd_masks (fd_eff c)) /\ m_hits_equal m = true.

(* mutually exclusive options *)
Inductive defect_exclusive (c : call) : Prop :=
| ExSolverFd : custom c = true -> fd_truth (c_fd c) = Some true -> defect_exclusive c
| ExVecsIndices : has_eigvecs c = true -> c_indices c = true -> defect_exclusive c
| ExHermPairs ev : c_eigvecs c = Some ev -> c_hermitian c = true -> ev_has_pair ev = true ->
                   defect_exclusive c
| ExBlockedSplit : c_preblocked c = true -> (has_eigvecs c = true \/ c_indices c = true) ->
                   defect_exclusive c
| ExLegacyNonherm : c_solver_arity c = Some 1 -> c_hermitian c = false -> defect_exclusive c
| ExImplicitKPMNonherm : implicit c = true -> c_hermitian c = false -> custom c = false ->
                         c_direct_solver c = false -> defect_exclusive c
| ExArrayBlocks t m : c_fd c = FdArray t m -> c_nblocks c <> 1 -> defect_exclusive c
| ExImplicitFd : implicit c = true ->
                 In (c_nblocks c - 1) (fd_keys (fd_eff c)) -> defect_exclusive c
| ExSolverSingle : custom c = true -> c_nblocks c = 1 -> fd_len0 (c_fd c) = true ->
                   defect_exclusive c.

(* malformed containers and values *)
Inductive defect_container (c : call) : Prop :=
| DcUnsupported : c_format c = FUnsupported -> defect_container c
| DcSymbolsMissing : c_format c = FSympyExpr -> c_symbols_missing c = true -> defect_container c
| DcKeysNonCommutative : c_format c = FDictMonomial -> c_keys c = KeysNonCommutative -> defect_container c
| DcKeysNotMonomial : c_format c = FDictMonomial -> c_keys c = KeysNotMonomial -> defect_container c
| DcNonSquare : c_preblocked c = true -> c_blocks_square c = false -> defect_container c
| DcRagged0 : c_preblocked c = true -> c_ragged c (zero_order c) = true -> defect_container c
| DcInvalidOperator : c_invalid_operator c = true -> defect_container c
| DcZeroDiagonal : (forall i, i < c_nblocks c -> c_h0_diag_zero c i = true) -> defect_container c
| DcMaskNotArray m : c_second_quant c = false -> In m (fd_masks (fd_eff c)) -> m_is_ndarray m = false ->
                     defect_container c.

(* malformed subspace_eigenvectors entries and the implicit-mode restrictions *)
Inductive defect_vectors (c : call) (ev : eigvecs) : Prop :=
| DvPairLen : ev_pair_len_ok ev = false -> defect_vectors c ev
| DvShapes : ev_shapes_ok ev = false -> defect_vectors c ev
| DvImplicitBlocked : ev_complete ev = false -> c_preblocked c = true -> defect_vectors c ev
| DvImplicitSymbolic : ev_complete ev = false -> c_h0_symbolic c = true -> defect_vectors c ev
| DvImplicitDim : ev_complete ev = false -> ev_dim_matches ev = false -> defect_vectors c ev
| DvImplicitTypes : ev_complete ev = false -> custom c = false -> ev_all_ndarray ev = false ->
                    defect_vectors c ev.

(* lazily executed tests: they only raise ValueError, and only at first use *)

Lemma on_first_use_reject c u e s :
  on_first_use c u = Reject e s -> e = ValueError /\ s = AtFirstUse.
Proof.
  unfold on_first_use. destruct u.
  - destruct (legacy c && _); [|destruct (diag_pair c i j && _ && _)];
      intro H; inversion H; auto.
  - destruct (fmt_is c FSympyExpr && _ && _); [|destruct (c_preblocked c && _)];
      intro H; inversion H; auto.
Qed.

Lemma first_lazy_reject c us e s :
  first_lazy c us = Reject e s -> e = ValueError /\ s = AtFirstUse.
Proof.
  induction us as [|x r IH]; cbn [first_lazy]; [discriminate|].
  destruct (on_first_use c x) eqn:E; [exact IH|].
  intro H. inversion H; subst. exact (on_first_use_reject _ _ _ _ E).
Qed.

Lemma first_lazy_accept c us :
  first_lazy c us = Accept <-> forall u, In u us -> on_first_use c u = Accept.
Proof.
  induction us as [|x r IH]; cbn [first_lazy In].
  - split; [intros _ u []|reflexivity].
  - destruct (on_first_use c x) eqn:E.
    + rewrite IH. split; [intros H u [<-|Hu]; auto|auto].
    + split; [discriminate|]. intro H. rewrite (H x) in E by (left; reflexivity). discriminate.
Qed.

Record Wellposed (c : call) : Prop := {
  wp_solver_fd : custom c = true -> fd_truth (c_fd c) = Some false;
  wp_format : c_format c <> FUnsupported;
  wp_symbols : c_format c = FSympyExpr -> c_symbols_missing c = false;
  wp_keys : c_format c = FDictMonomial -> c_keys c = KeysOk;
  wp_herm0 : c_format c = FSympyExpr -> c_hermitian c = true ->
             c_term_herm c (zero_order c) <> No;
  wp_ev : forall ev, c_eigvecs c = Some ev ->
          (c_hermitian c = true -> ev_has_pair ev = false) /\
          ev_pair_len_ok ev = true /\ ev_shapes_ok ev = true /\
          (ev_kind ev <> VecOtherType -> ev_overlap ev <> No) /\
          c_indices c = false /\ c_preblocked c = false;
  wp_implicit : forall ev, c_eigvecs c = Some ev -> ev_complete ev = false ->
          c_h0_symbolic c = false /\
          (c_hermitian c = false -> custom c = false -> c_direct_solver c = true) /\
          ev_dim_matches ev = true /\
          (custom c = false -> ev_all_ndarray ev = true) /\
          ~ In (c_nblocks c - 1) (fd_keys (fd_eff c));
  wp_blocked : c_preblocked c = true -> c_indices c = false /\ c_blocks_square c = true;
  wp_array : c_nblocks c <> 1 -> is_array (c_fd c) = false;
  wp_single_custom : custom c = true -> c_nblocks c = 1 -> fd_len0 (c_fd c) = false;
  wp_h0_off : forall i j, i < c_nblocks c -> j < c_nblocks c -> scanned c i j = true ->
              c_h0_off c i j <> BNonzero;
  wp_h0_diag : exists i, i < c_nblocks c /\ c_h0_diag_zero c i = false;
  wp_operator : c_invalid_operator c = false;
  wp_ragged0 : c_preblocked c = true -> c_ragged c (zero_order c) = false;
  wp_legacy : c_solver_arity c = Some 1 -> c_hermitian c = true;
  wp_custom_fd : custom c = true -> implicit c = false -> fd_keys (fd_eff c) = [];
  wp_masks : c_second_quant c = false -> forall m, In m (fd_masks (fd_eff c)) ->
             m_is_ndarray m = true /\ (c_hermitian c = true -> m_symmetric m = true) /\
             m_hits_equal m = false
}.

Lemma existsb_false {A} (f : A -> bool) l : (forall x, In x l -> f x = false) -> existsb f l = false.
Proof.
  intro H. apply not_true_is_false. rewrite existsb_exists. intros [x [Hx Hf]].
  rewrite (H x Hx) in Hf. discriminate.
Qed.

(* what [Wellposed] says of a call in implicit mode *)
Lemma wp_implicit_mode c : Wellposed c -> implicit c = true ->
  exists ev, c_eigvecs c = Some ev /\
    c_preblocked c = false /\ c_h0_symbolic c = false /\
    (c_hermitian c = false -> custom c = false -> c_direct_solver c = true) /\
    ev_dim_matches ev = true /\ (custom c = false -> ev_all_ndarray ev = true) /\
    ~ In (c_nblocks c - 1) (fd_keys (fd_eff c)).
Proof.
  intros W Hi. destruct (implicit_inv _ Hi) as [ev [Ee Ec]]. exists ev.
  split; [exact Ee|]. split; [apply (wp_ev _ W ev Ee)|apply (wp_implicit _ W ev Ee Ec)].
Qed.

Theorem accepts_wellposed c : Wellposed c -> validate c = Accept.
Proof.
  intro W. apply validate_accept_iff. intros p Hp.
  unfold checks in Hp. cbn [In] in Hp.
  repeat (destruct Hp as [Hp|Hp]; [subst p; cbn [fst]|]); [..|contradiction].
  - apply andb_false_imp. intro Hc. rewrite (wp_solver_fd _ W Hc). reflexivity.
  - apply andb_false_imp. intro Hc. rewrite (wp_solver_fd _ W Hc). reflexivity.
  - apply not_true_is_false. rewrite fmt_is_iff. apply (wp_format _ W).
  - apply andb_false_imp. intro Hf. apply (wp_symbols _ W), fmt_is_iff, Hf.
  - apply andb_false_imp. intro Hf. apply fmt_is_iff in Hf. rewrite (wp_keys _ W Hf). reflexivity.
  - apply andb_false_imp. intro Hf. apply fmt_is_iff in Hf. rewrite (wp_keys _ W Hf). reflexivity.
  - apply andb_false_imp. intro H. apply andb_prop in H. destruct H as [Hf Hh].
    apply tri_is_no_false, (wp_herm0 _ W); [apply fmt_is_iff, Hf|exact Hh].
  - apply evb_false. intros ev Ee. apply andb_false_imp, (wp_ev _ W ev Ee).
  - apply evb_false. intros ev Ee. destruct (wp_ev _ W ev Ee) as (_ & H & _). rewrite H. reflexivity.
  - apply evb_false. intros ev Ee. destruct (wp_ev _ W ev Ee) as (_ & _ & H & _). rewrite H. reflexivity.
  - apply evb_false. intros ev Ee. destruct (wp_ev _ W ev Ee) as (_ & _ & _ & H & _).
    destruct (ev_kind ev); [| |reflexivity]; apply tri_is_no_false, H; discriminate.
  - apply andb_false_imp. intro Hi. destruct (wp_implicit_mode _ W Hi) as (ev & _ & H & _). exact H.
  - apply andb_false_imp. intro Hi. destruct (wp_implicit_mode _ W Hi) as (ev & _ & _ & H & _). exact H.
  - destruct (implicit c) eqn:Hi; [|reflexivity].
    destruct (wp_implicit_mode _ W Hi) as (ev & _ & _ & _ & H & _).
    destruct (c_hermitian c); [reflexivity|]. destruct (custom c); [reflexivity|].
    rewrite (H eq_refl eq_refl). reflexivity.
  - apply andb_false_imp. intro Hi. destruct (wp_implicit_mode _ W Hi) as (ev & Ee & _ & _ & _ & H & _).
    rewrite (evb_some _ _ _ Ee), H. reflexivity.
  - destruct (implicit c) eqn:Hi; [|reflexivity].
    destruct (wp_implicit_mode _ W Hi) as (ev & Ee & _ & _ & _ & _ & H & _).
    destruct (custom c); [reflexivity|]. rewrite (evb_some _ _ _ Ee), (H eq_refl). reflexivity.
  - (* pairs need hermitian = False, and then KPM is refused two tests earlier *)
    destruct (implicit c) eqn:Hi; [|reflexivity].
    destruct (wp_implicit_mode _ W Hi) as (ev & Ee & _ & _ & H & _).
    destruct (custom c); [reflexivity|]. destruct (c_direct_solver c); [reflexivity|].
    rewrite (evb_some _ _ _ Ee). destruct (wp_ev _ W ev Ee) as [Hp _].
    destruct (c_hermitian c); [rewrite (Hp eq_refl); reflexivity|discriminate (H eq_refl eq_refl)].
  - apply andb_false_imp. intro Hv. destruct (has_eigvecs_inv _ Hv) as [ev Ee]. apply (wp_ev _ W ev Ee).
  - apply andb_false_imp. intro Hb. destruct (wp_blocked _ W Hb) as [-> _]. rewrite orb_false_r.
    apply not_true_is_false. intro Hv. destruct (has_eigvecs_inv _ Hv) as [ev Ee].
    destruct (wp_ev _ W ev Ee) as (_ & _ & _ & _ & _ & H). congruence.
  - apply andb_false_imp. intro Hb. destruct (wp_blocked _ W Hb) as [_ ->]. reflexivity.
  - destruct (Nat.eqb_spec (c_nblocks c) 1) as [|En]; [reflexivity|]. apply (wp_array _ W En).
  - destruct (Nat.eqb_spec (c_nblocks c) 1) as [En|]; [|reflexivity].
    destruct (custom c) eqn:Ec; [|apply andb_false_r]. rewrite (wp_single_custom _ W Ec En). reflexivity.
  - apply andb_false_imp, (wp_ragged0 _ W).
  - apply existsb_false. intros [i j] Hin. cbn [fst snd]. apply in_all_pairs_iff in Hin.
    apply andb_false_imp. intro Hs. pose proof (wp_h0_off _ W i j (proj1 Hin) (proj2 Hin) Hs) as H.
    destruct (c_h0_off c i j); [reflexivity|contradiction|reflexivity].
  - destruct (wp_h0_diag _ W) as [i [Hi Hz]]. apply not_true_is_false. rewrite forallb_forall.
    intro H. rewrite (H i) in Hz; [discriminate|apply in_seq; lia].
  - apply (wp_operator _ W).
  - apply andb_false_imp. intro Hi. destruct (wp_implicit_mode _ W Hi) as (ev & _ & _ & _ & _ & _ & _ & H).
    apply existsb_false. intros x Hx. apply Nat.eqb_neq. congruence.
  - destruct (c_solver_arity c) as [[|[|n]]|] eqn:Ea; try reflexivity.
    rewrite (wp_legacy _ W Ea). reflexivity.
  - destruct (custom c) eqn:Ec; [|reflexivity]. destruct (implicit c) eqn:Ei; [reflexivity|].
    rewrite (wp_custom_fd _ W Ec Ei). reflexivity.
  - apply andb_false_imp. intro Hq. apply negb_true_iff in Hq.
    apply existsb_false. intros m Hm. destruct (wp_masks _ W Hq m Hm) as [H1 [H2 _]].
    rewrite H1. apply andb_false_imp. intro Hh. rewrite (H2 Hh). reflexivity.
  - apply andb_false_imp. intro Hq. apply negb_true_iff in Hq.
    apply existsb_false. intros m Hm. apply (wp_masks _ W Hq m Hm).
Qed.

(* lazily: no coupled pair shares an energy, no coefficient is definitely non-Hermitian, a legacy
   solver is only used for the two-block off-diagonal terms *)
Definition Wellposed_lazy (c : call) (u : use) : Prop :=
  match u with
  | UsePair i j =>
    (legacy c = true -> (i = 0 /\ j = 1) \/ (i = 1 /\ j = 0)) /\
    (diag_pair c i j = true -> i <> j -> c_pair_shares c i j = false)
  | UseTerm n =>
    (c_format c = FSympyExpr -> c_hermitian c = true -> c_term_herm c n <> No) /\
    (c_preblocked c = true -> c_ragged c n = false)
  end.

Theorem accepts_wellposed_lazy c u : Wellposed_lazy c u -> on_first_use c u = Accept.
Proof.
  destruct u as [i j|n]; cbn [Wellposed_lazy on_first_use]; intros [H1 H2].
  - rewrite (andb_false_imp (legacy c)), (andb_false_imp (diag_pair c i j && negb (i =? j)));
      [reflexivity| |].
    + intro H. apply andb_prop in H. destruct H as [Hd Hn].
      apply (H2 Hd). apply Nat.eqb_neq. apply negb_true_iff. exact Hn.
    + intro Hl. destruct (H1 Hl) as [[-> ->]|[-> ->]]; reflexivity.
  - rewrite (andb_false_imp (fmt_is c FSympyExpr && c_hermitian c)), (andb_false_imp (c_preblocked c));
      [reflexivity|exact H2|].
    intro H. apply andb_prop in H. destruct H as [Hf Hh].
    apply tri_is_no_false, H1; [apply fmt_is_iff, Hf|exact Hh].
Qed.

Theorem accepts_wellposed_life c sched :
  Wellposed c -> (forall n us u, In (n, us) sched -> In u us -> Wellposed_lazy c u) ->
  life c sched = (Accept, None).
Proof.
  intros W HL. unfold life. rewrite (accepts_wellposed _ W).
  induction sched as [|[n us] r IH]; [reflexivity|]. cbn [run_schedule].
  rewrite (proj2 (first_lazy_accept c us)).
  - apply IH. intros n' us' u Hin. apply (HL n' us'). right. exact Hin.
  - intros u Hu. apply accepts_wellposed_lazy, (HL n us); [left; reflexivity|exact Hu].
Qed.

(* block_diagonalize builds solve_sylvester_diagonal(diagonal, atol=atol) for SDiagonal and
   solve_sylvester_direct builds explicit_part = solve_sylvester_diagonal(eigenvalues, atol=..)
   for SDirect: both closures have vecs_implicit = None.  Only solve_sylvester_KPM passes
   vecs_implicit. *)
Definition closure_without_vecs_implicit (s : solver) : bool :=
  match s with SDiagonal | SDirect => true | _ => false end.

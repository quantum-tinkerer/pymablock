(* Theorems about the container normalisation model (Front/Normalize.v). *)

Require Import List Bool Arith Lia Sorted.
Require Import PV.Front.Normalize.
Import ListNotations.

Fixpoint choose (n k : nat) : nat :=
  match n, k with
  | _, 0 => 1
  | 0, S _ => 0
  | S n', S k' => choose n' k' + choose n' (S k')
  end.

Lemma choose_gt n : forall k, n < k -> choose n k = 0.
Proof.
  induction n; intros [|k] H; try lia; cbn; [reflexivity|].
  rewrite !IHn by lia. reflexivity.
Qed.

Lemma choose_nn n : choose n n = 1.
Proof. induction n; cbn; [reflexivity|]. rewrite IHn, choose_gt by lia. reflexivity. Qed.

Lemma choose_0 n : choose n 0 = 1.
Proof. destruct n; reflexivity. Qed.

Lemma choose_step n : forall k, S k * choose n (S k) = (n - k) * choose n k.
Proof.
  induction n; intros k.
  - cbn. lia.
  - destruct k as [|k].
    + cbn [choose]. rewrite choose_0. specialize (IHn 0). rewrite choose_0 in IHn. lia.
    + cbn [choose]. pose proof (IHn k) as H1. pose proof (IHn (S k)) as H2.
      destruct (Nat.lt_ge_cases k n) as [Hlt|Hge].
      * replace (S n - S k) with (n - k) by lia.
        replace (n - k) with (S (n - S k)) in * by lia. nia.
      * rewrite (choose_gt n (S k)) in * by lia. rewrite (choose_gt n (S (S k))) by lia.
        replace (S n - S k) with 0 by lia. lia.
Qed.

Section Proofs.
Variable W : Vals.
Notation V := (V W).

Lemma order_eqb_spec a : forall b, order_eqb a b = true <-> a = b.
Proof.
  induction a as [|x r IH]; intros [|y s]; cbn; split; try discriminate; try reflexivity.
  - intro H. apply andb_prop in H. destruct H as [H1 H2].
    apply Nat.eqb_eq in H1. apply IH in H2. congruence.
  - intro H. inversion H; subst. rewrite Nat.eqb_refl. cbn. apply IH. reflexivity.
Qed.

Lemma order_eqb_refl a : order_eqb a a = true.
Proof. apply order_eqb_spec. reflexivity. Qed.

Lemma order_eqb_false a b : a <> b -> order_eqb a b = false.
Proof. intro H. apply not_true_is_false. rewrite order_eqb_spec. exact H. Qed.

Lemma unit_vec_length k i : length (unit_vec k i) = k.
Proof. unfold unit_vec. rewrite map_length, seq_length. reflexivity. Qed.

Lemma unit_vec_nth k i j : j < k -> nth j (unit_vec k i) 0 = if j =? i then 1 else 0.
Proof.
  intro H. unfold unit_vec. set (f := fun j => if j =? i then 1 else 0).
  rewrite (nth_indep _ 0 (f k)) by (rewrite map_length, seq_length; exact H).
  rewrite map_nth, seq_nth by exact H. reflexivity.
Qed.

Lemma unit_vec_not_zero k i : i < k -> unit_vec k i <> repeat 0 k.
Proof.
  intros Hi H. apply (f_equal (fun l => nth i l 0)) in H.
  rewrite unit_vec_nth, Nat.eqb_refl, nth_repeat in H by exact Hi. discriminate.
Qed.

Lemma unit_vec_inj k i j : i < k -> unit_vec k i = unit_vec k j -> i = j.
Proof.
  intros Hi H. apply (f_equal (fun l => nth i l 0)) in H.
  rewrite !unit_vec_nth, Nat.eqb_refl in H by assumption.
  destruct (i =? j) eqn:E; [apply Nat.eqb_eq in E; exact E|discriminate].
Qed.

(* position of the single 1 in a unit order *)
Definition unit_index (k : nat) (n : order) : option nat :=
  find (fun i => order_eqb (unit_vec k i) n) (seq 0 k).

Lemma unit_index_some k n i : unit_index k n = Some i -> i < k /\ unit_vec k i = n.
Proof.
  intro H. apply find_some in H. destruct H as [Hin H]. apply in_seq in Hin.
  apply order_eqb_spec in H. split; [lia|exact H].
Qed.

Lemma unit_index_unit k i : i < k -> unit_index k (unit_vec k i) = Some i.
Proof.
  intro Hi. destruct (unit_index k (unit_vec k i)) as [j|] eqn:E.
  - destruct (unit_index_some _ _ _ E) as [Hj Hu]. f_equal. apply (unit_vec_inj k); assumption.
  - assert (Hin : In i (seq 0 k)) by (apply in_seq; lia).
    pose proof (find_none _ _ E i Hin) as Hn. cbn beta in Hn. rewrite order_eqb_refl in Hn. discriminate.
Qed.

Lemma lookup_imap_units k (ps : list V) : forall s n,
  lookup W (imap (fun i p => (unit_vec k i, p)) s ps) n =
  match find (fun i => order_eqb (unit_vec k i) n) (seq s (length ps)) with
  | Some i => nth_error ps (i - s)
  | None => None
  end.
Proof.
  induction ps as [|p r IH]; intros s n; cbn; [reflexivity|].
  destruct (order_eqb (unit_vec k s) n) eqn:E.
  - rewrite Nat.sub_diag. reflexivity.
  - rewrite IH. destruct (find _ (seq (S s) (length r))) as [i|] eqn:Ef; [|reflexivity].
    apply find_some in Ef. destruct Ef as [Hin _]. apply in_seq in Hin.
    replace (i - s) with (S (i - S s)) by lia. reflexivity.
Qed.

(* what the list [h_0; h_1; ...; h_k] denotes: h_0 at order 0, h_i at the i-th unit order *)
Lemma lookup_list_to_dict h0 ps d n :
  list_to_dict W (h0 :: ps) = Some d ->
  lookup W d n =
  if order_eqb (repeat 0 (length ps)) n then Some h0
  else match unit_index (length ps) n with Some i => nth_error ps i | None => None end.
Proof.
  intro H. inversion H; subst. cbn [lookup]. rewrite lookup_imap_units. unfold unit_index.
  destruct (order_eqb _ n); [reflexivity|]. destruct (find _ _); [rewrite Nat.sub_0_r|]; reflexivity.
Qed.

Lemma insert_u_in s l x : In x (insert_u s l) <-> x = s \/ In x l.
Proof.
  induction l as [|y r IH]; simpl.
  - intuition auto.
  - destruct (s <? y) eqn:E1.
    + simpl. intuition auto.
    + destruct (s =? y) eqn:E2.
      * apply Nat.eqb_eq in E2; subst; simpl. intuition auto.
      * simpl. rewrite IH. intuition auto.
Qed.

Lemma insert_u_sorted s l : StronglySorted lt l -> StronglySorted lt (insert_u s l).
Proof.
  induction 1 as [|y r Hs IH Hall]; [cbn; repeat constructor|].
  cbn [insert_u]. destruct (s <? y) eqn:E1.
  - apply Nat.ltb_lt in E1. constructor; [constructor; assumption|].
    constructor; [exact E1|]. rewrite Forall_forall in *. intros x Hx. specialize (Hall x Hx). lia.
  - destruct (s =? y) eqn:E2; [constructor; assumption|].
    apply Nat.ltb_ge in E1. apply Nat.eqb_neq in E2.
    constructor; [exact IH|]. rewrite Forall_forall in *. intros x Hx.
    apply insert_u_in in Hx. destruct Hx as [->|Hx]; [lia|auto].
Qed.

Lemma symbols_of_sorted keys : StronglySorted lt (symbols_of keys).
Proof.
  unfold symbols_of.
  induction (flat_map (map fst) keys) as [|x r IH]; cbn; [constructor|apply insert_u_sorted, IH].
Qed.

Lemma symbols_of_in keys s :
  In s (symbols_of keys) <-> exists m p, In m keys /\ In (s, p) m.
Proof.
  unfold symbols_of.
  assert (H : In s (fold_right insert_u [] (flat_map (map fst) keys)) <-> In s (flat_map (map fst) keys)).
  { induction (flat_map (map fst) keys) as [|x r IH]; cbn; [tauto|].
    rewrite insert_u_in, IH. split; intros [->|H]; auto. }
  rewrite H, in_flat_map. split.
  - intros [m [Hm Hs]]. apply in_map_iff in Hs. destruct Hs as [[s' p] [Heq Hin]]. cbn in Heq. subst.
    exists m, p. auto.
  - intros [m [p [Hm Hin]]]. exists m. split; [exact Hm|]. apply in_map_iff. exists (s, p). auto.
Qed.

(* lookup in a dict built item by item: the last item with that key wins *)
Fixpoint last_match (items : fam W) (k : order) : option V :=
  match items with
  | [] => None
  | (k', v) :: r => match last_match r k with Some w => Some w | None => if order_eqb k' k then Some v else None end
  end.

Lemma lookup_dict_of_items items k : lookup W (dict_of_items W items) k = last_match items k.
Proof.
  induction items as [|[k' v] r IH]; cbn; [reflexivity|].
  destruct (lookup W (dict_of_items W r) k') eqn:E.
  - rewrite IH. destruct (last_match r k) eqn:El; [reflexivity|].
    destruct (order_eqb k' k) eqn:Ek; [|reflexivity].
    apply order_eqb_spec in Ek. subst. rewrite IH in E. congruence.
  - cbn. destruct (order_eqb k' k) eqn:Ek.
    + apply order_eqb_spec in Ek. subst. rewrite <- IH, E. reflexivity.
    + rewrite IH. destruct (last_match r k); reflexivity.
Qed.

(* the derivative / factorial chain returns the Taylor coefficient: the orders [p] already
   processed stay in front, the axis being raised is the first after them *)

Lemma bump_app p x r : bump (length p) (p ++ x :: r) = p ++ S x :: r.
Proof. induction p; cbn; congruence. Qed.

Lemma iter_axis_app a (Q : poly W) p : forall x r,
  iter_axis W (length p) a Q (p ++ x :: r) = nsmul W (choose (x + a) a) (Q (p ++ (a + x) :: r)).
Proof.
  induction a; intros x r.
  - cbn. rewrite choose_0, (V_smul_1 W). reflexivity.
  - cbn [iter_axis]. unfold pdivn, pdiff. rewrite bump_app, IHa, nth_middle, <- (V_smul_mul W).
    replace (S x * choose (S x + a) a) with (S a * choose (x + S a) (S a)).
    + rewrite (V_smul_mul W), (V_div_smul W) by lia.
      replace (a + S x) with (S a + x) by lia. reflexivity.
    + rewrite <- Nat.add_succ_comm, choose_step. f_equal. lia.
Qed.

Lemma deriv_from_app (P : poly W) n : forall p,
  deriv_from W (length p) n P (p ++ repeat 0 (length n)) = P (p ++ n).
Proof.
  induction n as [|a r IH]; intro p; cbn; [reflexivity|].
  rewrite iter_axis_app, choose_nn, (V_smul_1 W), Nat.add_0_r.
  specialize (IH (p ++ [a])). rewrite app_length, Nat.add_1_r, <- !app_assoc in IH. exact IH.
Qed.

Theorem taylor_coeff (P : poly W) n : taylor W P n = P n.
Proof. apply (deriv_from_app P n []). Qed.

Theorem sympy_to_series_spec (P : poly W) n :
  sympy_to_series W P n = if vzerob W (P n) then None else Some (EV n (P n)).
Proof. unfold sympy_to_series. rewrite taylor_coeff. reflexivity. Qed.

(* index i of an order tuple counts the i-th symbol of the list in use *)

Lemma index_of_nth (l : list nat) : NoDup l -> forall i, i < length l -> index_of (nth i l 0) l = Some i.
Proof.
  induction 1 as [|x r Hx Hnd IH]; intros i Hi; cbn in *; [lia|].
  destruct i as [|i].
  - rewrite Nat.eqb_refl. reflexivity.
  - destruct (x =? nth i r 0) eqn:E.
    + apply Nat.eqb_eq in E. exfalso. apply Hx. rewrite E. apply nth_In. lia.
    + rewrite IH by lia. reflexivity.
Qed.

Lemma powers_of_nth syms n i :
  NoDup syms -> i < length syms -> powers_of syms n (nth i syms 0) = nth i n 0.
Proof. intros Hnd Hi. unfold powers_of. rewrite index_of_nth by assumption. reflexivity. Qed.

Definition vz (o : option V) : V := match o with Some v => v | None => vzero W end.

Definition den (c : container W) (n : order) : V :=
  match c with
  | CList l =>
    match l with
    | [] => vzero W
    | h0 :: ps =>
      if order_eqb n (repeat 0 (length ps)) then h0
      else match unit_index (length ps) n with
           | Some i => nth i ps (vzero W)
           | None => vzero W
           end
    end
  | CDict d => vz (lookup W d n)
  | CMono d =>
    (* the value stored under the monomial  prod_s s^(n_s), s ranging over the symbols of the
       keys in name order *)
    let symbols := symbols_of (map fst d) in
    vz (last_match (map (fun kv => (key_tuple symbols (fst kv), snd kv)) d) n)
  | CExpr _ P => P n
  | CSeries s => vz (s n)
  end.

Theorem nf_den c s n : to_scalar_series W c = Ok s -> coeff_of W (s n) = den c n.
Proof.
  destruct c as [l|d|d|k P|s0]; cbn; intro H.
  - destruct l as [|h0 ps]; [discriminate|].
    destruct (list_to_dict W (h0 :: ps)) as [d|] eqn:Ed; [|discriminate]. inversion H; subst.
    rewrite (lookup_list_to_dict _ _ _ n Ed).
    destruct (order_eqb (repeat 0 (length ps)) n) eqn:E.
    + apply order_eqb_spec in E. subst. rewrite order_eqb_refl. reflexivity.
    + rewrite order_eqb_false by (intros ->; rewrite order_eqb_refl in E; discriminate).
      destruct (unit_index (length ps) n) as [i|] eqn:Ei; [|reflexivity].
      destruct (nth_error ps i) eqn:En; [symmetry; apply nth_error_nth, En|].
      apply nth_error_None in En. apply unit_index_some in Ei. lia.
  - inversion H; subst. destruct (lookup W d n); reflexivity.
  - inversion H; subst. unfold symbolic_keys_to_tuples. cbn [fst].
    rewrite lookup_dict_of_items. destruct (last_match _ n); reflexivity.
  - inversion H; subst. rewrite sympy_to_series_spec.
    destruct (vzerob W (P n)) eqn:E; [|reflexivity]. apply (V_zerob W) in E. cbn. congruence.
  - inversion H; subst. destruct (s0 n); reflexivity.
Qed.

(* nested block lists: element (i, j, n) is grid_n[i][j] (sentinel zero for a zero block) *)
Theorem unpack_blocks_spec (s : order -> option (grid W)) i j n g row v :
  s n = Some g -> nth_error g i = Some row -> nth_error row j = Some v ->
  vz (unpack_blocks W s i j n) = v.
Proof.
  intros Hs Hg Hr. unfold unpack_blocks. rewrite Hs, Hg, Hr.
  destruct (vzerob W v) eqn:E; [|reflexivity]. apply (V_zerob W) in E. cbn. congruence.
Qed.

Theorem unpack_blocks_absent (s : order -> option (grid W)) i j n :
  s n = None -> unpack_blocks W s i j n = None.
Proof. intro H. unfold unpack_blocks. rewrite H. reflexivity. Qed.

End Proofs.

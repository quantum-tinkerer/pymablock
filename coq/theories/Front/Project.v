(* Model of operator_to_BlockSeries (projection onto blocks) and _subspaces_from_indices.
   Matrices are functions nat -> nat -> K with explicit dimensions; products are genuine sums. *)

Require Import List Bool Arith Lia.
Require Import PV.Front.GaussQc PV.Front.SylvDiagProofs.
Import ListNotations.

Section Project.
Variable F : Fld.
Notation K := (K F).
Notation k0 := (k0 F).
Notation k1 := (k1 F).
Notation "x + y" := (kadd F x y).
Notation "x * y" := (kmul F x y).

Add Ring KringP : (F_ring F).

Definition fmat := nat -> nat -> K.

(* Dagger *)
Definition fadj (A : fmat) : fmat := fun a b => kconj F (A b a).

(* left_projectors[i] @ original @ right_projectors[j] with left_projectors[i] = Dagger(L_i):
   (Dagger(L) @ A) @ R, N the ambient dimension *)
Definition project (N : nat) (L R A : fmat) : fmat :=
  fmul F N (fmul F N (fadj L) A) R.

(* _convert_if_zero on a d1 x d2 block (exact zero test) *)
Definition fzerob (d1 d2 : nat) (M : fmat) : bool :=
  forallb (fun a => forallb (fun b => keqb F (M a b) k0) (seq 0 d2)) (seq 0 d1).

Definition convert (d1 d2 : nat) (M : fmat) : option fmat :=
  if fzerob d1 d2 M then None else Some M.

(* _subspaces_from_indices: the columns of the identity at the positions of block b *)
Definition positions (sub : list nat) (b : nat) : list nat :=
  filter (fun k => nth k sub 0 =? b) (seq 0 (length sub)).

Definition sel (N : nat) (pos : list nat) : fmat :=
  fun l c => if l =? nth c pos N then k1 else k0.

(* the blocks: ambient dimension, sizes, left and right bases *)
Record setup := mkSetup {
  s_N : nat;
  s_size : nat -> nat;
  s_L : nat -> fmat;
  s_R : nat -> fmat
}.

Definition setup_of_indices (sub : list nat) : setup :=
  mkSetup (length sub) (fun b => length (positions sub b))
          (fun b => sel (length sub) (positions sub b))
          (fun b => sel (length sub) (positions sub b)).

(* op_eval of operator_to_BlockSeries for one order; [A] is the scalar series element
   (None = sentinel zero) *)
Definition direct (S : setup) (A : option fmat) (i j : nat) : option fmat :=
  match A with
  | None => None
  | Some M => convert (s_size S i) (s_size S j) (project (s_N S) (s_L S i) (s_R S j) M)
  end.

Definition op_eval (S : setup) (hermitian : bool) (A : option fmat) (i j : nat) : option fmat :=
  if hermitian && (j <? i) then option_map fadj (direct S A j i)   (* Dagger(op[(j, i, ...)]) *)
  else direct S A i j.

(* the matrix an element denotes: the sentinel zero is the zero matrix *)
Definition oget (o : option fmat) (a b : nat) : K :=
  match o with Some M => M a b | None => k0 end.

Lemma fsum_add n f g : fsum F n (fun k => f k + g k) = fsum F n f + fsum F n g.
Proof. induction n; cbn; [ring|]. rewrite IHn. ring. Qed.

Lemma fsum_mul_r n f c : fsum F n f * c = fsum F n (fun k => f k * c).
Proof. induction n; cbn; [ring|]. rewrite <- IHn. ring. Qed.

Lemma fsum_mul_l n f c : c * fsum F n f = fsum F n (fun k => c * f k).
Proof. induction n; cbn; [ring|]. rewrite <- IHn. ring. Qed.

Lemma fsum_swap n m (f : nat -> nat -> K) :
  fsum F n (fun a => fsum F m (fun b => f a b)) = fsum F m (fun b => fsum F n (fun a => f a b)).
Proof.
  induction n; cbn.
  - rewrite fsum_zero. reflexivity.
  - rewrite IHn, <- fsum_add. reflexivity.
Qed.

Lemma conj_fsum n f : kconj F (fsum F n f) = fsum F n (fun k => kconj F (f k)).
Proof. induction n; cbn; [apply conj_k0|]. rewrite (F_conj_add F), IHn. reflexivity. Qed.

(* element (i, j, n) is L_i^dagger A_n R_j *)

Theorem project_entry N L R A a b :
  project N L R A a b =
  fsum F N (fun l => fsum F N (fun k => kconj F (L k a) * A k l) * R l b).
Proof. reflexivity. Qed.

Lemma fzerob_true d1 d2 M : fzerob d1 d2 M = true ->
  forall a b, a < d1 -> b < d2 -> M a b = k0.
Proof.
  unfold fzerob. intros H a b Ha Hb. rewrite forallb_forall in H.
  specialize (H a). rewrite forallb_forall in H.
  apply (F_eqb F). apply H; apply in_seq; lia.
Qed.

Lemma oget_convert d1 d2 M a b : a < d1 -> b < d2 -> oget (convert d1 d2 M) a b = M a b.
Proof.
  intros Ha Hb. unfold convert. destruct (fzerob d1 d2 M) eqn:E; [|reflexivity].
  cbn. symmetry. eapply fzerob_true; eauto.
Qed.

Lemma oget_adj_convert d1 d2 M a b :
  a < d1 -> b < d2 -> oget (option_map fadj (convert d1 d2 M)) b a = fadj M b a.
Proof.
  intros Ha Hb. unfold convert. destruct (fzerob d1 d2 M) eqn:E; [|reflexivity].
  cbn. unfold fadj. rewrite (fzerob_true _ _ _ E a b Ha Hb). symmetry. apply conj_k0.
Qed.

Theorem op_eval_direct S A M i j a b :
  A = Some M -> a < s_size S i -> b < s_size S j ->
  oget (direct S A i j) a b = project (s_N S) (s_L S i) (s_R S j) M a b.
Proof. intros -> Ha Hb. cbn. apply oget_convert; assumption. Qed.

Theorem op_eval_absent S h i j a b : oget (op_eval S h None i j) a b = k0.
Proof. unfold op_eval. destruct (h && (j <? i)); reflexivity. Qed.

(* with index vectors the projection is the sub-matrix rows(i) x cols(j) *)
Theorem project_indices N rows cols A a b :
  nth a rows N < N -> nth b cols N < N ->
  project N (sel N rows) (sel N cols) A a b = A (nth a rows N) (nth b cols N).
Proof.
  intros Ha Hb. rewrite project_entry, (fsum_single F N _ (nth b cols N) Hb).
  - rewrite (fsum_single F N _ (nth a rows N) Ha).
    + unfold sel. rewrite !Nat.eqb_refl, (F_conj_1 F). ring.
    + intros k Hk. unfold sel. rewrite (proj2 (Nat.eqb_neq _ _) Hk), (conj_k0 F). ring.
  - intros l Hl. unfold sel. rewrite (proj2 (Nat.eqb_neq l _) Hl). ring.
Qed.

Lemma positions_lt sub b c : c < length (positions sub b) ->
  nth c (positions sub b) (length sub) < length sub /\
  nth (nth c (positions sub b) (length sub)) sub 0 = b.
Proof.
  intro H. assert (Hin : In (nth c (positions sub b) (length sub)) (positions sub b))
    by (apply nth_In; exact H).
  set (p := nth c (positions sub b) (length sub)) in *.
  unfold positions in Hin.
  apply filter_In in Hin. destruct Hin as [Hs Hb]. apply in_seq in Hs. apply Nat.eqb_eq in Hb.
  split; [lia|exact Hb].
Qed.

(* for a Hermitian A, Dagger of the projected block is the projection with the bases swapped *)

Theorem fadj_project N R1 R2 A a b :
  (forall k l, k < N -> l < N -> A l k = kconj F (A k l)) ->
  fadj (project N R1 R2 A) a b = project N R2 R1 A a b.
Proof.
  intro HA. unfold fadj. rewrite !project_entry.
  rewrite conj_fsum.
  transitivity (fsum F N (fun l => fsum F N (fun k => kconj F (R2 l a) * A l k * R1 k b))).
  - apply fsum_ext. intros l Hl. rewrite (F_conj_mul F), conj_fsum, fsum_mul_r.
    apply fsum_ext. intros k Hk.
    rewrite (F_conj_mul F), (F_conj_conj F), <- (HA k l Hk Hl). ring.
  - rewrite fsum_swap. apply fsum_ext. intros k Hk. rewrite fsum_mul_r. reflexivity.
Qed.

End Project.

(* Model of the input validation of pymablock.block_diagonalize.

   A call is abstracted to the record [call] of the facts the validation code looks at.
   [checks c] lists the tests IN THEIR ORDER OF EXECUTION at definition time (the body of
   block_diagonalize, including the calls of _to_scalar_BlockSeries, _unpack_blocks,
   _normalize_subspace_eigenvectors, _check_biorthonormality and operator_to_BlockSeries);
   [validate] returns the first one that fires.  [on_first_use] gives the lazily executed
   tests: the shared-eigenvalue test of solve_sylvester_diagonal at the first use of a block
   pair with a right-hand side other than the sentinel zero, the Hermiticity test of the
   Taylor coefficients of a sympy-expression input at their first evaluation, the N x N test of
   _unpack_blocks on the nested block lists of an order at its first evaluation ([c_ragged]; the
   zeroth order is read at definition time), and the index test of the wrapper around legacy
   one-argument solvers.

   Outside the record (preconditions on the container, not validation classes of C20):
   a dict input has a zeroth-order key (else KeyError); indices in fully_diagonalize are
   smaller than the number of blocks (else IndexError). *)

Require Import List Bool Arith Lia.
Import ListNotations.

Inductive exn := ValueError | TypeError | NotImplementedError | UnboundLocalError.
Inductive stage := AtDefinition | AtFirstUse.
Inductive verdict := Accept | Reject (e : exn) (s : stage).
Inductive tri := Yes | No | Unknown.

(* type of the [hamiltonian] argument *)
Inductive hfmt := FList | FDictTuple | FDictMonomial | FSympyExpr | FBlockSeries | FUnsupported.
Inductive keyfault := KeysOk | KeysNonCommutative | KeysNotMonomial.

(* one value of a fully_diagonalize dictionary *)
Record mask := mkMask {
  m_is_ndarray : bool;
  m_symmetric : bool;          (* (m == m.T).all() *)
  m_hits_equal : bool          (* (m & equal_eigs[i]).any() *)
}.

Inductive fdform :=
| FdEmpty
| FdTuple (l : list nat)
| FdDict (l : list (nat * mask))
| FdArray (truth : option bool) (m : mask).   (* bare array / sympy object; bool(array) may be ambiguous *)

Inductive veckind := VecNumpy | VecSympy | VecOtherType.

Record eigvecs := mkEigvecs {
  ev_has_pair : bool;          (* some entry is a (right, left) tuple *)
  ev_pair_len_ok : bool;
  ev_shapes_ok : bool;
  ev_kind : veckind;           (* type of right_subspaces[0] *)
  (* _check_biorthonormality stacks ALL right vectors and ALL left vectors and compares the full
     overlap matrix L^dagger R with the identity (numpy allclose gives Yes/No, sympy Eq may be
     Unknown).  The two parts of that matrix: *)
  ev_overlap_within : tri;     (* diagonal blocks: L_i^dagger R_i = I for every subspace i *)
  ev_overlap_cross : tri;      (* off-diagonal blocks: L_i^dagger R_j = 0 for i <> j *)
  ev_complete : bool;          (* num_vectors >= dim *)
  ev_dim_matches : bool;       (* h_0.shape[0] == right_subspaces[0].shape[0] *)
  ev_all_ndarray : bool
}.

(* the stacked comparison: definitely different as soon as one part is, equal iff both are *)
Definition tri_and (a b : tri) : tri :=
  match a, b with
  | No, _ | _, No => No
  | Yes, Yes => Yes
  | _, _ => Unknown
  end.
Definition ev_overlap (ev : eigvecs) : tri := tri_and (ev_overlap_within ev) (ev_overlap_cross ev).

(* zeroth-order block (i, j) after projection and _convert_if_zero *)
(* BNonzero: a numeric array that is not allclose to 0, or a sympy object that is decidably
   non-zero (is_zero_matrix / is_zero is False); BUndecided: a sympy object whose vanishing
   sympy cannot decide (only a UserWarning, the block is then assumed to be zero) *)
Inductive h0block := BZero | BNonzero | BUndecided.

Record call := mkCall {
  c_format : hfmt;
  c_nparams : nat;
  c_symbols_missing : bool;          (* sympy expression: a declared symbol is not a free symbol *)
  c_keys : keyfault;                 (* monomial-key dict *)
  c_hermitian : bool;
  c_solver_arity : option nat;       (* custom solve_sylvester and its number of parameters *)
  c_direct_solver : bool;
  c_fd : fdform;
  c_preblocked : bool;               (* values are nested block lists / a BlockSeries with a shape *)
  c_blocks_square : bool;
  c_eigvecs : option eigvecs;
  c_indices : bool;                  (* subspace_indices given *)
  c_h0_symbolic : bool;
  c_nblocks : nat;                   (* H.shape[0] after normalisation *)
  c_h0_off : nat -> nat -> h0block;
  c_h0_diag_zero : nat -> bool;
  c_second_quant : bool;             (* H_0 contains second-quantised operators *)
  c_pair_shares : nat -> nat -> bool;     (* blocks i and j share an eigenvalue: |a-b| <= atol + 1e-5|b| (numeric) / == (sympy) *)
  c_term_herm : list nat -> tri;     (* sympy expression: is_hermitian of the Taylor coefficient *)
  c_invalid_operator : bool;         (* some non-zero diagonal H_0 block has neither __matmul__ nor __mul__ *)
  c_ragged : list nat -> bool        (* nested block lists: the grid of that order is not N x N *)
}.

(* ---------------- derived quantities ---------------- *)

Definition custom (c : call) : bool :=
  match c_solver_arity c with Some _ => true | None => false end.

Definition evb (c : call) (f : eigvecs -> bool) : bool :=
  match c_eigvecs c with Some ev => f ev | None => false end.

Definition has_eigvecs (c : call) : bool := evb c (fun _ => true).

(* use_implicit = num_vectors < dim *)
Definition implicit (c : call) : bool := evb c (fun ev => negb (ev_complete ev)).

Definition fd_truth (f : fdform) : option bool :=
  match f with
  | FdEmpty => Some false
  | FdTuple l => Some (negb (Nat.eqb (length l) 0))
  | FdDict l => Some (negb (Nat.eqb (length l) 0))
  | FdArray t _ => t
  end.

Definition is_array (f : fdform) : bool := match f with FdArray _ _ => true | _ => false end.

(* after "if H.shape[0] == 1: ..." *)
Definition fd_eff (c : call) : fdform :=
  if c_nblocks c =? 1 then
    match c_fd c with
    | FdArray _ m => FdDict [(0, m)]
    | FdEmpty => FdTuple [0]
    | f => f
    end
  else c_fd c.

Definition fd_keys (f : fdform) : list nat :=
  match f with
  | FdEmpty => [] | FdTuple l => l | FdDict l => map fst l | FdArray _ _ => []
  end.

Definition fd_masks (f : fdform) : list mask :=
  match f with FdDict l => map snd l | _ => [] end.

Definition zero_order (c : call) : list nat := repeat 0 (c_nparams c).

(* the block pairs looked at by the block-diagonality loop *)
Definition scanned (c : call) (i j : nat) : bool :=
  negb (i =? j) && negb (c_hermitian c && (j <? i)).

Definition all_pairs (n : nat) : list (nat * nat) :=
  flat_map (fun i => map (fun j => (i, j)) (seq 0 n)) (seq 0 n).

Definition is_nonzero (b : h0block) : bool :=
  match b with BNonzero => true | _ => false end.

(* "not len(fully_diagonalize)" for a tuple / dict *)
Definition fd_len0 (f : fdform) : bool :=
  match f with
  | FdEmpty => true
  | FdTuple l => length l =? 0
  | FdDict l => length l =? 0
  | FdArray _ _ => false
  end.

Definition tri_is_no (t : tri) : bool := match t with No => true | _ => false end.

Definition fmt_is (c : call) (f : hfmt) : bool :=
  match c_format c, f with
  | FList, FList | FDictTuple, FDictTuple | FDictMonomial, FDictMonomial
  | FSympyExpr, FSympyExpr | FBlockSeries, FBlockSeries | FUnsupported, FUnsupported => true
  | _, _ => false
  end.

Definition opt_is (o : option bool) (b : bool) : bool :=
  match o with Some x => Bool.eqb x b | None => false end.
Definition opt_none (o : option bool) : bool := match o with None => true | _ => false end.

(* ---------------- the definition-time tests, in order ---------------- *)

Definition checks (c : call) : list (bool * exn) :=
  let herm := c_hermitian c in
  let imp := implicit c in
  [ (* "if solve_sylvester is not None and fully_diagonalize" *)
    (custom c && opt_none (fd_truth (c_fd c)), ValueError);          (* bool(ndarray) ambiguous *)
    (custom c && opt_is (fd_truth (c_fd c)) true, NotImplementedError);
    (* _to_scalar_BlockSeries *)
    (fmt_is c FUnsupported, TypeError);
    (fmt_is c FSympyExpr && c_symbols_missing c, ValueError);
    (fmt_is c FDictMonomial && match c_keys c with KeysNonCommutative => true | _ => false end, ValueError);
    (fmt_is c FDictMonomial && match c_keys c with KeysNotMonomial => true | _ => false end, ValueError);
    (* _unpack_blocks evaluates the zeroth order: Hermiticity test of the zeroth coefficient *)
    (fmt_is c FSympyExpr && herm && tri_is_no (c_term_herm c (zero_order c)), ValueError);
    (* subspace_eigenvectors *)
    (evb c (fun ev => herm && ev_has_pair ev), ValueError);
    (evb c (fun ev => negb (ev_pair_len_ok ev)), ValueError);
    (evb c (fun ev => negb (ev_shapes_ok ev)), ValueError);
    (evb c (fun ev => match ev_kind ev with VecOtherType => false | _ => tri_is_no (ev_overlap ev) end),
     ValueError);                                                   (* _check_biorthonormality *)
    (* implicit mode *)
    (imp && c_preblocked c, ValueError);
    (imp && c_h0_symbolic c, ValueError);
    (imp && negb herm && negb (custom c) && negb (c_direct_solver c), NotImplementedError);
    (imp && evb c (fun ev => negb (ev_dim_matches ev)), ValueError);
    (imp && negb (custom c) && evb c (fun ev => negb (ev_all_ndarray ev)), TypeError);
    (imp && negb (custom c) && negb (c_direct_solver c) && evb c ev_has_pair, NotImplementedError);
    (* operator_to_BlockSeries *)
    (has_eigvecs c && c_indices c, ValueError);
    (c_preblocked c && (has_eigvecs c || c_indices c), ValueError);
    (c_preblocked c && negb (c_blocks_square c), ValueError);
    (* fully_diagonalize as a bare array with several blocks *)
    (negb (c_nblocks c =? 1) && is_array (c_fd c), ValueError);
    (* single block: the default (0,) would be substituted, not supported with a custom solver *)
    ((c_nblocks c =? 1) && fd_len0 (c_fd c) && custom c, NotImplementedError);
    (* _unpack_blocks: "operator must have an NxN block structure" when the zeroth-order grid is
       ragged (raised while the loops below read the blocks) *)
    (c_preblocked c && c_ragged c (zero_order c), ValueError);
    (* block-diagonality of H_0 (blocks sympy cannot decide only warn) *)
    (existsb (fun p => scanned c (fst p) (snd p) && is_nonzero (c_h0_off c (fst p) (snd p)))
             (all_pairs (c_nblocks c)), ValueError);
    (* "The diagonal of the unperturbed Hamiltonian may not be zero" *)
    (forallb (c_h0_diag_zero c) (seq 0 (c_nblocks c)), ValueError);
    (* "The unperturbed Hamiltonian is not a valid operator" *)
    (c_invalid_operator c, ValueError);
    (* implicit block listed in fully_diagonalize *)
    (imp && existsb (Nat.eqb (c_nblocks c - 1)) (fd_keys (fd_eff c)), ValueError);
    (* legacy one-argument solver *)
    (match c_solver_arity c with Some 1 => negb herm | _ => false end, NotImplementedError);
    (* equal_eigs reads [diagonal], which is unbound with a custom solver in explicit mode *)
    (custom c && negb imp && negb (length (fd_keys (fd_eff c)) =? 0), UnboundLocalError);
    (* masks: type, symmetry; then degenerate elimination *)
    (negb (c_second_quant c) &&
     existsb (fun m => negb (m_is_ndarray m) || (herm && negb (m_symmetric m))) (fd_masks (fd_eff c)),
     ValueError);
    (negb (c_second_quant c) && existsb m_hits_equal (fd_masks (fd_eff c)), ValueError)
  ].

Definition validate (c : call) : verdict :=
  match find (fun p : bool * exn => fst p) (checks c) with
  | Some (_, e) => Reject e AtDefinition
  | None => Accept
  end.

(* ---------------- lazily executed tests ---------------- *)

Inductive use :=
| UsePair (i j : nat)          (* solve_sylvester(Y, (i, j)) with Y not the sentinel zero *)
| UseTerm (n : list nat).      (* first evaluation of the input series at order n *)

(* which Sylvester solver block_diagonalize installs *)
Inductive solver := SCustom | SSecondQuant | SDiagonal | SDirect | SKPM.

Definition solver_of (c : call) : solver :=
  if custom c then SCustom
  else if implicit c then (if c_direct_solver c then SDirect else SKPM)
  else if c_second_quant c then SSecondQuant
  else SDiagonal.

(* the pair is handled by a solve_sylvester_diagonal closure (explicit blocks) *)
Definition diag_pair (c : call) (i j : nat) : bool :=
  match solver_of c with
  | SDiagonal => true
  | SDirect | SKPM => (i <? c_nblocks c - 1) && (j <? c_nblocks c - 1)
  | _ => false
  end.

Definition legacy (c : call) : bool :=
  match c_solver_arity c with Some 1 => true | _ => false end.

Definition on_first_use (c : call) (u : use) : verdict :=
  match u with
  | UsePair i j =>
    if legacy c && negb (((i =? 0) && (j =? 1)) || ((i =? 1) && (j =? 0)))
    then Reject ValueError AtFirstUse
    else if diag_pair c i j && negb (i =? j) && c_pair_shares c i j
    then Reject ValueError AtFirstUse
    else Accept
  | UseTerm n =>
    if fmt_is c FSympyExpr && c_hermitian c && tri_is_no (c_term_herm c n)
    then Reject ValueError AtFirstUse
    else if c_preblocked c && c_ragged c n     (* _unpack_blocks, first evaluation of that order *)
    then Reject ValueError AtFirstUse
    else Accept
  end.

(* the whole life of a call: definition, then the uses triggered while evaluating orders
   1, 2, ... (given by the schedule); result: verdict and the order at which it fell *)
Fixpoint first_lazy (c : call) (us : list use) : verdict :=
  match us with
  | [] => Accept
  | u :: r => match on_first_use c u with Accept => first_lazy c r | v => v end
  end.

Fixpoint run_schedule (c : call) (sched : list (nat * list use)) : verdict * option nat :=
  match sched with
  | [] => (Accept, None)
  | (n, us) :: r =>
    match first_lazy c us with
    | Accept => run_schedule c r
    | v => (v, Some n)
    end
  end.

Definition life (c : call) (sched : list (nat * list use)) : verdict * option nat :=
  match validate c with
  | Accept => run_schedule c sched
  | v => (v, None)
  end.

(* ---------------- boolean comparison for the harness ---------------- *)

Definition exn_eqb (a b : exn) : bool :=
  match a, b with
  | ValueError, ValueError | TypeError, TypeError | NotImplementedError, NotImplementedError
  | UnboundLocalError, UnboundLocalError => true
  | _, _ => false
  end.
Definition stage_eqb (a b : stage) : bool :=
  match a, b with AtDefinition, AtDefinition | AtFirstUse, AtFirstUse => true | _, _ => false end.
Definition verdict_eqb (a b : verdict) : bool :=
  match a, b with
  | Accept, Accept => true
  | Reject e s, Reject e' s' => exn_eqb e e' && stage_eqb s s'
  | _, _ => false
  end.
Definition life_eqb (a b : verdict * option nat) : bool :=
  verdict_eqb (fst a) (fst b) &&
  match snd a, snd b with
  | None, None => true | Some x, Some y => x =? y | _, _ => false
  end.

(* Gaussian rationals over canonical rationals [Qc] (Leibniz equality, computable):
   the executable value domain of the front-end models (energies, matrix entries).
   Also the abstract interface [Fld] ("field with conjugation and tolerance tests")
   under which the theorems of Front/SylvDiagProofs are proved. *)

Require Import QArith Qcanon Bool Lqa ZArith.

Record Fld : Type := mkFld {
  K      : Type;
  k0     : K;
  k1     : K;
  kadd   : K -> K -> K;
  kmul   : K -> K -> K;
  ksub   : K -> K -> K;
  kopp   : K -> K;
  kinv   : K -> K;
  kconj  : K -> K;
  keqb   : K -> K -> bool;
  (* [far d]: the test |d| > atol of the numeric branches;
     [close a b]: the shared-eigenvalue test numpy.isclose(a, b, atol=atol) (the solver's
     atol, numpy's default rtol = 1e-5 relative to b) *)
  far    : K -> bool;
  close  : K -> K -> bool;
  (* laws *)
  F_ring   : ring_theory k0 k1 kadd kmul ksub kopp (@eq K);
  F_inv    : forall d, d <> k0 -> kmul d (kinv d) = k1;
  F_eqb    : forall a b, keqb a b = true <-> a = b;
  F_conj_add : forall a b, kconj (kadd a b) = kadd (kconj a) (kconj b);
  F_conj_mul : forall a b, kconj (kmul a b) = kmul (kconj a) (kconj b);
  F_conj_opp : forall a, kconj (kopp a) = kopp (kconj a);
  F_conj_inv : forall a, kconj (kinv a) = kinv (kconj a);
  F_conj_inv0 : kinv k0 = k0;
  F_conj_1 : kconj k1 = k1;
  F_conj_conj : forall a, kconj (kconj a) = a;
  F_far0   : far k0 = false;                       (* atol >= 0 *)
  F_far_opp : forall d, far (kopp d) = far d;
  F_far_conj : forall d, far (kconj d) = far d;
  F_close_refl : forall a, close a a = true
}.

Record G : Type := mkG { re : Qc; im : Qc }.

Definition g0 : G := mkG 0 0.
Definition g1 : G := mkG 1 0.
Definition gadd (a b : G) : G := mkG (re a + re b) (im a + im b).
Definition gsub (a b : G) : G := mkG (re a - re b) (im a - im b).
Definition gopp (a : G) : G := mkG (- re a) (- im a).
Definition gmul (a b : G) : G :=
  mkG (re a * re b - im a * im b) (re a * im b + im a * re b).
Definition gconj (a : G) : G := mkG (re a) (- im a).
Definition gnorm2 (a : G) : Qc := re a * re a + im a * im a.
Definition ginv (a : G) : G :=
  mkG (re a / gnorm2 a) (- im a / gnorm2 a).
Definition geqb (a b : G) : bool := Qc_eq_bool (re a) (re b) && Qc_eq_bool (im a) (im b).

Definition Qcltb (x y : Qc) : bool := match (x ?= y)%Qc with Lt => true | _ => false end.
Definition Qcleb (x y : Qc) : bool := match (x ?= y)%Qc with Gt => false | _ => true end.

(* |d| > t, decided on squares (t < 0: always true, as in numpy) *)
Definition gfar (t : Qc) (d : G) : bool :=
  if Qcltb t 0 then true else Qcltb (t * t) (gnorm2 d).

(* numpy.isclose(a, b, rtol=r, atol=A): |a - b| <= A + r |b|, decided without square
   roots (A, r >= 0):  |d| <= A  or  s <= 0  or  s^2 <= 4 A^2 |d|^2
   with s = |d|^2 + A^2 - r^2 |b|^2. *)
Definition gclose_gen (A r : Qc) (a b : G) : bool :=
  let d2 := gnorm2 (gsub a b) in
  let s := d2 + A * A - r * r * gnorm2 b in
  Qcleb d2 (A * A) || Qcleb s 0 || Qcleb (s * s) (Q2Qc 4 * (A * A) * d2).

Definition np_rtol : Qc := Q2Qc (1 # 100000).
(* the shared-eigenvalue test of solve_sylvester_diagonal since fix e4d96a1:
   np.isclose(E_a, E_b, atol=atol) with the SOLVER's atol (numpy's default rtol, relative to E_b):
   shared(a, b) := |a - b| <= atol + 1e-5 |b| *)
Definition gclose (t : Qc) : G -> G -> bool := gclose_gen t np_rtol.

(* literals used by the harnesses *)
Definition qc (a : Z) (b : positive) : Qc := Q2Qc (a # b).
Definition gq (a : Z) (b : positive) (c : Z) (d : positive) : G := mkG (qc a b) (qc c d).
Definition gz (a : Z) : G := mkG (qc a 1) 0.

Lemma G_ext a b : re a = re b -> im a = im b -> a = b.
Proof. destruct a, b; simpl; intros -> ->; reflexivity. Qed.

Lemma G_ring : ring_theory g0 g1 gadd gmul gsub gopp (@eq G).
Proof.
  constructor; intros; apply G_ext; simpl; ring.
Qed.

Lemma Qc_to_Q (x y : Qc) : x = y -> (x == y)%Q.
Proof. intros ->; reflexivity. Qed.

Lemma this_add (x y : Qc) : (this (x + y)%Qc == this x + this y)%Q.
Proof. unfold Qcplus, Q2Qc; cbn [this]; apply Qred_correct. Qed.
Lemma this_mul (x y : Qc) : (this (x * y)%Qc == this x * this y)%Q.
Proof. unfold Qcmult, Q2Qc; cbn [this]; apply Qred_correct. Qed.

Lemma Qc_sumsq (a b : Qc) : a * a + b * b = 0 -> a = 0 /\ b = 0.
Proof.
  intro H. apply Qc_to_Q in H.
  rewrite this_add, !this_mul in H.
  change (this 0%Qc) with 0%Q in H.
  split; apply Qc_is_canon; change (this 0%Qc) with 0%Q; nra.
Qed.

Lemma gnorm2_zero a : gnorm2 a = 0 -> a = g0.
Proof.
  unfold gnorm2; intro H. apply Qc_sumsq in H. destruct H.
  apply G_ext; assumption.
Qed.

Lemma ginv_r a : a <> g0 -> gmul a (ginv a) = g1.
Proof.
  intro Ha.
  assert (Hn : gnorm2 a <> 0) by (intro H; apply Ha, gnorm2_zero, H).
  apply G_ext; unfold gmul, ginv; simpl; unfold gnorm2 in *; field; exact Hn.
Qed.

Lemma geqb_spec a b : geqb a b = true <-> a = b.
Proof.
  unfold geqb. rewrite andb_true_iff. split.
  - intros [H1 H2]. apply Qc_eq_bool_correct in H1. apply Qc_eq_bool_correct in H2.
    apply G_ext; assumption.
  - intros ->. split; unfold Qc_eq_bool; destruct (Qc_eq_dec _ _); congruence.
Qed.

Lemma gconj_add a b : gconj (gadd a b) = gadd (gconj a) (gconj b).
Proof. apply G_ext; simpl; ring. Qed.
Lemma gconj_mul a b : gconj (gmul a b) = gmul (gconj a) (gconj b).
Proof. apply G_ext; simpl; ring. Qed.
Lemma gconj_opp a : gconj (gopp a) = gopp (gconj a).
Proof. apply G_ext; simpl; ring. Qed.
Lemma gconj_1 : gconj g1 = g1.
Proof. apply G_ext; simpl; ring. Qed.
Lemma gconj_conj a : gconj (gconj a) = a.
Proof. apply G_ext; simpl; ring. Qed.
Lemma gnorm2_conj a : gnorm2 (gconj a) = gnorm2 a.
Proof. unfold gnorm2; simpl; ring. Qed.
Lemma gnorm2_opp a : gnorm2 (gopp a) = gnorm2 a.
Proof. unfold gnorm2; simpl; ring. Qed.
Lemma gconj_inv a : gconj (ginv a) = ginv (gconj a).
Proof.
  unfold ginv. rewrite gnorm2_conj. apply G_ext; simpl; unfold Qcdiv; ring.
Qed.
Lemma ginv_0 : ginv g0 = g0.
Proof. apply G_ext; vm_compute; apply Qc_is_canon; reflexivity. Qed.

Lemma Qccompare_sq_not_lt (t : Qc) : Qcltb (t * t) 0 = false.
Proof.
  unfold Qcltb. destruct (t * t ?= 0)%Qc eqn:E; try reflexivity.
  exfalso. rewrite <- Qclt_alt in E. unfold Qclt in E.
  rewrite this_mul in E. change (this 0%Qc) with 0%Q in E. nra.
Qed.

Lemma gfar_0 t : gfar t g0 = false \/ Qcltb t 0 = true.
Proof.
  unfold gfar. destruct (Qcltb t 0); [right; reflexivity|left].
  replace (gnorm2 g0) with (0%Qc) by (apply Qc_is_canon; reflexivity).
  apply Qccompare_sq_not_lt.
Qed.

Lemma gfar_opp t d : gfar t (gopp d) = gfar t d.
Proof. unfold gfar. rewrite gnorm2_opp. reflexivity. Qed.
Lemma gfar_conj t d : gfar t (gconj d) = gfar t d.
Proof. unfold gfar. rewrite gnorm2_conj. reflexivity. Qed.

Lemma Qcleb_0_sq (t : Qc) : Qcleb 0 (t * t) = true.
Proof.
  unfold Qcleb. destruct (0 ?= t * t)%Qc eqn:E; try reflexivity.
  exfalso. rewrite <- Qcgt_alt in E. unfold Qclt in E.
  rewrite this_mul in E. change (this 0%Qc) with 0%Q in E. nra.
Qed.

Lemma gclose_refl t a : gclose t a a = true.
Proof.
  unfold gclose, gclose_gen.
  replace (gnorm2 (gsub a a)) with (0%Qc).
  - rewrite Qcleb_0_sq. reflexivity.
  - unfold gnorm2, gsub; simpl; ring.
Qed.

(* The instance with tolerance [t] (the [atol] argument), valid for t >= 0. *)
Definition GF (t : Qc) (Ht : Qcltb t 0 = false) : Fld.
Proof.
  refine (@mkFld G g0 g1 gadd gmul gsub gopp ginv gconj geqb (gfar t) (gclose t)
            G_ring ginv_r geqb_spec gconj_add gconj_mul gconj_opp gconj_inv ginv_0
            gconj_1 gconj_conj
            _ (gfar_opp t) (gfar_conj t) (gclose_refl t)).
  destruct (gfar_0 t) as [H|H]; [exact H|congruence].
Defined.

Arguments qc a%Z b%positive.
Arguments gq a%Z b%positive c%Z d%positive.
Arguments gz a%Z.

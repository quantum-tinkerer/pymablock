(* Theorems about the model of solve_sylvester_diagonal (Front/SylvDiag.v). *)

Require Import List Bool Arith Lia.
Require Import PV.Front.GaussQc PV.Front.SylvDiag.
Import ListNotations.

Section Proofs.
Variable F : Fld.
Notation K := (K F).
Notation k0 := (k0 F).
Notation "x + y" := (kadd F x y).
Notation "x * y" := (kmul F x y).
Notation "x - y" := (ksub F x y).
Notation "- x" := (kopp F x).

Add Ring Kring : (F_ring F).

Lemma sequence_imap {A B} (f : nat -> A -> option B) l : forall i V,
  sequence (imap f i l) = Some V ->
  length V = length l /\
  forall n dA dB, n < length l -> f (Nat.add i n) (nth n l dA) = Some (nth n V dB).
Proof.
  induction l as [|x l IH]; intros i V H; cbn in H.
  - inversion H; subst. split; [reflexivity|]. intros; cbn in *; lia.
  - destruct (f i x) eqn:Ef; [|discriminate].
    destruct (sequence (imap f (S i) l)) eqn:Es; [|discriminate].
    inversion H; subst. destruct (IH _ _ Es) as [Hl Hn].
    split; [cbn; congruence|].
    intros [|n] dA dB Hlt; cbn.
    + rewrite Nat.add_0_r. exact Ef.
    + cbn in Hlt. replace (Nat.add i (S n)) with (Nat.add (S i) n) by lia.
      apply Hn; lia.
Qed.

Lemma sequence_imap_total {A B} (f : nat -> A -> option B) d l : forall i,
  (forall n, n < length l -> f (Nat.add i n) (nth n l d) <> None) ->
  exists V, sequence (imap f i l) = Some V.
Proof.
  induction l as [|x l IH]; intros i Hf; cbn.
  - eexists; reflexivity.
  - destruct (f i x) eqn:Ef.
    + destruct (IH (S i)) as [V HV].
      { intros n Hn. replace (Nat.add (S i) n) with (Nat.add i (S n)) by lia.
        apply (Hf (S n)). cbn; lia. }
      rewrite HV. eexists; reflexivity.
    + exfalso. apply (Hf 0); [cbn; lia|]. cbn. rewrite Nat.add_0_r. exact Ef.
Qed.

Lemma by_energy_spec op eA eB M V :
  by_energy F op eA eB M = Some V ->
  length V = length M /\
  forall a, a < length M ->
    length (nth a V []) = length (nth a M []) /\
    forall b, b < length (nth a M []) ->
      op (mget F M a b) (eig_at F eA a - eig_at F eB b) = Some (mget F V a b).
Proof.
  unfold by_energy. intro H.
  destruct (sequence_imap _ _ _ _ H) as [Hl Hn].
  split; [exact Hl|]. intros a Ha.
  specialize (Hn a [] [] Ha). cbn in Hn.
  destruct (sequence_imap _ _ _ _ Hn) as [Hl2 Hn2].
  split; [exact Hl2|]. intros b Hb.
  specialize (Hn2 b k0 k0 Hb). cbn in Hn2. exact Hn2.
Qed.

Lemma by_energy_total op eA eB M :
  (forall a b, a < length M -> b < length (nth a M []) ->
     op (mget F M a b) (eig_at F eA a - eig_at F eB b) <> None) ->
  exists V, by_energy F op eA eB M = Some V.
Proof.
  intro Hop. unfold by_energy. apply (sequence_imap_total _ []). intros a Ha. cbn [Nat.add].
  destruct (sequence_imap_total (fun b y => op y (eig_at F eA a - eig_at F eB b)) k0 (nth a M []) 0)
    as [V HV]; [|rewrite HV; discriminate].
  intros b Hb. apply (Hop a b Ha Hb).
Qed.

(* the guarded explicit branches never divide by a
   quantity failing the safety test, whatever the data *)
Theorem sylv_diag_nodiv g eA eB Y : sylv_diag F g eA eB Y <> None.
Proof.
  destruct (by_energy_total (entry F g) eA eB Y) as [V HV]; [|unfold sylv_diag; congruence].
  intros a b _ _. unfold entry, pdiv. destruct (g _); discriminate.
Qed.

Lemma nonzero_spec d : nonzero F d = true <-> d <> k0.
Proof.
  unfold nonzero. rewrite negb_true_iff. split.
  - intros H E. apply (F_eqb F) in E. congruence.
  - intro H. destruct (keqb F d k0) eqn:E; [|reflexivity]. apply (F_eqb F) in E. contradiction.
Qed.

Lemma far_nz d : far F d = true -> d <> k0.
Proof. intros H E. subst. rewrite (F_far0 F) in H. discriminate. Qed.

Lemma guard_nz k d : guard F k d = true -> d <> k0.
Proof. destruct k; cbn; try apply far_nz. apply nonzero_spec. Qed.

Lemma div_mul d y : d <> k0 -> d * (y * kinv F d) = y.
Proof.
  intro H. transitivity (y * (d * kinv F d)); [ring|]. rewrite (F_inv F d H). ring.
Qed.

Theorem sylv_diag_spec g eA eB Y V :
  (forall d, g d = true -> d <> k0) ->
  sylv_diag F g eA eB Y = Some V ->
  length V = length Y /\
  forall a, a < length Y ->
    length (nth a V []) = length (nth a Y []) /\
    forall b, b < length (nth a Y []) ->
      let d := eig_at F eA a - eig_at F eB b in
      (g d = true -> d * mget F V a b = mget F Y a b) /\
      (g d = false -> mget F V a b = k0).
Proof.
  intros Hg H. destruct (by_energy_spec _ _ _ _ _ H) as [Hl Hn].
  split; [exact Hl|]. intros a Ha. destruct (Hn a Ha) as [Hl2 Hn2].
  split; [exact Hl2|]. intros b Hb d. specialize (Hn2 b Hb). fold d in Hn2.
  unfold entry, pdiv in Hn2. split; intro Hd; rewrite Hd in Hn2.
  - inversion Hn2 as [H1]. apply div_mul. apply Hg, Hd.
  - inversion Hn2; reflexivity.
Qed.

(* matrices as functions: H0_i V - V H0_j with H0 diagonal *)

Fixpoint fsum (n : nat) (f : nat -> K) : K :=
  match n with 0 => k0 | S m => fsum m f + f m end.
Definition fmul (n : nat) (A B : nat -> nat -> K) (a b : nat) : K :=
  fsum n (fun k => A a k * B k b).
Definition fdiag (e : nat -> K) (a b : nat) : K := if a =? b then e a else k0.

Lemma fsum_ext n f g : (forall k, k < n -> f k = g k) -> fsum n f = fsum n g.
Proof.
  induction n; intro H; cbn; [reflexivity|]. rewrite IHn by (intros; apply H; lia).
  rewrite H by lia. reflexivity.
Qed.

Lemma fsum_zero n : fsum n (fun _ => k0) = k0.
Proof. induction n; cbn; [reflexivity|]. rewrite IHn. ring. Qed.

Lemma fsum_single n f c : c < n -> (forall k, k <> c -> f k = k0) -> fsum n f = f c.
Proof.
  induction n; intros Hc Hf; [lia|]. cbn.
  destruct (Nat.eq_dec c n) as [->|Hne].
  - rewrite (fsum_ext n f (fun _ => k0)), fsum_zero by (intros; apply Hf; lia). ring.
  - rewrite IHn by (auto; lia). rewrite (Hf n) by lia. ring.
Qed.

Lemma fdiag_mul_l n e V a b : a < n -> fmul n (fdiag e) V a b = e a * V a b.
Proof.
  intro Ha. unfold fmul. rewrite (fsum_single n _ a Ha).
  - unfold fdiag. rewrite Nat.eqb_refl. reflexivity.
  - intros k Hk. unfold fdiag. destruct (a =? k) eqn:E; [apply Nat.eqb_eq in E; lia|]. ring.
Qed.

Lemma fdiag_mul_r n e V a b : b < n -> fmul n V (fdiag e) a b = V a b * e b.
Proof.
  intro Hb. unfold fmul. rewrite (fsum_single n _ b Hb).
  - unfold fdiag. rewrite Nat.eqb_refl. reflexivity.
  - intros k Hk. unfold fdiag. destruct (k =? b) eqn:E; [apply Nat.eqb_eq in E; lia|]. ring.
Qed.

Theorem sylv_diag_residual g eA eB Y V nA nB :
  (forall d, g d = true -> d <> k0) ->
  sylv_diag F g eA eB Y = Some V ->
  forall a b, a < length Y -> b < length (nth a Y []) -> a < nA -> b < nB ->
    g (eig_at F eA a - eig_at F eB b) = true ->
    fmul nA (fdiag (eig_at F eA)) (mget F V) a b - fmul nB (mget F V) (fdiag (eig_at F eB)) a b
    = mget F Y a b.
Proof.
  intros Hg H a b Ha Hb HnA HnB Hd.
  destruct (sylv_diag_spec _ _ _ _ _ Hg H) as [_ Hn].
  destruct (Hn a Ha) as [_ Hn2]. destruct (Hn2 b Hb) as [H1 _].
  rewrite fdiag_mul_l, fdiag_mul_r by assumption.
  rewrite <- (H1 Hd). ring.
Qed.

(* V(Y†) = - V(Y)† for real energies *)

Definition real_eigs (e : eigs F) : Prop := forall a, kconj F (eig_at F e a) = eig_at F e a.

Lemma opp_eq0 d : - d = k0 <-> d = k0.
Proof.
  split; intro H; [|rewrite H; ring]. transitivity (- - d); [ring|]. rewrite H. ring.
Qed.

Lemma sub_eq0 x y : x - y = k0 -> x = y.
Proof. intro H. transitivity (x - y + y); [ring|]. rewrite H. ring. Qed.

Lemma kinv_opp d : kinv F (- d) = - kinv F d.
Proof.
  destruct (keqb F d k0) eqn:E.
  - apply (F_eqb F) in E. subst. replace (- k0) with k0 by ring.
    rewrite (F_conj_inv0 F). ring.
  - assert (Hd : d <> k0) by (intro H; apply (F_eqb F) in H; congruence).
    assert (Hd' : - d <> k0) by (rewrite opp_eq0; exact Hd).
    transitivity (kinv F (- d) * (d * kinv F d)); [rewrite (F_inv F d Hd); ring|].
    transitivity (- ((- d) * kinv F (- d)) * kinv F d); [ring|].
    rewrite (F_inv F _ Hd'). ring.
Qed.

Lemma conj_k0 : kconj F k0 = k0.
Proof.
  assert (H : kconj F k0 + kconj F k0 = kconj F k0).
  { rewrite <- (F_conj_add F). f_equal. ring. }
  transitivity (kconj F k0 + kconj F k0 - kconj F k0); [ring|]. rewrite H. ring.
Qed.

Lemma guard_opp k d : guard F k (- d) = guard F k d.
Proof.
  destruct k; cbn; try apply (F_far_opp F).
  apply eq_true_iff_eq. rewrite !nonzero_spec, opp_eq0. reflexivity.
Qed.

Lemma real_diff eA eB a b :
  real_eigs eA -> real_eigs eB ->
  kconj F (eig_at F eA a - eig_at F eB b) = eig_at F eA a - eig_at F eB b.
Proof.
  intros HA HB. replace (eig_at F eA a - eig_at F eB b) with (eig_at F eA a + - eig_at F eB b) by ring.
  rewrite (F_conj_add F), (F_conj_opp F), HA, HB. reflexivity.
Qed.

(* one entry: conjugating the right-hand side and swapping the two energies *)
Lemma entry_antiherm k y x x' v v' :
  kconj F (x - x') = x - x' ->
  entry F (guard F k) y (x - x') = Some v ->
  entry F (guard F k) (kconj F y) (x' - x) = Some v' ->
  v' = - kconj F v.
Proof.
  intro Hd. replace (x' - x) with (- (x - x')) by ring.
  unfold entry, pdiv. rewrite guard_opp. destruct (guard F k (x - x')); intros H1 H2;
    inversion H1; inversion H2.
  - rewrite (F_conj_mul F), (F_conj_inv F), kinv_opp, Hd. ring.
  - rewrite conj_k0. ring.
Qed.

(* the closure: lazily executed shared-eigenvalue check, index_checked *)

Variable E : list (eigs F).
Variable vimp : option (mat F).

Definition no_equal (eA eB : eigs F) : Prop :=
  forall a b, In a (vals F eA) -> In b (vals F eB) -> a <> b.

(* every pair recorded in index_checked has passed the test *)
Definition Inv (st : state) : Prop :=
  forall i j eA eB, In (i, j) st -> nth_error E i = Some eA -> nth_error E j = Some eB ->
    no_equal eA eB.

Lemma cmp_refl k a : cmp F k a a = true.
Proof. destruct k; cbn; try apply (F_close_refl F). apply (F_eqb F). reflexivity. Qed.

Lemma shares_common k eA eB :
  (exists a, In a (vals F eA) /\ In a (vals F eB)) -> shares F k eA eB = true.
Proof.
  intros [a [Ia Ib]]. unfold shares. apply existsb_exists. exists a. split; [exact Ia|].
  apply existsb_exists. exists a. split; [exact Ib|apply cmp_refl].
Qed.

Lemma shares_false k eA eB : shares F k eA eB = false -> no_equal eA eB.
Proof.
  intros H a b Ia Ib <-. rewrite shares_common in H by (exists a; auto). discriminate.
Qed.

Lemma memp_In p st : memp p st = true <-> In p st.
Proof.
  unfold memp. rewrite existsb_exists. split.
  - intros [q [Iq Hq]]. apply andb_true_iff in Hq. destruct Hq as [H1 H2].
    apply Nat.eqb_eq in H1. apply Nat.eqb_eq in H2. destruct p, q; cbn in *; subst. exact Iq.
  - intro H. exists p. split; [exact H|]. rewrite !Nat.eqb_refl. reflexivity.
Qed.

Lemma Inv_nil : Inv [].
Proof. intros i j eA eB []. Qed.

(* the three ways a call can end; [need] says whether the shared-eigenvalue test is run *)
Lemma solve_cases st Y i j (P : outcome F * state -> Prop) :
  P (OZero, st) -> P (ORaise IndexError, st) ->
  (forall eA eB need, nth_error E i = Some eA -> nth_error E j = Some eB ->
     need = negb (i =? j) && negb (memp (i, j) st) ->
     P (if need && shares F (kind_of F Y) eA eB then (ORaise ValueError, st)
        else (dispatch F E vimp Y i j eA eB, if need then (i, j) :: st else st))) ->
  P (solve F E vimp st Y i j).
Proof.
  intros H0 H1 H2. unfold solve.
  destruct Y; [exact H0| |];
    (destruct (nth_error E i) as [eA|]; [|exact H1]; destruct (nth_error E j) as [eB|]; [|exact H1];
     exact (H2 eA eB _ eq_refl eq_refl eq_refl)).
Qed.

Theorem solve_inv st Y i j : Inv st -> Inv (snd (solve F E vimp st Y i j)).
Proof.
  intro H. apply solve_cases; [exact H|exact H|]. intros eA eB need HA HB _.
  destruct need; [|exact H]. destruct (shares F (kind_of F Y) eA eB) eqn:Es; [exact H|].
  intros i' j' eA' eB' [Heq|Hin] HA' HB'; [|eapply H; eauto].
  inversion Heq; subst. replace eA' with eA by congruence. replace eB' with eB by congruence.
  apply (shares_false _ _ _ Es).
Qed.

Lemma eig_at_in e n a : dim_ok F e n = true -> a < n -> In (eig_at F e a) (vals F e).
Proof.
  destruct e; cbn; intros H Ha; [left; reflexivity|].
  apply Nat.eqb_eq in H. apply nth_In. lia.
Qed.

Lemma sylv_raw_total eA eB M :
  no_equal eA eB -> shape_ok F eA eB M = true -> exists T, sylv_raw F eA eB M = Some T.
Proof.
  intros Hne Hs. apply andb_true_iff in Hs. destruct Hs as [HA HB]. rewrite forallb_forall in HB.
  apply by_energy_total. intros a b Ha Hb. unfold pdiv.
  rewrite (proj2 (nonzero_spec _)); [discriminate|]. intro Hz.
  apply (Hne (eig_at F eA a) (eig_at F eB b)).
  - apply (eig_at_in _ _ _ HA Ha).
  - apply (eig_at_in _ (length (nth a M []))); [apply HB, nth_In, Ha|exact Hb].
  - apply sub_eq0, Hz.
Qed.

Lemma checked_explicit_nodiv g eA eB M :
  checked F eA eB M (fun M => of_opt F (sylv_diag F g eA eB M)) <> ODivTol.
Proof.
  unfold checked. destruct (shape_ok F eA eB M); [|discriminate].
  destruct (sylv_diag F g eA eB M) eqn:Es; cbn; [discriminate|].
  exfalso. eapply sylv_diag_nodiv; eauto.
Qed.

Lemma checked_raw_nodiv eA eB M (f : mat F -> mat F) :
  no_equal eA eB ->
  checked F eA eB M (fun T0 => match sylv_raw F eA eB T0 with
                               | Some T => OVal (f T) | None => ODivTol end) <> ODivTol.
Proof.
  intro Hne. unfold checked. destruct (shape_ok F eA eB M) eqn:Es; [|discriminate].
  destruct (sylv_raw_total eA eB M Hne Es) as [T HT]. rewrite HT. discriminate.
Qed.

(* the closure: a division by a quantity failing the safety test can
   only be attempted by the (unguarded) vecs_implicit branches on a diagonal index i = j,
   which block_diagonalize never requests (the implicit block cannot be fully diagonalized).
   In particular never when vecs_implicit is None. *)
Lemma dispatch_nodiv Y i j eA eB :
  (vimp <> None -> i <> j -> no_equal eA eB) ->
  dispatch F E vimp Y i j eA eB = ODivTol -> vimp <> None /\ i = j.
Proof.
  intros Hne H. unfold dispatch in H. destruct vimp as [W|].
  - split; [discriminate|]. destruct (Nat.eq_dec i j) as [Hij|Hij]; [exact Hij|exfalso].
    assert (Hn : no_equal eA eB) by (apply Hne; [discriminate|exact Hij]).
    destruct Y as [|k M|].
    + destruct ((j =? length E - 1) || (i =? length E - 1)); discriminate.
    + destruct (j =? length E - 1); [|destruct (i =? length E - 1)]; revert H.
      * apply checked_raw_nodiv, Hn.
      * apply checked_raw_nodiv, Hn.
      * apply checked_explicit_nodiv.
    + destruct ((j =? length E - 1) || (i =? length E - 1)); discriminate.
  - exfalso. destruct Y as [|k M|]; try discriminate. revert H. apply checked_explicit_nodiv.
Qed.

Theorem solve_nodiv st Y i j :
  Inv st -> fst (solve F E vimp st Y i j) = ODivTol -> vimp <> None /\ i = j.
Proof.
  intro HI. apply solve_cases; [discriminate|discriminate|]. intros eA eB need HA HB En.
  destruct (need && shares F (kind_of F Y) eA eB) eqn:Ec; [discriminate|]. cbn [fst].
  apply dispatch_nodiv. intros _ Hij.
  destruct (memp (i, j) st) eqn:Em; [apply memp_In in Em; eapply HI; eauto|].
  apply Nat.eqb_neq in Hij. rewrite En, Hij in Ec. apply (shares_false _ _ _ Ec).
Qed.

(* The lazily executed check: two different blocks sharing an eigenvalue are rejected at
   every use of that pair with a non-zero right-hand side - the pair can never have been
   recorded as checked. *)
Theorem solve_rejects_shared st Y i j eA eB :
  Inv st -> i <> j -> Y <> YZero ->
  nth_error E i = Some eA -> nth_error E j = Some eB ->
  (exists a, In a (vals F eA) /\ In a (vals F eB)) ->
  solve F E vimp st Y i j = (ORaise ValueError, st).
Proof.
  intros HI Hij HY HA HB Hsh. unfold solve.
  assert (Hm : memp (i, j) st = false).
  { apply not_true_is_false. rewrite memp_In. intro Em.
    destruct Hsh as [a [Ia Ib]]. exact (HI i j eA eB Em HA HB a a Ia Ib eq_refl). }
  apply Nat.eqb_neq in Hij.
  destruct Y; [congruence| |]; rewrite HA, HB, Hij, Hm; cbn [negb andb];
    rewrite (shares_common _ eA eB Hsh); reflexivity.
Qed.

(* any sequence of calls: the invariant is kept, and what every single call guarantees of its
   outcome holds of all outcomes *)
Lemma run_Forall (P : outcome F -> Prop) :
  (forall st Y i j, Inv st -> P (fst (solve F E vimp st Y i j))) ->
  forall reqs st, Inv st ->
    Forall P (fst (run F E vimp st reqs)) /\ Inv (snd (run F E vimp st reqs)).
Proof.
  intro HP. induction reqs as [|[Y [i j]] r IH]; intros st H; cbn [run].
  - split; [constructor|exact H].
  - pose proof (HP st Y i j H) as Ho. pose proof (solve_inv st Y i j H) as H1.
    destruct (solve F E vimp st Y i j) as [o st1]. destruct (IH st1 H1) as [Hos H2].
    destruct (run F E vimp st1 r) as [os st2]. split; [constructor; assumption|exact H2].
Qed.

Lemma run_inv reqs st : Inv st -> Inv (snd (run F E vimp st reqs)).
Proof. intro H. apply (run_Forall (fun _ => True)); auto. Qed.

Theorem run_nodiv reqs st : Inv st -> vimp = None ->
  ~ In ODivTol (fst (run F E vimp st reqs)).
Proof.
  intros H Hv Hin.
  destruct (run_Forall (fun o => o <> ODivTol)) with (reqs := reqs) (st := st) as [Hall _]; [|exact H|].
  - intros st' Y i j H' Ho. destruct (solve_nodiv _ _ _ _ H' Ho) as [Hc _]. contradiction.
  - rewrite Forall_forall in Hall. exact (Hall _ Hin eq_refl).
Qed.

End Proofs.

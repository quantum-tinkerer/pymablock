(* PySeries/Sentinel.v

   The sentinel values `zero` and `one` of pymablock/series.py (lines 34-72) and
   the Python-level arithmetic in which they take part, exactly as coded.

   The value ring is given by section variables; after the section is closed every definition takes the ring
   operations it uses as explicit arguments (the carrier `R` is implicit for the
   constructors), every lemma takes the ring laws it needs as hypotheses.

   Python facts modelled (checked against the implementation by the harnesses
   k_cauchydot / k_getitem):

     class Zero:   __mul__(self, other)  -> self          (zero * x   is zero)
                   __add__(self, other)  -> other         (zero + x   is x)
                   __sub__(self, other)  -> -other        (zero - x   is -x)
                   adjoint = __neg__ = __mul__            (-zero, zero.adjoint() are zero)
     class One:    no methods at all.
     x + zero, x + one, one + x, one + one  (x an array / Matrix)  raise TypeError
     Dagger(zero) is zero;  Dagger(one) raises sympy.SympifyError;
     Dagger(x) = x.conjugate().transpose() or x.adjoint().

   In product_by_order (series.py 437-448):
        values = [i for i in (first_value, second_value) if i is not one]
        term = one | values[0] | operator(values[0], values[1])
        result = result + term            /  result + term + Dagger(term)
   In algorithm_parsing.py:  _zero_sum(terms...) = sum((t for t in terms if t is not
   zero), start=zero).
*)

Require Import List Morphisms.
Import ListNotations.

Set Implicit Arguments.

(* Python exceptions that sentinel arithmetic can raise (the first two), and tags for
   exception classes raised by user-supplied eval functions. *)
Inductive pyerr : Type :=
| TypeError      (* unsupported operand type(s) for +: ... 'One' / 'Zero' *)
| SympifyError   (* Dagger(one): cannot sympify object of type One *)
| ValueError     (* raised by user code (eval functions), used by the harnesses *)
| KeyboardInterrupt  (* a BaseException that is not an Exception *)
| UserError (tag : nat).  (* any other exception class of user code *)

Inductive sval (R : Type) : Type :=
| SZero : sval R          (* the singleton `zero` *)
| SOne  : sval R          (* the singleton `one` *)
| SVal  : R -> sval R.    (* any other Python object: an element of the value ring *)

Arguments SZero {R}.
Arguments SOne {R}.
Arguments SVal {R} _.

(* Result of a sentinel operation: a value or a Python exception. *)
Inductive sres (R : Type) : Type :=
| SOk  : sval R -> sres R
| SErr : pyerr -> sres R.

Arguments SOk {R} _.
Arguments SErr {R} _.

Definition is_zero {R} (x : sval R) : bool :=       (* `x is zero` *)
  match x with SZero => true | _ => false end.

Definition is_one {R} (x : sval R) : bool :=        (* `x is one` *)
  match x with SOne => true | _ => false end.

Section Ops.
  Variable R : Type.
  Variables (rO rI : R) (radd rmul : R -> R -> R) (ropp radj : R -> R).

  (* Denotation.  `one` denotes the identity, which presupposes a square block. *)
  Definition den (x : sval R) : R :=
    match x with SZero => rO | SOne => rI | SVal r => r end.

  (* x + y *)
  Definition py_add (x y : sval R) : sres R :=
    match x, y with
    | SZero, _ => SOk y                         (* Zero.__add__ returns other *)
    | SVal a, SVal b => SOk (SVal (radd a b))
    | _, _ => SErr TypeError                    (* One has no __add__/__radd__, Zero no __radd__ *)
    end.

  (* -x *)
  Definition py_neg (x : sval R) : sres R :=
    match x with
    | SZero => SOk SZero                        (* Zero.__neg__ = Zero.__mul__ returns self *)
    | SVal a => SOk (SVal (ropp a))
    | SOne => SErr TypeError
    end.

  (* x - y *)
  Definition py_sub (x y : sval R) : sres R :=
    match x, y with
    | SZero, _ => py_neg y                      (* Zero.__sub__ returns -other *)
    | SVal a, SVal b => SOk (SVal (radd a (ropp b)))
    | _, _ => SErr TypeError
    end.

  (* zero * y  (Zero.__mul__);  only the left-zero case is defined by the class. *)
  Definition py_zero_mul (y : sval R) : sval R := SZero.

  (* Dagger(x) of sympy.physics.quantum *)
  Definition py_dagger (x : sval R) : sres R :=
    match x with
    | SZero => SOk SZero                        (* Zero.adjoint returns self *)
    | SVal a => SOk (SVal (radj a))
    | SOne => SErr SympifyError
    end.

  (* The `term` of product_by_order: `one` dropped from the product.
     Python reaches this code only with both values different from `zero`; for
     completeness a zero factor gives zero (Zero.__mul__). *)
  Definition py_term (x y : sval R) : sval R :=
    match x, y with
    | SZero, _ => SZero
    | _, SZero => SZero
    | SOne, SOne => SOne
    | SOne, SVal b => SVal b
    | SVal a, SOne => SVal a
    | SVal a, SVal b => SVal (rmul a b)
    end.

  (* result = result + term *)
  Definition py_accum (result term : sval R) : sres R := py_add result term.

  (* result = result + term + Dagger(term): left to right, Dagger evaluated after
     the first addition *)
  Definition py_accum_herm (result term : sval R) : sres R :=
    match py_add result term with
    | SErr e => SErr e
    | SOk r1 =>
        match py_dagger term with
        | SErr e => SErr e
        | SOk d => py_add r1 d
        end
    end.

  (* _zero_sum(terms...) *)
  Fixpoint py_sum_from (acc : sval R) (terms : list (sval R)) : sres R :=
    match terms with
    | [] => SOk acc
    | t :: rest =>
        if is_zero t then py_sum_from acc rest
        else match py_add acc t with
             | SOk acc' => py_sum_from acc' rest
             | SErr e => SErr e
             end
    end.
  Definition py_zero_sum (terms : list (sval R)) : sres R := py_sum_from SZero terms.

  Variable req : R -> R -> Prop.
  Hypothesis req_equiv : Equivalence req.
  Hypothesis radd_proper : Proper (req ==> req ==> req) radd.
  Hypothesis radd_0_l : forall a, req (radd rO a) a.
  Hypothesis radd_0_r : forall a, req (radd a rO) a.

  Local Infix "==" := req (at level 70, no associativity).

  Lemma den_add x y z : py_add x y = SOk z -> den z == radd (den x) (den y).
  Proof.
    destruct x, y; cbn; intros E; inversion E; subst; cbn;
      try (symmetry; apply radd_0_l); reflexivity.
  Qed.

  Lemma den_accum r t z : py_accum r t = SOk z -> den z == radd (den r) (den t).
  Proof. apply den_add. Qed.

  Section Neg.
    Hypothesis ropp_0 : ropp rO == rO.
    Lemma den_neg x z : py_neg x = SOk z -> den z == ropp (den x).
    Proof.
      destruct x; cbn; intros E; inversion E; subst; cbn.
      - symmetry; apply ropp_0.
      - reflexivity.
    Qed.
    Lemma den_sub x y z :
      py_sub x y = SOk z -> den z == radd (den x) (ropp (den y)).
    Proof.
      destruct x, y; cbn; intros E; inversion E; subst; cbn.
      - rewrite ropp_0, radd_0_l. reflexivity.
      - rewrite radd_0_l. reflexivity.
      - reflexivity.
    Qed.
  End Neg.

  Section Mul.
    Hypothesis rmul_0_l : forall a, rmul rO a == rO.
    Hypothesis rmul_0_r : forall a, rmul a rO == rO.
    Hypothesis rmul_1_l : forall a, rmul rI a == a.
    Hypothesis rmul_1_r : forall a, rmul a rI == a.

    Lemma den_zero_mul y : den (py_zero_mul y) == rmul rO (den y).
    Proof. cbn. symmetry. apply rmul_0_l. Qed.

    Lemma den_term x y : den (py_term x y) == rmul (den x) (den y).
    Proof.
      destruct x, y; cbn;
        try (symmetry; first [apply rmul_0_l | apply rmul_0_r | apply rmul_1_l | apply rmul_1_r]);
        reflexivity.
    Qed.

    Lemma term_not_zero x y :
      is_zero x = false -> is_zero y = false -> is_zero (py_term x y) = false.
    Proof. destruct x, y; cbn; congruence. Qed.
  End Mul.

  Section Adj.
    Hypothesis radj_0 : radj rO == rO.

    Lemma den_dagger x z : py_dagger x = SOk z -> den z == radj (den x).
    Proof.
      destruct x; cbn; intros E; inversion E; subst; cbn.
      - symmetry; apply radj_0.
      - reflexivity.
    Qed.

    Lemma den_accum_herm r t z :
      py_accum_herm r t = SOk z ->
      den z == radd (radd (den r) (den t)) (radj (den t)).
    Proof.
      unfold py_accum_herm.
      destruct (py_add r t) as [r1|] eqn:E1; [|discriminate].
      destruct (py_dagger t) as [d|] eqn:E2; [|discriminate].
      intros E3. apply den_add in E1, E3. apply den_dagger in E2.
      rewrite E3, E1, E2. reflexivity.
    Qed.
  End Adj.

  (* _zero_sum: denotes the sum of the denotations of all terms. *)
  Fixpoint rsum (l : list R) : R :=
    match l with [] => rO | a :: r => radd a (rsum r) end.

  Hypothesis radd_assoc : forall a b c, radd (radd a b) c == radd a (radd b c).

  Lemma den_sum_from acc terms z :
    py_sum_from acc terms = SOk z ->
    den z == radd (den acc) (rsum (map den terms)).
  Proof.
    revert acc. induction terms as [|t rest IH]; cbn; intros acc E.
    - inversion E; subst. symmetry. apply radd_0_r.
    - destruct (is_zero t) eqn:Z.
      + destruct t; try discriminate. cbn. rewrite radd_0_l. now apply IH.
      + destruct (py_add acc t) as [acc'|] eqn:A; [|discriminate].
        apply IH in E. apply den_add in A. rewrite E, A. apply radd_assoc.
  Qed.

  Lemma den_zero_sum terms z :
    py_zero_sum terms = SOk z -> den z == rsum (map den terms).
  Proof.
    intros E. apply den_sum_from in E. cbn in E. rewrite E. apply radd_0_l.
  Qed.

End Ops.

(* PySeries/Cache.v

   Model of the element cache of `BlockSeries` (pymablock/series.py):

     - `__getitem__` for ONE fully-integer, already normalised index
       (the body of the `for index in ...` loop, lines 185-201):

           if index not in data:
               data[index] = PENDING
               try:
                   data[index] = self.eval( *index)
               except RuntimeError as error:
                   data.pop(index, None)
                   raise RuntimeError("Failed to evaluate ...") from error
               except BaseException:
                   data.pop(index, None)
                   raise
           if data[index] is PENDING:
               raise RuntimeError("Infinite recursion loop detected ...")
           trial[index] = data[index]

     - `__contains__`  :  `self._data.get(item) is not zero`
                          (an ABSENT key and a PENDING key both count as contained)
     - `pop`           :  `self._data.pop(item, default)`

   The two `except` arms differ in Python only by the message of the re-raised
   RuntimeError; the model records exception classes, so the two corresponding arms
   of `getitem` have the same right-hand side.  Out of fuel has no counterpart in
   Python; here it is cleaned up like an exception, whereas DSL/Exec.v leaves the
   PENDING entry in place on that outcome.

   Several series live in one `world`
   (series identifier -> cache) because the `eval` of one series usually requests
   elements of other series (or of itself: recursion).  `eval` is a function

        eval : sid -> callback -> index -> world -> res V * world

   that receives, as `callback`, the `__getitem__` of the whole world with less
   fuel (open recursion); fuel bounds the nesting depth of evaluations and the
   out-of-fuel outcome is the distinguished result `OutOfFuel`.

   The world also carries a ghost log of events (calls of `eval`, removals of
   keys) used to state "evaluated at most once while cached".

   Section variables:
     V       stored values (for series.py: `sval R` of Sentinel.v)
     E       tags of exception classes other than IndexError / RuntimeError
     vzero   the test `v is zero` on stored values
*)

Require Import List Arith Bool Lia RelationClasses.
Import ListNotations.

Set Implicit Arguments.

Lemma Forall2_length {A B} (R : A -> B -> Prop) a b : Forall2 R a b -> length a = length b.
Proof. induction 1; cbn; auto. Qed.

Definition index := list nat.
Definition sid := nat.

Definition index_eqb (a b : index) : bool :=
  if list_eq_dec Nat.eq_dec a b then true else false.

Lemma index_eqb_eq a b : index_eqb a b = true <-> a = b.
Proof. unfold index_eqb. destruct (list_eq_dec Nat.eq_dec a b); split; congruence. Qed.

Lemma index_eqb_refl a : index_eqb a a = true.
Proof. now apply index_eqb_eq. Qed.

Lemma index_eqb_neq a b : index_eqb a b = false <-> a <> b.
Proof. unfold index_eqb. destruct (list_eq_dec Nat.eq_dec a b); split; congruence. Qed.

Lemma same_keyP (s : sid) (i : index) s' i' :
  reflect ((s, i) = (s', i')) (Nat.eqb s s' && index_eqb i i').
Proof.
  destruct (Nat.eqb_spec s s') as [->|N]; [|right; congruence].
  destruct (index_eqb i i') eqn:E; constructor.
  - apply index_eqb_eq in E. now subst.
  - apply index_eqb_neq in E. congruence.
Qed.

Lemma same_key_refl (s : sid) (i : index) : Nat.eqb s s && index_eqb i i = true.
Proof. now rewrite Nat.eqb_refl, index_eqb_refl. Qed.

Inductive exn (E : Type) : Type :=
| IndexError : exn E
| RuntimeError : exn E
| Other : E -> exn E.
Arguments IndexError {E}.
Arguments RuntimeError {E}.
Arguments Other {E} _.

Inductive res (E A : Type) : Type :=
| Ok : A -> res E A
| Raise : exn E -> res E A
| OutOfFuel : res E A.
Arguments Ok {E A} _.
Arguments Raise {E A} _.
Arguments OutOfFuel {E A}.

Section Cache.
  Variables (V E : Type).
  Variable vzero : V -> bool.

  Inductive entry : Type :=
  | Pending : entry            (* the PENDING marker *)
  | Done : V -> entry.         (* an evaluated element *)

  (* A Python dict as an association list without repeated keys (insertion order). *)
  Definition cache := list (index * entry).

  Fixpoint lookup (c : cache) (i : index) : option entry :=
    match c with
    | [] => None
    | (k, e) :: r => if index_eqb k i then Some e else lookup r i
    end.

  (* data[i] = e *)
  Fixpoint store (c : cache) (i : index) (e : entry) : cache :=
    match c with
    | [] => [(i, e)]
    | (k, e0) :: r => if index_eqb k i then (k, e) :: r else (k, e0) :: store r i e
    end.

  (* data.pop(i, None) *)
  Fixpoint remove (c : cache) (i : index) : cache :=
    match c with
    | [] => []
    | (k, e0) :: r => if index_eqb k i then r else (k, e0) :: remove r i
    end.

  Definition keys (c : cache) : list index := map fst c.

  (* `item in series`  =  `series._data.get(item) is not zero` *)
  Definition contains (c : cache) (i : index) : bool :=
    match lookup c i with
    | Some (Done v) => negb (vzero v)
    | Some Pending => true
    | None => true
    end.

  Lemma lookup_store_eq c i e : lookup (store c i e) i = Some e.
  Proof.
    induction c as [|[k e0] r IH]; cbn.
    - now rewrite index_eqb_refl.
    - destruct (index_eqb k i) eqn:K; cbn; rewrite K; auto.
  Qed.

  Lemma lookup_store_neq c i j e : i <> j -> lookup (store c i e) j = lookup c j.
  Proof.
    intros N. induction c as [|[k e0] r IH]; cbn.
    - apply index_eqb_neq in N. now rewrite N.
    - destruct (index_eqb k i) eqn:K; cbn.
      + apply index_eqb_eq in K. subst k.
        apply index_eqb_neq in N. now rewrite N.
      + destruct (index_eqb k j); auto.
  Qed.

  (* keys are unique: needed for `remove` to delete the key altogether *)
  Definition wf_cache (c : cache) : Prop := NoDup (keys c).

  Lemma lookup_none_notin c i : lookup c i = None <-> ~ In i (keys c).
  Proof.
    induction c as [|[k e0] r IH]; cbn.
    - tauto.
    - destruct (index_eqb k i) eqn:K.
      + apply index_eqb_eq in K. subst. split; [discriminate | intros H; exfalso; auto].
      + apply index_eqb_neq in K. rewrite IH. tauto.
  Qed.

  Lemma keys_store_in c i e : In i (keys c) -> keys (store c i e) = keys c.
  Proof.
    induction c as [|[k e0] r IH]; cbn; [tauto|].
    destruct (index_eqb k i) eqn:K; cbn; auto.
    apply index_eqb_neq in K. intros [H|H]; [congruence|]. f_equal. now apply IH.
  Qed.

  Lemma keys_store_notin c i e : ~ In i (keys c) -> keys (store c i e) = keys c ++ [i].
  Proof.
    induction c as [|[k e0] r IH]; cbn; auto.
    destruct (index_eqb k i) eqn:K; cbn.
    - apply index_eqb_eq in K. subst. tauto.
    - intros H. f_equal. apply IH. tauto.
  Qed.

  Lemma wf_store c i e : wf_cache c -> wf_cache (store c i e).
  Proof.
    unfold wf_cache. intros W.
    destruct (in_dec (list_eq_dec Nat.eq_dec) i (keys c)) as [I|I].
    - now rewrite keys_store_in.
    - rewrite keys_store_notin by auto.
      apply NoDup_rev in W. rewrite <- (rev_involutive (keys c ++ [i])).
      apply NoDup_rev. rewrite rev_app_distr. cbn. constructor; auto.
      now rewrite <- in_rev.
  Qed.

  Lemma in_keys_remove c i j : In j (keys (remove c i)) -> In j (keys c).
  Proof.
    induction c as [|[k e0] r IH]; cbn; auto.
    destruct (index_eqb k i); cbn; tauto.
  Qed.

  Lemma wf_remove c i : wf_cache c -> wf_cache (remove c i).
  Proof.
    unfold wf_cache. induction c as [|[k e0] r IH]; cbn; auto.
    intros W. inversion W; subst.
    destruct (index_eqb k i); cbn; auto.
    constructor; auto. intros H. apply in_keys_remove in H. auto.
  Qed.

  Lemma lookup_remove_eq c i : wf_cache c -> lookup (remove c i) i = None.
  Proof.
    unfold wf_cache. induction c as [|[k e0] r IH]; cbn; auto.
    intros W. inversion W; subst.
    destruct (index_eqb k i) eqn:K; cbn.
    - apply index_eqb_eq in K. subst. now apply lookup_none_notin.
    - rewrite K. auto.
  Qed.

  Lemma lookup_remove_neq c i j : i <> j -> lookup (remove c i) j = lookup c j.
  Proof.
    intros N. induction c as [|[k e0] r IH]; cbn; auto.
    destruct (index_eqb k i) eqn:K; cbn.
    - apply index_eqb_eq in K. subst k.
      apply index_eqb_neq in N. now rewrite N.
    - destruct (index_eqb k j); auto.
  Qed.

  (* The world: one cache per series, and the ghost event log. *)

  Inductive event : Type :=
  | EvEval (s : sid) (i : index)       (* `self.eval( *index)` is called on series s *)
  | EvRemove (s : sid) (i : index).    (* key i leaves the cache of s (pop or clean-up) *)

  Record world : Type := mkWorld { wcache : sid -> cache; wlog : list event }.

  Definition empty_world : world := mkWorld (fun _ => []) [].

  Definition set_cache (s : sid) (c : cache) (w : world) : world :=
    mkWorld (fun s' => if Nat.eqb s' s then c else wcache w s') (wlog w).

  Definition log_event (e : event) (w : world) : world :=
    mkWorld (wcache w) (wlog w ++ [e]).

  Definition wlookup (w : world) (s : sid) (i : index) : option entry :=
    lookup (wcache w s) i.

  Definition set_entry (s : sid) (i : index) (e : entry) (w : world) : world :=
    set_cache s (store (wcache w s) i e) w.

  (* data.pop(index, None): removes the key if present (and then logs the removal) *)
  Definition drop_entry (s : sid) (i : index) (w : world) : world :=
    match wlookup w s i with
    | None => w
    | Some _ => log_event (EvRemove s i) (set_cache s (remove (wcache w s) i) w)
    end.

  (* BlockSeries.pop(item, default): None stands for `default` *)
  Definition pop (s : sid) (i : index) (w : world) : option entry * world :=
    (wlookup w s i, drop_entry s i w).

  (* BlockSeries.__contains__ *)
  Definition wcontains (w : world) (s : sid) (i : index) : bool :=
    contains (wcache w s) i.

  Definition wf_world (w : world) : Prop := forall s, wf_cache (wcache w s).

  Definition result := res E V.
  Definition callback := sid -> index -> world -> result * world.
  Definition evalT := sid -> callback -> index -> world -> result * world.

  Variable eval : evalT.

  (* __getitem__ of series s at the single integer index i *)
  Fixpoint getitem (fuel : nat) (s : sid) (i : index) (w : world) : result * world :=
    match fuel with
    | O => (OutOfFuel, w)
    | S f =>
        match wlookup w s i with
        | Some (Done v) => (Ok v, w)                      (* cached *)
        | Some Pending => (Raise RuntimeError, w)         (* Infinite recursion loop detected *)
        | None =>
            let w1 := log_event (EvEval s i) (set_entry s i Pending w) in
            match eval s (getitem f) i w1 with
            | (Ok v, w2) => (Ok v, set_entry s i (Done v) w2)
            | (Raise RuntimeError, w2) =>                 (* except RuntimeError: pop; raise RuntimeError *)
                (Raise RuntimeError, drop_entry s i w2)
            | (Raise x, w2) =>                            (* except BaseException: pop; raise *)
                (Raise x, drop_entry s i w2)
            | (OutOfFuel, w2) =>                          (* modelling artefact: cleaned up like an exception *)
                (OutOfFuel, drop_entry s i w2)
            end
        end
    end.

  (* A cached element is returned without any effect (in particular without an
     eval call: the event log is unchanged). *)
  Lemma getitem_hit fuel s i w v :
    wlookup w s i = Some (Done v) -> getitem (S fuel) s i w = (Ok v, w).
  Proof. intros L. cbn. now rewrite L. Qed.

  (* A request for an element whose evaluation is in progress raises RuntimeError
     at once (fuel 1 suffices, the world is untouched). *)
  Lemma getitem_pending fuel s i w :
    wlookup w s i = Some Pending -> getitem (S fuel) s i w = (Raise RuntimeError, w).
  Proof. intros L. cbn. now rewrite L. Qed.

  (* RuntimeError raised inside eval comes out as RuntimeError (re-raised), other
     exceptions come out unchanged; both after removing the PENDING key. *)
  Lemma getitem_miss fuel s i w :
    wlookup w s i = None ->
    getitem (S fuel) s i w =
      match eval s (getitem fuel) i (log_event (EvEval s i) (set_entry s i Pending w)) with
      | (Ok v, w2) => (Ok v, set_entry s i (Done v) w2)
      | (Raise x, w2) => (Raise x, drop_entry s i w2)
      | (OutOfFuel, w2) => (OutOfFuel, drop_entry s i w2)
      end.
  Proof.
    intros L. cbn. rewrite L.
    destruct (eval s (getitem fuel) i _) as [[v|x|] w2]; auto. destruct x; auto.
  Qed.

  Lemma wlookup_set_entry s i e w s' i' :
    wlookup (set_entry s i e w) s' i' =
    if Nat.eqb s s' && index_eqb i i' then Some e else wlookup w s' i'.
  Proof.
    unfold wlookup, set_entry; cbn. rewrite (Nat.eqb_sym s' s).
    destruct (Nat.eqb_spec s s') as [<-|]; cbn; auto.
    destruct (index_eqb i i') eqn:B.
    - apply index_eqb_eq in B. subst. apply lookup_store_eq.
    - apply lookup_store_neq. now apply index_eqb_neq.
  Qed.

  (* the world in which eval runs *)
  Lemma wlookup_start s i w s' i' :
    wlookup (log_event (EvEval s i) (set_entry s i Pending w)) s' i' =
    if Nat.eqb s s' && index_eqb i i' then Some Pending else wlookup w s' i'.
  Proof. apply wlookup_set_entry. Qed.

  Lemma wlookup_drop s i w s' i' :
    wf_world w ->
    wlookup (drop_entry s i w) s' i' =
    if Nat.eqb s s' && index_eqb i i' then None else wlookup w s' i'.
  Proof.
    intros W. unfold drop_entry. destruct (wlookup w s i) eqn:L.
    - unfold wlookup; cbn. rewrite (Nat.eqb_sym s' s).
      destruct (Nat.eqb_spec s s') as [<-|]; cbn; auto.
      destruct (index_eqb i i') eqn:B.
      + apply index_eqb_eq in B. subst. apply lookup_remove_eq, W.
      + apply lookup_remove_neq. now apply index_eqb_neq.
    - destruct (same_keyP s i s' i') as [[= <- <-]|_]; auto.
  Qed.

  Lemma wf_set_entry s i e w : wf_world w -> wf_world (set_entry s i e w).
  Proof.
    intros W s'. unfold set_entry; cbn. destruct (Nat.eqb_spec s' s) as [->|]; auto.
    apply wf_store, W.
  Qed.

  Lemma wf_start s i w : wf_world w -> wf_world (log_event (EvEval s i) (set_entry s i Pending w)).
  Proof. apply wf_set_entry. Qed.

  Lemma wf_drop s i w : wf_world w -> wf_world (drop_entry s i w).
  Proof.
    intros W. unfold drop_entry. destruct (wlookup w s i); auto.
    intros s'. cbn. destruct (Nat.eqb_spec s' s) as [->|]; auto. apply wf_remove, W.
  Qed.

  (* What `eval` may do.  An `eval` is a Python function: it can act on the caches
     only by requesting elements (the callback), and - if `pops` - by `pop`.
     Formally: every preorder on worlds that is respected by those primitives is
     respected by eval (a parametricity statement, provable for each concrete
     eval; see `ex_eval_respects` below and bs_eval_respects in IndexProofs.v). *)

  Definition respects (R : world -> world -> Prop) (g : callback) : Prop :=
    forall s i w, R w (snd (g s i w)).

  Definition eval_respects (pops : bool) (ev : evalT) : Prop :=
    forall R : world -> world -> Prop,
      Reflexive R -> Transitive R ->
      (pops = true -> forall s i w, R w (snd (pop s i w))) ->
      forall g, respects R g -> forall s i w, R w (snd (ev s g i w)).

  (* getitem respects every preorder that is respected by the bracket
     PENDING ... store/remove  as a whole. *)
  Lemma getitem_respects (pops : bool) (R : world -> world -> Prop) :
    Reflexive R -> Transitive R ->
    eval_respects pops eval ->
    (pops = true -> forall s i w, R w (snd (pop s i w))) ->
    (forall s i w w2 v,
        wlookup w s i = None ->
        R (log_event (EvEval s i) (set_entry s i Pending w)) w2 ->
        R w (set_entry s i (Done v) w2)) ->
    (forall s i w w2,
        wlookup w s i = None ->
        R (log_event (EvEval s i) (set_entry s i Pending w)) w2 ->
        R w (drop_entry s i w2)) ->
    forall fuel, respects R (getitem fuel).
  Proof.
    intros Rr Rt He Hp Hok Hex. induction fuel as [|f IH]; intros s i w; [reflexivity|].
    destruct (wlookup w s i) as [[|v]|] eqn:L.
    - rewrite getitem_pending by auto. reflexivity.
    - rewrite (getitem_hit f s i w L). reflexivity.
    - rewrite getitem_miss by auto.
      pose proof (He R Rr Rt Hp (getitem f) IH s i
                     (log_event (EvEval s i) (set_entry s i Pending w))) as H.
      destruct (eval s (getitem f) i _) as [[v|x|] w2]; cbn in *; auto.
  Qed.

  (* The preorder "P is kept", for an invariant P of worlds. *)
  Definition keeps (P : world -> Prop) (w w' : world) : Prop := P w -> P w'.

  Lemma keeps_refl P : Reflexive (keeps P).
  Proof. intros w H. exact H. Qed.

  Lemma keeps_trans P : Transitive (keeps P).
  Proof. intros a b c H1 H2 H. exact (H2 (H1 H)). Qed.

  Lemma getitem_keeps (pops : bool) (P : world -> Prop) :
    eval_respects pops eval ->
    (forall s i w, wlookup w s i = None -> P w -> P (log_event (EvEval s i) (set_entry s i Pending w))) ->
    (forall s i v w, P w -> P (set_entry s i (Done v) w)) ->
    (forall s i w, P w -> P (drop_entry s i w)) ->
    forall fuel, respects (keeps P) (getitem fuel).
  Proof.
    intros He Hstart Hdone Hdrop.
    apply (@getitem_respects pops (keeps P) (@keeps_refl P) (@keeps_trans P) He).
    - intros _ s i w Pw. now apply Hdrop.
    - intros s i w w2 v L H Pw. apply Hdone, H, Hstart; auto.
    - intros s i w w2 L H Pw. apply Hdrop, H, Hstart; auto.
  Qed.

  (* The rule for an invariant Inv of worlds and a property Post of the values
     returned: if the bracket keeps Inv, cached values satisfy Post, and eval is
     sound for every sound callback, then getitem is sound. *)
  Definition sound (Inv : world -> Prop) (Post : sid -> index -> V -> Prop) (g : callback) : Prop :=
    forall s i w, Inv w ->
      Inv (snd (g s i w)) /\ forall v, fst (g s i w) = Ok v -> Post s i v.

  Lemma getitem_sound (Inv : world -> Prop) (Post : sid -> index -> V -> Prop) :
    (forall s i w, wlookup w s i = None -> Inv w ->
                   Inv (log_event (EvEval s i) (set_entry s i Pending w))) ->
    (forall s i v w, Post s i v -> Inv w -> Inv (set_entry s i (Done v) w)) ->
    (forall s i w, Inv w -> Inv (drop_entry s i w)) ->
    (forall s i v w, Inv w -> wlookup w s i = Some (Done v) -> Post s i v) ->
    (forall g, sound Inv Post g -> sound Inv Post (fun s => eval s g)) ->
    forall fuel, sound Inv Post (getitem fuel).
  Proof.
    intros Hstart Hdone Hdrop Hhit Heval.
    induction fuel as [|f IH]; intros s i w I; [split; [exact I|discriminate]|].
    destruct (wlookup w s i) as [[|v]|] eqn:L.
    - rewrite getitem_pending by auto. split; [exact I|discriminate].
    - rewrite (getitem_hit f s i w L). split; [exact I|]. intros ? [= <-]. eauto.
    - rewrite getitem_miss by auto. destruct (Heval _ IH s i _ (Hstart s i w L I)) as [I2 Hv].
      destruct (eval s (getitem f) i _) as [[v|x|] w2]; cbn in *.
      + split; [auto|]. intros ? [= <-]. auto.
      + split; [auto|discriminate].
      + split; [auto|discriminate].
  Qed.

  (* Counting.  For every element, the number of eval calls is at most the
     number of removals of its key, plus one if the key is present. *)

  Definition ev_is_eval (s : sid) (i : index) (e : event) : bool :=
    match e with EvEval s' i' => Nat.eqb s' s && index_eqb i' i | _ => false end.
  Definition ev_is_remove (s : sid) (i : index) (e : event) : bool :=
    match e with EvRemove s' i' => Nat.eqb s' s && index_eqb i' i | _ => false end.
  Definition n_evals (s : sid) (i : index) (w : world) : nat :=
    length (filter (ev_is_eval s i) (wlog w)).
  Definition n_removals (s : sid) (i : index) (w : world) : nat :=
    length (filter (ev_is_remove s i) (wlog w)).
  Definition present (w : world) (s : sid) (i : index) : nat :=
    match wlookup w s i with None => 0 | Some _ => 1 end.

  Definition once_inv (w : world) : Prop :=
    forall s i, n_evals s i w <= n_removals s i w + present w s i.

  Lemma count_snoc {A} (p : A -> bool) l a :
    length (filter p (l ++ [a])) = length (filter p l) + if p a then 1 else 0.
  Proof. rewrite filter_app, app_length. cbn. now destruct (p a). Qed.

  Lemma n_evals_log e w s i :
    n_evals s i (log_event e w) = n_evals s i w + if ev_is_eval s i e then 1 else 0.
  Proof. apply count_snoc. Qed.

  Lemma n_removals_log e w s i :
    n_removals s i (log_event e w) = n_removals s i w + if ev_is_remove s i e then 1 else 0.
  Proof. apply count_snoc. Qed.

  Lemma n_evals_set_entry s i e w s' i' : n_evals s' i' (set_entry s i e w) = n_evals s' i' w.
  Proof. reflexivity. Qed.

  Lemma n_removals_set_entry s i e w s' i' :
    n_removals s' i' (set_entry s i e w) = n_removals s' i' w.
  Proof. reflexivity. Qed.

  Lemma n_evals_drop s i w s' i' : n_evals s' i' (drop_entry s i w) = n_evals s' i' w.
  Proof.
    unfold drop_entry. destruct (wlookup w s i); auto.
    rewrite n_evals_log. cbn. apply Nat.add_0_r.
  Qed.

  Lemma n_removals_drop s i w s' i' :
    n_removals s' i' (drop_entry s i w) =
    n_removals s' i' w + if Nat.eqb s s' && index_eqb i i' then present w s i else 0.
  Proof.
    unfold drop_entry, present. destruct (wlookup w s i).
    - rewrite n_removals_log. reflexivity.
    - now destruct (Nat.eqb s s' && index_eqb i i').
  Qed.

  Lemma once_inv_drop s i w : wf_world w -> once_inv w -> once_inv (drop_entry s i w).
  Proof.
    intros W I s' i'. specialize (I s' i').
    rewrite n_evals_drop, n_removals_drop. unfold present in *. rewrite wlookup_drop by auto.
    destruct (same_keyP s i s' i') as [[= <- <-]|_]; lia.
  Qed.

  Lemma once_inv_set_entry s i e w : once_inv w -> once_inv (set_entry s i e w).
  Proof.
    intros I s' i'. specialize (I s' i').
    rewrite n_evals_set_entry, n_removals_set_entry. unfold present in *. rewrite wlookup_set_entry.
    destruct (Nat.eqb s s' && index_eqb i i'); [destruct (wlookup w s' i')|]; lia.
  Qed.

  Lemma once_inv_start s i w :
    wlookup w s i = None -> once_inv w ->
    once_inv (log_event (EvEval s i) (set_entry s i Pending w)).
  Proof.
    intros L I s' i'. specialize (I s' i').
    rewrite n_evals_log, n_removals_log, n_evals_set_entry, n_removals_set_entry.
    unfold present in *. rewrite wlookup_start. cbn [ev_is_eval ev_is_remove].
    destruct (same_keyP s i s' i') as [[= <- <-]|_]; [rewrite L in I|]; lia.
  Qed.

  Theorem getitem_once (pops : bool) :
    eval_respects pops eval ->
    forall fuel s i w,
      wf_world w -> once_inv w ->
      let w' := snd (getitem fuel s i w) in
      wf_world w' /\ once_inv w'.
  Proof.
    intros He fuel s i w W I.
    apply (@getitem_keeps pops (fun w => wf_world w /\ once_inv w) He); auto.
    - intros s0 i0 w0 L [W0 I0]. split; [now apply wf_start | now apply once_inv_start].
    - intros s0 i0 v w0 [W0 I0]. split; [now apply wf_set_entry | now apply once_inv_set_entry].
    - intros s0 i0 w0 [W0 I0]. split; [now apply wf_drop | now apply once_inv_drop].
  Qed.

  Lemma once_inv_empty_log c : once_inv (mkWorld c []).
  Proof. intros s i. unfold n_evals; cbn. lia. Qed.

  Corollary once_bound w s i : once_inv w -> n_evals s i w <= n_removals s i w + 1.
  Proof. intros I. specialize (I s i). unfold present in I. destruct (wlookup w s i); lia. Qed.

  (* Frame property.  If evals act on the caches only through element requests
     (pops = false) then whatever the outcome of a request (value, any exception,
     out of fuel)
       - the set of PENDING keys is the same before and after,
       - every evaluated entry present before is unchanged. *)

  Definition frame (w w' : world) : Prop :=
    wf_world w ->
    wf_world w' /\
    (forall s i, wlookup w' s i = Some Pending <-> wlookup w s i = Some Pending) /\
    (forall s i v, wlookup w s i = Some (Done v) -> wlookup w' s i = Some (Done v)).

  Lemma frame_refl : Reflexive frame.
  Proof. intros w W. repeat split; auto; tauto. Qed.

  Lemma frame_trans : Transitive frame.
  Proof.
    intros a b c H1 H2 W. destruct (H1 W) as (Wb & P1 & D1). destruct (H2 Wb) as (Wc & P2 & D2).
    repeat split; auto.
    - intros H. apply P1, P2, H.
    - intros H. apply P2, P1, H.
  Qed.

  (* the bracket: the key (s, i), absent before, is PENDING while eval runs and is
     then overwritten by `o` (an evaluated entry, or nothing) *)
  Lemma frame_bracket s i o w w2 w3 :
    wlookup w s i = None -> o <> Some Pending ->
    (wf_world w2 ->
     wf_world w3 /\
     forall s' i', wlookup w3 s' i' = if Nat.eqb s s' && index_eqb i i' then o else wlookup w2 s' i') ->
    frame (log_event (EvEval s i) (set_entry s i Pending w)) w2 -> frame w w3.
  Proof.
    intros L No H3 H W. destruct (H (wf_start s i W)) as (W2 & P & D).
    destruct (H3 W2) as [W3 H3']. split; [exact W3|]. split.
    - intros s' i'. specialize (P s' i'). rewrite wlookup_start in P. rewrite H3'.
      destruct (same_keyP s i s' i') as [[= -> ->]|_]; [|exact P].
      rewrite L. split; [contradiction|discriminate].
    - intros s' i' v L'. specialize (D s' i' v). rewrite wlookup_start in D. rewrite H3'.
      destruct (same_keyP s i s' i') as [[= -> ->]|_]; [congruence|auto].
  Qed.

  Theorem getitem_frame :
    eval_respects false eval -> forall fuel, respects frame (getitem fuel).
  Proof.
    intros He fuel.
    apply (@getitem_respects false frame frame_refl frame_trans He); [discriminate| |].
    - intros s i w w2 v L. apply (@frame_bracket s i (Some (Done v))); [auto|discriminate|].
      intros W2. split; [now apply wf_set_entry|]. intros. apply wlookup_set_entry.
    - intros s i w w2 L. apply (@frame_bracket s i None); [auto|discriminate|].
      intros W2. split; [now apply wf_drop|]. intros. now apply wlookup_drop.
  Qed.

  (* Scripts of user-level requests (used by the correspondence harnesses). *)

  Inductive request : Type :=
  | RGet (s : sid) (i : index)       (* series[i] for a normalised integer index *)
  | RHas (s : sid) (i : index)       (* i in series *)
  | RPop (s : sid) (i : index).      (* series.pop(i, default) *)

  Inductive observation : Type :=
  | OGet (r : result)
  | OHas (b : bool)
  | OPop (e : option entry).

  Definition run_request (fuel : nat) (q : request) (w : world) : observation * world :=
    match q with
    | RGet s i => let (r, w') := getitem fuel s i w in (OGet r, w')
    | RHas s i => (OHas (wcontains w s i), w)
    | RPop s i => let (e, w') := pop s i w in (OPop e, w')
    end.

  Fixpoint run_script (fuel : nat) (qs : list request) (w : world) : list observation * world :=
    match qs with
    | [] => ([], w)
    | q :: rest =>
        let (o, w1) := run_request fuel q w in
        let (os, w2) := run_script fuel rest w1 in
        (o :: os, w2)
    end.

  (* the eval calls recorded in the log, in order *)
  Definition eval_calls (w : world) : list (sid * index) :=
    flat_map (fun e => match e with EvEval s i => [(s, i)] | EvRemove _ _ => [] end) (wlog w).

End Cache.

Arguments Pending {V}.
Arguments Done {V} _.
Arguments OGet {V E} r.
Arguments OHas {V E} b.
Arguments OPop {V E} e.

(* A concrete, non-trivial eval that satisfies `eval_respects`: series 0 is given
   by a table, the element n of series 1 requests element n of series 0 and then
   its own element n-1 (for n = 0 its own element 0: self reference). *)

Section Example.
  Definition ex_eval : evalT nat unit :=
    fun s g i w =>
      match s with
      | 0 => (Ok (match i with [n] => 10 + n | _ => 0 end), w)
      | _ =>
          match g 0 i w with
          | (Ok a, w1) =>
              match i with
              | [S n] => match g 1 [n] w1 with
                         | (Ok b, w2) => (Ok (a + b), w2)
                         | other => other
                         end
              | _ => g 1 i w1
              end
          | other => other
          end
      end.

  Lemma ex_eval_respects pops : eval_respects pops ex_eval.
  Proof.
    intros R Rr Rt _ g Hg s i w. unfold ex_eval.
    destruct s as [|s]; cbn; [reflexivity|].
    pose proof (Hg 0 i w) as H0.
    destruct (g 0 i w) as [[a| |] w1]; cbn in *; auto.
    destruct i as [|[|n] [|? ?]]; try (etransitivity; [exact H0 | apply Hg]).
    pose proof (Hg 1 [n] w1) as H1.
    destruct (g 1 [n] w1) as [[b| |] w2]; cbn in *; etransitivity; eauto.
  Qed.

  Definition ex_zero (v : nat) : bool := Nat.eqb v 0.

  (* element [2] of series 1 needs [2],[1],[0] of series 0 and then hits its own
     element [0], whose definition is self-referential: RuntimeError, and no key of
     series 1 stays behind, while the evaluated keys of series 0 stay cached *)
  Example ex_run :
    let r := getitem ex_eval 10 1 [2] (empty_world nat) in
    fst r = Raise RuntimeError /\
    keys (wcache (snd r) 1) = [] /\
    keys (wcache (snd r) 0) = [[2]; [1]; [0]].
  Proof. vm_compute. repeat split. Qed.
End Example.

(* PySeries/CauchyProofs.v

   World-level soundness of the model of cauchy_dot_product (CauchyDot.v):
   whatever the request history, cache contents, fuel and exceptions, a value
   returned for element (i, j, n) of a product series denotes the Cauchy sum of the
   specifications of its two factors (cdp_sound).  The Hermitian shortcuts are
   covered under their hypotheses: the transposition wrapper needs the product to
   be Hermitian, the half-sum needs the factors to be mutual adjoints.
*)

Require Import Ncring List Bool.
Import ListNotations.
Require Import PV.PySeries.Sentinel PV.PySeries.Cache PV.PySeries.ProductByOrder
        PV.PySeries.CauchyDot PV.PySeries.MultiIndex PV.PySeries.RSum PV.PySeries.PBOProofs.

Set Implicit Arguments.

(* the index-transposition branch of a Hermitian product's eval:
   Dagger(product[(index[1], index[0], *index[2:])]) *)
Lemma cdp_eval_transposed R (radd rmul : R -> R -> R) (radj : R -> R) (descs : list (sdesc R))
      s h m a b (g : callback (sval R) pyerr) start end_ orders w :
  nth_error descs s = Some (SProd h m a b) ->
  mode_wraps m = true -> Nat.ltb end_ start = true ->
  cdp_eval radd rmul radj descs s g (start :: end_ :: orders) w =
  if Nat.leb (rows h) end_ || Nat.leb (cols h) start then (Raise IndexError, w)
  else match g s (end_ :: start :: orders) w with
       | (Ok v, w') =>
           (match py_dagger radj v with SOk d => Ok d | SErr e => Raise (Other e) end, w')
       | other => other
       end.
Proof. intros D M L. unfold cdp_eval. now rewrite D, M, L. Qed.

Section Sound.
  Context {T : Type} `{Rg : Ring T}.
  Variable adj : T -> T.
  Hypothesis adj_proper : Proper (_==_ ==> _==_) adj.
  Hypothesis adj_add : forall x y, adj (x + y) == adj x + adj y.
  Hypothesis adj_mul : forall x y, adj (x * y) == adj y * adj x.
  Hypothesis adj_invol : forall x, adj (adj x) == x.

  Variable descs : list (sdesc T).
  Variable spec : sid -> index -> T.      (* what each element of each series denotes *)

  Definition mid_of (a : sid) : nat := cols (head_at descs a).

  (* the specification is consistent with the descriptors *)
  Definition base_ok : Prop :=
    forall s h tbl, nth_error descs s = Some (SBase h tbl) ->
                    forall i v, tbl i = Ok v -> sden v == spec s i.

  Definition prod_ok : Prop :=
    forall s h m a b, nth_error descs s = Some (SProd h m a b) ->
      (forall start end_ orders,
          spec s (start :: end_ :: orders)
          == cauchy_sum (spec a) (spec b) (mid_of a) start end_ orders) /\
      (mode_wraps m = true ->
       forall start end_ orders,
         spec s (start :: end_ :: orders) == adj (spec s (end_ :: start :: orders))) /\
      (mode_halfsum m = true ->
       forall i k n, spec b (k :: i :: n) == adj (spec a (i :: k :: n))).

  Hypothesis Hbase : base_ok.
  Hypothesis Hprod : prod_ok.

  (* cache invariant: every evaluated entry denotes its specification *)
  Definition cinv (w : world (sval T)) : Prop :=
    forall s i v, wlookup w s i = Some (Done v) -> sden v == spec s i.

  Lemma cinv_start s i w : cinv w -> cinv (log_event (EvEval s i) (set_entry s i Pending w)).
  Proof.
    intros C s' i' v. rewrite wlookup_start.
    destruct (Nat.eqb s s' && index_eqb i i'); [discriminate | apply C].
  Qed.

  Lemma cinv_set_done s i v w : sden v == spec s i -> cinv w -> cinv (set_entry s i (Done v) w).
  Proof.
    intros D C s' i' v'. rewrite wlookup_set_entry.
    destruct (same_keyP s i s' i') as [[= -> ->]|_]; [intros [= <-]; exact D | apply C].
  Qed.

  (* removing keys can only shrink the set of evaluated entries (for caches without
     repeated keys) *)
  Lemma cinv_drop s i w : wf_world w -> cinv w -> cinv (drop_entry s i w).
  Proof.
    intros W C s' i' v. rewrite wlookup_drop by auto.
    destruct (Nat.eqb s s' && index_eqb i i'); [discriminate | apply C].
  Qed.

  Definition winv (w : world (sval T)) : Prop := wf_world w /\ cinv w.

  Definition sound_cb : callback (sval T) pyerr -> Prop :=
    sound winv (fun s i v => sden v == spec s i).

  Lemma contains_false_zero w a i :
    winv w -> wcontains (szero_test (R:=T)) w a i = false -> spec a i == 0.
  Proof.
    intros [_ C] H. unfold wcontains, contains in H. fold (wlookup w a i) in H.
    destruct (wlookup w a i) as [[|v]|] eqn:L; try discriminate.
    apply negb_false_iff in H. rewrite <- (C a i v L). now apply is_zero_sden.
  Qed.

  Lemma eval_sound g : sound_cb g ->
    forall s i w, winv w ->
      winv (snd (cdp_eval tadd tmul adj descs s g i w)) /\
      forall v, fst (cdp_eval tadd tmul adj descs s g i w) = Ok v -> sden v == spec s i.
  Proof.
    intros Hg s i w I. unfold cdp_eval.
    destruct (nth_error descs s) as [[h tbl|h m a b]|] eqn:D.
    - cbn. split; auto. intros v E. eapply Hbase; eauto.
    - destruct (Hprod _ D) as (Hsum & Hherm & Hmut).
      destruct i as [|start [|end_ orders]]; try (cbn; split; auto; discriminate).
      destruct (mode_wraps m && Nat.ltb end_ start) eqn:Wr.
      + destruct (Nat.leb (rows h) end_ || Nat.leb (cols h) start); [cbn; split; auto; discriminate|].
        destruct (Hg s (end_ :: start :: orders) w I) as [I' Hv].
        destruct (g s (end_ :: start :: orders) w) as [[v|x|] w']; cbn [fst snd] in *;
          try (split; auto; discriminate).
        split; auto. intros d E.
        destruct (py_dagger adj v) as [d'|] eqn:Dg; inversion E; subst.
        rewrite (sden_dagger adj_proper adj_add _ Dg), (Hv v eq_refl).
        apply andb_true_iff in Wr. destruct Wr as [Wr _]. symmetry. now apply Hherm.
      + destruct (pbo_spec adj_proper adj_add (Inv:=winv)
                     (has1:=fun i1 w => wcontains (szero_test (R:=T)) w a i1)
                     (has2:=fun i2 w => wcontains (szero_test (R:=T)) w b i2)
                     (get1:=g a) (get2:=g b) (F1:=spec a) (F2:=spec b)
                     (Hg a) (Hg b)
                     (fun i st Ist H => contains_false_zero a i Ist H)
                     (fun i st Ist H => contains_false_zero b i Ist H)
                     (mode_halfsum m) (mid_of a) start end_ orders w I) as [I' Hv].
        split; auto. intros v E. rewrite (Hv v E), Hsum.
        destruct (mode_halfsum m && Nat.eqb start end_) eqn:HS.
        * apply andb_true_iff in HS. destruct HS as [HS Eq]. apply PeanoNat.Nat.eqb_eq in Eq. subst end_.
          apply (halfsum_adjoint adj_proper adj_mul adj_invol).
          intros k n _. now apply Hmut.
        * apply full_sum_contrib.
    - cbn. split; auto. discriminate.
  Qed.

  Theorem cdp_sound fuel : sound_cb (cdp_getitem tadd tmul adj descs fuel).
  Proof.
    apply getitem_sound.
    - intros s i w L [W C]. split; [now apply wf_start | now apply cinv_start].
    - intros s i v w D [W C]. split; [now apply wf_set_entry | now apply cinv_set_done].
    - intros s i w [W C]. split; [now apply wf_drop | now apply cinv_drop].
    - intros s i v w [_ C]. apply C.
    - exact eval_sound.
  Qed.

End Sound.


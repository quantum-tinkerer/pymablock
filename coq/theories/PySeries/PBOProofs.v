(* PySeries/PBOProofs.v

   Theorems about the model of product_by_order (ProductByOrder.v):

   pbo_spec     for accessors that return values denoting F1 / F2 (while some state
                invariant holds) and whose `in` test is false only on elements that
                denote 0, the result denotes the sum of the contributions of all
                (middle, splitting) pairs; for hermitian = False this is the full
                Cauchy sum (full_sum_contrib).
   halfsum_adjoint  the Hermitian half-sum equals the full sum when the factors are
                mutual adjoints.
*)

Require Import Ncring List Bool Permutation.
Import ListNotations.
Require Import PV.PySeries.Sentinel PV.PySeries.Cache PV.PySeries.ProductByOrder
        PV.PySeries.MultiIndex PV.PySeries.RSum.

Set Implicit Arguments.

Section Den.
  Context {T : Type} `{Rg : Ring T}.
  Variable adj : T -> T.
  Hypothesis adj_proper : Proper (_==_ ==> _==_) adj.
  Hypothesis adj_add : forall x y, adj (x + y) == adj x + adj y.

  Definition sden (x : sval T) : T := den 0 1 x.

  Definition tadd : T -> T -> T := fun x y => x + y.
  Definition tmul : T -> T -> T := fun x y => x * y.

  Instance tadd_proper : Proper (_==_ ==> _==_ ==> _==_) tadd.
  Proof. intros a b E c d F. unfold tadd. rewrite E, F. reflexivity. Qed.

  Lemma sden_add x y z : py_add tadd x y = SOk z -> sden z == sden x + sden y.
  Proof.
    apply (@den_add T 0 1 tadd equality); try typeclasses eauto.
    intros a. unfold tadd. apply ring_add_0_l.
  Qed.

  Lemma sden_term x y : sden (py_term tmul x y) == sden x * sden y.
  Proof.
    apply (@den_term T 0 1 tmul equality); try typeclasses eauto; intros a; unfold tmul.
    apply ring_mul_0_l. apply ring_mul_0_r. apply ring_mul_1_l. apply ring_mul_1_r.
  Qed.

  Lemma sden_dagger x z : py_dagger adj x = SOk z -> sden z == adj (sden x).
  Proof.
    apply (@den_dagger T 0 1 adj equality); try typeclasses eauto.
    apply adj_zero; auto.
  Qed.

  Lemma sden_accum_herm r t z :
    py_accum_herm tadd adj r t = SOk z -> sden z == sden r + sden t + adj (sden t).
  Proof.
    apply (@den_accum_herm T 0 1 tadd adj equality); try typeclasses eauto.
    intros a. unfold tadd. apply ring_add_0_l. apply adj_zero; auto.
  Qed.

  Lemma is_zero_sden (v : sval T) : is_zero v = true -> sden v == 0.
  Proof. destruct v; cbn; try discriminate. reflexivity. Qed.

  Section Spec.
    Variable St : Type.
    Variables has1 has2 : index -> St -> bool.
    Variables get1 get2 : index -> St -> res pyerr (sval T) * St.
    Variable Inv : St -> Prop.
    Variables F1 F2 : index -> T.

    Definition get_ok (get : index -> St -> res pyerr (sval T) * St) (F : index -> T) : Prop :=
      forall i st, Inv st ->
        Inv (snd (get i st)) /\ forall v, fst (get i st) = Ok v -> sden v == F i.
    Definition has_ok (has : index -> St -> bool) (F : index -> T) : Prop :=
      forall i st, Inv st -> has i st = false -> F i == 0.

    Hypothesis Hget1 : get_ok get1 F1.
    Hypothesis Hget2 : get_ok get2 F2.
    Hypothesis Hhas1 : has_ok has1 F1.
    Hypothesis Hhas2 : has_ok has2 F2.

    Lemma fetch_spec ff i1 i2 st :
      Inv st ->
      Inv (snd (fetch get1 get2 ff i1 i2 st)) /\
      match fst (fetch get1 get2 ff i1 i2 st) with
      | Ok None => F1 i1 * F2 i2 == 0
      | Ok (Some (v1, v2)) => sden v1 == F1 i1 /\ sden v2 == F2 i2
      | _ => True
      end.
    Proof.
      intros I. unfold fetch. destruct ff.
      - destruct (Hget1 i1 I) as [I1 D1]. destruct (get1 i1 st) as [[v1|x|] st1]; cbn in *; auto.
        destruct (is_zero v1) eqn:Z1; cbn.
        + split; auto. rewrite <- (D1 v1 eq_refl), (is_zero_sden _ Z1). apply ring_mul_0_l.
        + destruct (Hget2 i2 I1) as [I2 D2].
          destruct (get2 i2 st1) as [[v2|x|] st2]; cbn in *; auto.
          destruct (is_zero v2) eqn:Z2; cbn.
          * split; auto. rewrite <- (D2 v2 eq_refl), (is_zero_sden _ Z2). apply ring_mul_0_r.
          * split; auto.
      - destruct (Hget2 i2 I) as [I1 D1]. destruct (get2 i2 st) as [[v2|x|] st1]; cbn in *; auto.
        destruct (is_zero v2) eqn:Z1; cbn.
        + split; auto. rewrite <- (D1 v2 eq_refl), (is_zero_sden _ Z1). apply ring_mul_0_r.
        + destruct (Hget1 i1 I1) as [I2 D2].
          destruct (get1 i1 st1) as [[v1|x|] st2]; cbn in *; auto.
          destruct (is_zero v1) eqn:Z2; cbn.
          * split; auto. rewrite <- (D2 v1 eq_refl), (is_zero_sden _ Z2). apply ring_mul_0_l.
          * split; auto.
    Qed.

    (* what one (middle, orders_1st) pair contributes to the result *)
    Definition contrib (herm : bool) (start end_ : nat) (orders : mi) (ka : nat * mi) : T :=
      let b := msub orders (snd ka) in
      let t := F1 (start :: fst ka :: snd ka) * F2 (fst ka :: end_ :: b) in
      if herm && tuple_gt (snd ka) b then 0
      else if negb herm || mi_eqb (snd ka) b then t else t + adj t.

    Lemma if_zero_term (c : bool) (t : T) :
      t == 0 -> (if c then t else t + adj t) == 0.
    Proof.
      intros Z. destruct c; auto. rewrite Z, (adj_zero adj_proper adj_add). apply ring_add_0_l.
    Qed.

    Lemma accumulate_spec herm o1 o2 acc term z :
      accumulate tadd adj herm o1 o2 acc term = SOk z ->
      sden z == sden acc + (if negb herm || mi_eqb o1 o2 then sden term
                            else sden term + adj (sden term)).
    Proof.
      unfold accumulate. destruct (negb herm || mi_eqb o1 o2).
      - apply sden_add.
      - intros H. rewrite (sden_accum_herm _ _ H). apply add_assoc'.
    Qed.

    Lemma loop_spec herm start end_ orders todo :
      forall acc st, Inv st ->
        let r := pbo_loop tadd tmul adj has1 has2 get1 get2 herm start end_ orders todo acc st in
        Inv (snd r) /\
        forall v, fst r = Ok v ->
                  sden v == sden acc + bigsum (contrib herm start end_ orders) todo.
    Proof.
      induction todo as [|[k a] rest IH]; intros acc st I; cbn [pbo_loop].
      - cbn. split; auto. intros v E. inversion E; subst. symmetry. apply ring_add_0_r.
      - cbn [bigsum]. unfold contrib at 1. cbn [fst snd].
        set (b := msub orders a). set (i1 := start :: k :: a). set (i2 := k :: end_ :: b).
        destruct (herm && tuple_gt a b) eqn:G.
        { destruct (IH acc st I) as [I' H]. split; auto. intros v E.
          rewrite (H v E). rewrite ring_add_0_l. reflexivity. }
        destruct (negb (has1 i1 st) || negb (has2 i2 st)) eqn:C.
        { destruct (IH acc st I) as [I' H]. split; auto. intros v E. rewrite (H v E).
          assert (F1 i1 * F2 i2 == 0) as Z.
          { apply orb_true_iff in C. destruct C as [C|C]; apply negb_true_iff in C.
            - rewrite (Hhas1 I C). apply ring_mul_0_l.
            - rewrite (Hhas2 I C). apply ring_mul_0_r. }
          rewrite (if_zero_term _ Z), ring_add_0_l. reflexivity. }
        destruct (cost a) as [c1|]; [|cbn; split; auto; discriminate].
        destruct (cost b) as [c2|]; [|cbn; split; auto; discriminate].
        destruct (fetch_spec (Nat.leb c1 c2) i1 i2 I) as [I' Hf].
        destruct (fetch get1 get2 (Nat.leb c1 c2) i1 i2 st) as [[[[v1 v2]|]|x|] st']; cbn [fst snd] in *.
        + destruct Hf as [D1 D2].
          destruct (accumulate tadd adj herm a b acc (py_term tmul v1 v2)) as [acc'|e] eqn:A.
          * destruct (IH acc' st' I') as [I'' H]. split; auto. intros v E. rewrite (H v E).
            rewrite (accumulate_spec _ _ _ _ _ A).
            assert (sden (py_term tmul v1 v2) == F1 i1 * F2 i2) as Et
                by (rewrite sden_term, D1, D2; reflexivity).
            destruct (negb herm || mi_eqb a b); rewrite Et; apply add_assoc'.
          * cbn. split; auto. discriminate.
        + destruct (IH acc st' I') as [I'' H]. split; auto. intros v E. rewrite (H v E).
          rewrite (if_zero_term _ Hf), ring_add_0_l. reflexivity.
        + split; auto. discriminate.
        + split; auto. discriminate.
    Qed.

    Theorem pbo_spec hermitian mid start end_ orders st :
      Inv st ->
      let r := product_by_order tadd tmul adj has1 has2 get1 get2 hermitian mid start end_ orders st in
      Inv (snd r) /\
      forall v, fst r = Ok v ->
        sden v == bigsum (contrib (hermitian && Nat.eqb start end_) start end_ orders)
                         (enumeration mid orders).
    Proof.
      intros I. unfold product_by_order.
      destruct (loop_spec (hermitian && Nat.eqb start end_) start end_ orders
                          (enumeration mid orders) SZero I) as [I' H].
      split; auto. intros v E. rewrite (H v E). cbn. apply ring_add_0_l.
    Qed.

    (* The multivariate Cauchy sum over the middle block index and all splittings *)
    Definition cauchy_sum (mid start end_ : nat) (orders : mi) : T :=
      bigsum (fun k =>
                bigsum (fun a => F1 (start :: k :: a) * F2 (k :: end_ :: msub orders a))
                       (splits orders))
             (seq 0 mid).

    Lemma enumeration_sum (f : nat * mi -> T) mid orders :
      bigsum f (enumeration mid orders)
      == bigsum (fun k => bigsum (fun a => f (k, a)) (splits orders)) (seq 0 mid).
    Proof.
      unfold enumeration. rewrite bigsum_flat_map. apply bigsum_ext. intros k _.
      rewrite bigsum_map. reflexivity.
    Qed.

    Lemma full_sum_contrib mid start end_ orders :
      bigsum (contrib false start end_ orders) (enumeration mid orders)
      == cauchy_sum mid start end_ orders.
    Proof. rewrite enumeration_sum. reflexivity. Qed.

  End Spec.

  (* Hermitian half-sum for mutually adjoint factors, diagonal block i. *)
  Section HalfSum.
    Hypothesis adj_mul : forall x y, adj (x * y) == adj y * adj x.
    Hypothesis adj_invol : forall x, adj (adj x) == x.
    Variables F1 F2 : index -> T.
    Variable i : nat.
    Variable orders : mi.
    (* second(k, i, a) = adjoint of first(i, k, a) *)
    Hypothesis mutual : forall k a, Forall2 le a orders ->
                                    F2 (k :: i :: a) == adj (F1 (i :: k :: a)).

    Let t (k : nat) (a : mi) : T := F1 (i :: k :: a) * F2 (k :: i :: msub orders a).

    Lemma t_adj k a : Forall2 le a orders -> adj (t k a) == t k (msub orders a).
    Proof.
      intros L. unfold t. rewrite adj_mul.
      rewrite (mutual k (msub_le L)), adj_invol.
      rewrite (msub_invol L). rewrite (mutual k L). reflexivity.
    Qed.

    Lemma msub_perm : Permutation (map (msub orders) (splits orders)) (splits orders).
    Proof.
      apply NoDup_Permutation.
      - apply Series.MultiIndex.nodup_map_inj; [|apply NoDup_splits]. intros x y Hx Hy E.
        apply in_splits in Hx, Hy. rewrite <- (msub_invol Hx), <- (msub_invol Hy). now f_equal.
      - apply NoDup_splits.
      - intros a. rewrite in_map_iff. split.
        + intros (x & <- & Hx). apply in_splits, msub_le. now apply in_splits.
        + intros Ha. apply in_splits in Ha. exists (msub orders a).
          split; [now apply msub_invol | now apply in_splits, msub_le].
    Qed.

    Lemma halfsum_one_k k :
      bigsum (fun a => contrib F1 F2 true i i orders (k, a)) (splits orders)
      == bigsum (fun a => t k a) (splits orders).
    Proof.
      (* contrib a = u a + v a, and reindexing the v-part by the involution
         a |-> orders - a turns it into the terms that u leaves out *)
      set (u a := if tuple_gt a (msub orders a) then 0 else t k a).
      set (v a := if tuple_gt (msub orders a) a then t k (msub orders a) else 0).
      transitivity (bigsum (fun a => u a + v a) (splits orders)).
      { apply bigsum_ext. intros a Ha. apply in_splits in Ha.
        unfold contrib, u, v. cbn [fst snd andb negb orb]. fold (t k a).
        destruct (tuple_gt a (msub orders a)) eqn:G.
        - rewrite (tuple_gt_antisym _ _ G). symmetry. apply ring_add_0_l.
        - destruct (mi_eqb a (msub orders a)) eqn:E.
          + apply mi_eqb_eq in E. rewrite <- E, tuple_gt_irrefl. symmetry. apply ring_add_0_r.
          + destruct (tuple_gt (msub orders a) a) eqn:L.
            * now rewrite (t_adj k Ha).
            * apply index_eqb_neq in E. destruct E. apply tuple_trichotomy; auto.
              rewrite msub_length; now apply Forall2_length with (R := le). }
      rewrite bigsum_add, <- (bigsum_perm v msub_perm), bigsum_map, <- bigsum_add.
      apply bigsum_ext. intros a Ha. apply in_splits in Ha. unfold u, v.
      rewrite (msub_invol Ha).
      destruct (tuple_gt a (msub orders a)); [apply ring_add_0_l | apply ring_add_0_r].
    Qed.

    Theorem halfsum_adjoint mid :
      bigsum (contrib F1 F2 true i i orders) (enumeration mid orders)
      == cauchy_sum F1 F2 mid i i orders.
    Proof.
      rewrite enumeration_sum. unfold cauchy_sum. apply bigsum_ext. intros k _.
      apply halfsum_one_k.
    Qed.
  End HalfSum.

End Den.

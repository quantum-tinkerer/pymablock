(* PySeries/C18Examples.v : the hypotheses of the C18 theorems are satisfiable
   (non-vacuity), on the ring Z with the identity as involution. *)

Require Import Ncring_initial List Bool ZArith.
Import ListNotations.
Require Import PV.PySeries.Sentinel PV.PySeries.Cache PV.PySeries.ProductByOrder
        PV.PySeries.CauchyDot PV.PySeries.MultiIndex PV.PySeries.RSum PV.PySeries.PBOProofs
        PV.PySeries.CauchyProofs PV.PySeries.AssocProofs.

(* 1. accessors: any pair of pure tables, with `in` = "is not the sentinel zero" *)
Section Pure.
  Context {T : Type} `{Rg : Ring T}.
  Variables V1 V2 : index -> sval T.
  Definition pget (V : index -> sval T) (i : index) (st : unit) : res pyerr (sval T) * unit := (Ok (V i), st).
  Definition phas (V : index -> sval T) (i : index) (st : unit) : bool := negb (is_zero (V i)).
  Definition ptrue (st : unit) : Prop := True.

  Example pure_get_ok V : get_ok ptrue (pget V) (fun i => sden (V i)).
  Proof. intros i st _. cbn. split. exact I. intros v E. inversion E; subst. reflexivity. Qed.

  Example pure_has_ok V : has_ok ptrue (phas V) (fun i => sden (V i)).
  Proof.
    intros i st _ H. unfold phas in H. apply negb_false_iff in H. now apply is_zero_sden.
  Qed.
End Pure.

(* 2. a world over Z: two base series and their product, with its specification *)
Definition zid (x : Z) : Z := x.

Definition exA : index -> sval Z := fun i =>
  match i with [_; _; O] => SOne | [_; _; S O] => SVal 2%Z | _ => SZero end.
Definition exB : index -> sval Z := fun i =>
  match i with [_; _; O] => SVal 5%Z | [_; _; S O] => SVal (-1)%Z | _ => SZero end.

Definition ex_descs : list (sdesc Z) :=
  [SBase (mkHead (S O) (S O) (S O) (cons O nil)) (fun i => Ok (exA i)); SBase (mkHead (S O) (S O) (S O) (cons O nil)) (fun i => Ok (exB i));
   SProd (mkHead (S O) (S O) (S O) (cons O nil)) HNone O (S O)].

Definition ex_spec (s : sid) (i : index) : Z :=
  match s with
  | O => sden (exA i)
  | S O => sden (exB i)
  | _ => match i with
         | start :: end_ :: orders =>
             cauchy_sum (fun i => sden (exA i)) (fun i => sden (exB i)) (S O) start end_ orders
         | _ => Z0
         end
  end.

Example ex_base_ok : base_ok ex_descs ex_spec.
Proof.
  intros s h tbl D i v E. destruct s as [|[|[|s]]]; cbn in D;
    try (destruct s; discriminate); inversion D; subst; inversion E; subst; reflexivity.
Qed.

Example ex_prod_ok : prod_ok zid ex_descs ex_spec.
Proof.
  intros s h m a b D. destruct s as [|[|[|s]]]; cbn in D;
    try (destruct s; discriminate); inversion D; subst.
  split; [|split]; try discriminate. intros. reflexivity.
Qed.

(* 3. mutually adjoint factors exist: take any F1 and define F2 from it *)
Example mutual_adjoint_exists (F1 : index -> Z) :
  exists F2 : index -> Z, forall i k a, F2 (k :: i :: a) = zid (F1 (i :: k :: a)).
Proof.
  exists (fun idx => match idx with k :: i :: a => F1 (i :: k :: a) | _ => Z0 end).
  reflexivity.
Qed.

(* 4. a duplicate-free enumeration of all splittings exists (the canonical one) *)
Example paths_exist (mids : list nat) (n : mi) :
  NoDup (pathsR mids n) /\ forall ks ps, In (ks, ps) (pathsR mids n) <-> path_ok mids n ks ps.
Proof. split. apply NoDup_pathsR. intros. apply in_pathsR. Qed.

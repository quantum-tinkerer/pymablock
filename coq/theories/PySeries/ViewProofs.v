(* PySeries/ViewProofs.v : the finite-only views of BlockSeries.__getitem__.

   The list/slice view.  Appending, to a finite index expression, one length-one slice
   o:o+1 per order dimension selects the same finite positions, each extended by the
   orders, and appends dimensions of extent 1:

     np_index (shape ++ [o1+1; ...]) (item ++ [o1:o1+1; ...])
        = (vshape ++ [1; ...],  map (fun p => p ++ [o1; ...]) positions)
     where (vshape, positions) = np_index shape item          (np_index_tail).

   Hence the hidden `packed` series holds at orders o the array whose k-th entry is the
   element (positions[k] ++ o) of the original, with the shape of np.empty(shape)[item],
   and the view's element (f ++ o) is entry offset(f) of it.
*)

Require Import List ZArith Arith Bool Lia.
Import ListNotations.
Require Import PV.PySeries.Sentinel PV.PySeries.Cache PV.PySeries.Index PV.PySeries.GetItem
        PV.PySeries.IndexProofs.

Set Implicit Arguments.

Definition tail_slices (oidx : list nat) : list nix := map (fun o => NSlice [o]) oidx.
Definition singles (oidx : list nat) : list (list nat) := map (fun o => [o]) oidx.

Lemma norm_order_slice b o : norm_ix b (o + 1) (order_slice o) = IOk (NSlice [o]).
Proof.
  unfold order_slice, norm_ix, slice_positions, clip.
  assert ((Z.of_nat o <? 0)%Z = false) as -> by (apply Z.ltb_ge; lia).
  assert ((Z.of_nat o + 1 <? 0)%Z = false) as -> by (apply Z.ltb_ge; lia).
  replace (Z.min (Z.of_nat o) (Z.of_nat (o + 1))) with (Z.of_nat o) by lia.
  replace (Z.min (Z.of_nat o + 1) (Z.of_nat (o + 1))) with (Z.of_nat o + 1)%Z by lia.
  assert ((Z.of_nat o + 1 <=? Z.of_nat o)%Z = false) as -> by (apply Z.leb_gt; lia).
  replace ((Z.of_nat o + 1 - Z.of_nat o + 1 - 1) / 1)%Z with 1%Z by (rewrite Z.div_1_r; lia).
  change (Z.to_nat 1) with 1. cbn [seq map]. do 3 f_equal. lia.
Qed.

Lemma slice_code : order_code order_slice (fun o => NSlice [o]).
Proof.
  intros o. split; [|split; [|intros b; apply norm_order_slice]]; cbn.
  - apply orb_false_iff. split; apply Z.ltb_ge; lia.
  - do 2 f_equal. lia.
Qed.

Lemma bcast_len_tail A oidx acc : bcast_len (A ++ tail_slices oidx) acc = bcast_len A acc.
Proof.
  revert acc. induction A as [|[n|l|ps] A IH]; intros acc; cbn; auto.
  - induction oidx; cbn; auto.
  - destruct acc as [a|]; auto. destruct (bc a (length l)); auto.
Qed.

Lemma slices_of_app A B : slices_of (A ++ B) = slices_of A ++ slices_of B.
Proof. unfold slices_of. apply flat_map_app. Qed.

Lemma slices_of_tail oidx : slices_of (tail_slices oidx) = singles oidx.
Proof. induction oidx; cbn; auto. now f_equal. Qed.

Lemma cart_singles S oidx : cart (S ++ singles oidx) = map (fun c => c ++ oidx) (cart S).
Proof.
  induction S as [|l S IH]; cbn.
  - cbn [app cart map]. induction oidx as [|o r IHr]; [reflexivity|].
    change (singles (o :: r)) with ([o] :: singles r). cbn [cart flat_map]. rewrite IHr. reflexivity.
  - rewrite IH. clear IH. induction l as [|x l IHl]; cbn; auto.
    rewrite map_app, IHl, !map_map. reflexivity.
Qed.

Lemma cart_length S c : In c (cart S) -> length c = length S.
Proof.
  revert c. induction S as [|l S IH]; cbn; intros c H.
  - destruct H as [<-|[]]. reflexivity.
  - apply in_flat_map in H. destruct H as (x & _ & H). apply in_map_iff in H.
    destruct H as (c' & <- & H). cbn. f_equal. now apply IH.
Qed.

Lemma fill_tail A oidx t : forall c,
  length c = length (slices_of A) ->
  fill (A ++ tail_slices oidx) t (c ++ oidx) = fill A t c ++ oidx.
Proof.
  induction A as [|[n|l|ps] A IH]; intros c L; cbn in *.
  - destruct c; [|discriminate]. cbn. clear. induction oidx as [|o r IHr]; cbn; auto. now f_equal.
  - f_equal. now apply IH.
  - f_equal. now apply IH.
  - destruct c as [|x c]; [discriminate|]. cbn. f_equal. apply IH. now inversion L.
Qed.

Lemma fill_tail_map A oidx t cp S :
  length cp + length S = length (slices_of A) ->
  map (fun c => fill (A ++ tail_slices oidx) t (cp ++ c)) (cart (S ++ singles oidx)) =
  map (fun p => p ++ oidx) (map (fun c => fill A t (cp ++ c)) (cart S)).
Proof.
  intros L. rewrite cart_singles, !map_map. apply map_ext_in. intros c Hc.
  rewrite app_assoc. apply fill_tail. now rewrite app_length, (cart_length _ _ Hc).
Qed.

Lemma map_flat_map' {A B C} (f : B -> C) (g : A -> list B) l :
  map f (flat_map g l) = flat_map (fun x => map f (g x)) l.
Proof. induction l; cbn; auto. now rewrite map_app, IHl. Qed.

Lemma flat_map_ext_in' {A B} (f g : A -> list B) l :
  (forall x, In x l -> f x = g x) -> flat_map f l = flat_map g l.
Proof.
  induction l as [|a l IH]; cbn; intros H; auto. rewrite (H a), IH; auto.
Qed.

Lemma map_length_singles oidx : map (@length nat) (singles oidx) = repeat 1 (length oidx).
Proof. induction oidx; cbn; auto. now f_equal. Qed.

(* the adjacency test: an item with an advanced index keeps its split when slices
   are appended (without one, the appended slices would count as leading slices) *)
Lemma leading_slices_app A T :
  forallb is_slice A = false ->
  leading_slices (A ++ T) = (fst (leading_slices A), snd (leading_slices A) ++ T).
Proof.
  induction A as [|[n|l|ps] A IH]; cbn; intros N; try reflexivity; [discriminate|].
  rewrite (IH N). now destruct (leading_slices A).
Qed.

Lemma leading_adv_app A oidx :
  leading_adv (A ++ tail_slices oidx) =
  (fst (leading_adv A), snd (leading_adv A) ++ tail_slices oidx).
Proof.
  induction A as [|[n|l|ps] A IH]; cbn; try reflexivity.
  - now destruct oidx.
  - rewrite IH. now destruct (leading_adv A).
  - rewrite IH. now destruct (leading_adv A).
Qed.

Lemma forallb_slice_tail oidx : forallb is_slice (tail_slices oidx) = true.
Proof. induction oidx; cbn; auto. Qed.

Lemma bcast_has_list A L : forall acc,
  bcast_len A acc = Some (Some L) -> acc = None -> forallb is_slice A = false.
Proof.
  induction A as [|[n|l|ps] A IH]; cbn; intros acc E ->; eauto. discriminate.
Qed.

Lemma adjacent_split_tail A oidx L :
  bcast_len A None = Some (Some L) ->
  adjacent_split (A ++ tail_slices oidx) =
  match adjacent_split A with
  | Some (pre, post) => Some (pre, post ++ tail_slices oidx)
  | None => None
  end.
Proof.
  intros B. unfold adjacent_split. rewrite leading_slices_app by (eapply bcast_has_list; eauto).
  destruct (leading_slices A) as [pre rest]. cbn [fst snd]. rewrite leading_adv_app.
  destruct (leading_adv rest) as [adv post]. cbn [fst snd].
  rewrite forallb_app, forallb_slice_tail, andb_true_r. now destruct (forallb is_slice post).
Qed.

Lemma slices_of_leading_slices A :
  slices_of A = slices_of (fst (leading_slices A)) ++ slices_of (snd (leading_slices A)).
Proof.
  unfold slices_of. induction A as [|[n|l|ps] A IH]; cbn; auto.
  destruct (leading_slices A). cbn in *. now rewrite IH.
Qed.

Lemma slices_of_leading_adv A : slices_of A = slices_of (snd (leading_adv A)).
Proof.
  unfold slices_of. induction A as [|[n|l|ps] A IH]; cbn; auto; now destruct (leading_adv A).
Qed.

Lemma adjacent_split_slices A pre post :
  adjacent_split A = Some (pre, post) ->
  slices_of A = slices_of pre ++ slices_of post.
Proof.
  unfold adjacent_split. rewrite (slices_of_leading_slices A).
  destruct (leading_slices A) as [pre' rest]. cbn [fst snd]. rewrite (slices_of_leading_adv rest).
  destruct (leading_adv rest) as [adv post']. cbn [snd].
  destruct (forallb is_slice post'); [|discriminate]. now intros [= <- <-].
Qed.

Theorem np_index_n_tail A oidx :
  np_index_n (A ++ tail_slices oidx) =
  match np_index_n A with
  | IOk (shp, poss) => IOk (shp ++ repeat 1 (length oidx), map (fun p => p ++ oidx) poss)
  | IErr e => IErr e
  end.
Proof.
  unfold np_index_n. rewrite bcast_len_tail.
  destruct (bcast_len A None) as [[L|]|] eqn:B; auto.
  - rewrite (adjacent_split_tail _ oidx B).
    destruct (adjacent_split A) as [[pre post]|] eqn:Adj;
      rewrite slices_of_app, slices_of_tail, map_app, map_length_singles, ?app_assoc; do 2 f_equal.
    + pose proof (adjacent_split_slices _ Adj) as SA.
      rewrite map_flat_map'. apply flat_map_ext_in'. intros cp Hcp.
      rewrite map_flat_map'. apply flat_map_ext. intros t.
      apply fill_tail_map. now rewrite SA, app_length, (cart_length _ _ Hcp).
    + rewrite map_flat_map'. apply flat_map_ext. intros t. now apply (fill_tail_map A oidx t []).
  - rewrite slices_of_app, slices_of_tail, map_app, map_length_singles. do 2 f_equal.
    now apply (fill_tail_map A oidx 0 []).
Qed.

Lemma raw_bcast_tail item oidx acc : raw_bcast (item ++ map order_slice oidx) acc = raw_bcast item acc.
Proof.
  revert acc. induction item as [|[z|l|a b c] item IH]; intros acc; cbn; auto.
  - induction oidx; cbn; auto.
  - destruct acc as [a|]; auto. destruct (bc a (length l)); auto.
Qed.

Lemma np_index_tail fs item oidx vshape poss :
  length item = length fs ->
  np_index fs item = IOk (vshape, poss) ->
  np_index (fs ++ map (fun n => n + 1) oidx) (item ++ map order_slice oidx)
  = IOk (vshape ++ repeat 1 (length oidx), map (fun p => p ++ oidx) poss).
Proof.
  intros L. rewrite (np_index_orders slice_code), np_index_full by auto.
  unfold lenient_item. rewrite raw_bcast_tail.
  destruct (basic_error fs item); [discriminate|].
  destruct (norm_all _ fs item) as [A|e]; [|discriminate].
  fold (tail_slices oidx). rewrite np_index_n_tail. now intros ->.
Qed.

Section Views.
  Variable X : Type.
  Variable xdefault : X.

  (* an out-of-bounds integer in the item surfaces as IndexError when an element is requested *)
  Theorem view_int_out_of_bounds (descs : list (bdesc X)) v h p (zs : list Z)
          (g : bcallback X) (idx : index) (w : bworld X) :
    nth_error descs v = Some (BViewInt h p zs) ->
    length zs = length (fshape (bhead_at descs p)) ->
    length idx = bninf (bhead_at descs p) ->
    norm_all false (fshape (bhead_at descs p)) (map IInt zs) = IErr EIndex ->
    bs_eval xdefault descs v g idx w = (Raise IndexError, w).
  Proof.
    intros D L1 L2 N. unfold bs_eval. rewrite D.
    rewrite (bs_getitem_full_orders xdefault g _ p _ _ w int_code) by (now rewrite ?map_length).
    rewrite (np_index_orders int_code) by (now rewrite map_length).
    now rewrite basic_error_ints, N.
  Qed.
End Views.

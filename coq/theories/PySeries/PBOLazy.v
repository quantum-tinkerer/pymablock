(* PySeries/PBOLazy.v

   Laziness of product_by_order: which factor elements are requested.
   The factors are pure tables V1, V2 with `in` tests K1, K2 and the state is the
   access log (true = first factor, false = second factor).  Every logged request
   stems from one (middle, orders_1st) pair of the enumeration for which
     - the Hermitian skip did not apply,
     - both complementary elements are `in` their series (not known zeros),
     - and, if the element was requested second (by the cost rule), the element
       requested first was not the sentinel zero.
*)

Require Import List Arith Bool.
Import ListNotations.
Require Import PV.PySeries.Sentinel PV.PySeries.Cache PV.PySeries.ProductByOrder.

Set Implicit Arguments.

Section Lazy.
  Variable R : Type.
  Variables (radd rmul : R -> R -> R) (radj : R -> R).
  Variables V1 V2 : index -> sval R.
  Variables K1 K2 : index -> bool.

  Definition alog := list (bool * index).

  Definition lget1 (i : index) (l : alog) : res pyerr (sval R) * alog := (Ok (V1 i), l ++ [(true, i)]).
  Definition lget2 (i : index) (l : alog) : res pyerr (sval R) * alog := (Ok (V2 i), l ++ [(false, i)]).
  Definition lhas1 (i : index) (l : alog) : bool := K1 i.
  Definition lhas2 (i : index) (l : alog) : bool := K2 i.

  Definition lpbo := product_by_order radd rmul radj lhas1 lhas2 lget1 lget2.
  Definition lloop := pbo_loop radd rmul radj lhas1 lhas2 lget1 lget2.

  Definition justified (herm : bool) (start end_ : nat) (orders : mi)
             (todo : list (nat * mi)) (e : bool * index) : Prop :=
    exists k a c1 c2,
      In (k, a) todo /\
      let b := msub orders a in
      let i1 := start :: k :: a in
      let i2 := k :: end_ :: b in
      herm && tuple_gt a b = false /\
      K1 i1 = true /\ K2 i2 = true /\
      cost a = Some c1 /\ cost b = Some c2 /\
      ((e = (true, i1) /\ (Nat.leb c1 c2 = true \/ is_zero (V2 i2) = false)) \/
       (e = (false, i2) /\ (Nat.leb c1 c2 = false \/ is_zero (V1 i1) = false))).

  Lemma justified_incl herm s e n todo todo' x :
    incl todo todo' -> justified herm s e n todo x -> justified herm s e n todo' x.
  Proof.
    intros Hi (k & a & c1 & c2 & Hin & H). exists k, a, c1, c2. split; auto.
  Qed.

  (* the log grows by entries that satisfy P *)
  Definition grows (P : bool * index -> Prop) (l0 l1 : alog) : Prop :=
    exists l, l1 = l0 ++ l /\ Forall P l.

  Lemma grows_refl P l : grows P l l.
  Proof. exists []. now rewrite app_nil_r. Qed.

  Lemma grows_trans P a b c : grows P a b -> grows P b c -> grows P a c.
  Proof.
    intros (l1 & -> & F1) (l2 & -> & F2). exists (l1 ++ l2).
    rewrite app_assoc. split; [reflexivity | now apply Forall_app].
  Qed.

  Lemma grows_snoc (P : bool * index -> Prop) l x : P x -> grows P l (l ++ [x]).
  Proof. intros H. exists [x]. split; [reflexivity | now constructor]. Qed.

  Lemma grows_mono (P Q : bool * index -> Prop) a b :
    (forall x, P x -> Q x) -> grows P a b -> grows Q a b.
  Proof. intros H (l & E & F). exists l. split; [exact E | eapply Forall_impl; eauto]. Qed.

  (* which of the two elements fetch asks for: the first always, the second unless
     the first was the sentinel zero *)
  Definition fetched (ff : bool) (i1 i2 : index) (x : bool * index) : Prop :=
    (x = (true, i1) /\ (ff = true \/ is_zero (V2 i2) = false)) \/
    (x = (false, i2) /\ (ff = false \/ is_zero (V1 i1) = false)).

  Lemma fetch_lazy ff i1 i2 l :
    grows (fetched ff i1 i2) l (snd (fetch lget1 lget2 ff i1 i2 l)).
  Proof.
    unfold fetch, lget1, lget2, fetched. destruct ff.
    - destruct (is_zero (V1 i1)) eqn:Z1; [apply grows_snoc; auto|].
      apply grows_trans with (l ++ [(true, i1)]); [apply grows_snoc; auto|].
      destruct (is_zero (V2 i2)); apply grows_snoc; auto.
    - destruct (is_zero (V2 i2)) eqn:Z2; [apply grows_snoc; auto|].
      apply grows_trans with (l ++ [(false, i2)]); [apply grows_snoc; auto|].
      destruct (is_zero (V1 i1)); apply grows_snoc; auto.
  Qed.

  Lemma loop_lazy herm s e n todo :
    forall acc l0, grows (justified herm s e n todo) l0 (snd (lloop herm s e n todo acc l0)).
  Proof.
    induction todo as [|[k a] rest IH]; intros acc l0; [apply grows_refl|].
    assert (forall acc' l1, grows (justified herm s e n ((k, a) :: rest)) l0 l1 ->
              grows (justified herm s e n ((k, a) :: rest)) l0 (snd (lloop herm s e n rest acc' l1)))
      as Hcont.
    { intros acc' l1 H. apply (grows_trans H). eapply grows_mono; [|apply IH].
      intros x. apply justified_incl. intros y Hy. now right. }
    unfold lloop. cbn [pbo_loop]. fold lloop.
    set (b := msub n a). set (i1 := s :: k :: a). set (i2 := k :: e :: b).
    destruct (herm && tuple_gt a b) eqn:G; [apply Hcont, grows_refl|].
    unfold lhas1, lhas2.
    destruct (K1 i1) eqn:HK1; cbn [negb orb]; [|apply Hcont, grows_refl].
    destruct (K2 i2) eqn:HK2; cbn [negb]; [|apply Hcont, grows_refl].
    destruct (cost a) as [c1|] eqn:C1; [|apply grows_refl].
    destruct (cost b) as [c2|] eqn:C2; [|apply grows_refl].
    assert (grows (justified herm s e n ((k, a) :: rest)) l0
                  (snd (fetch lget1 lget2 (Nat.leb c1 c2) i1 i2 l0))) as F.
    { eapply grows_mono; [|apply fetch_lazy]. intros x Hx. exists k, a, c1, c2.
      split; [now left|]. fold b i1 i2. repeat split; auto. }
    destruct (fetch lget1 lget2 (Nat.leb c1 c2) i1 i2 l0) as [[[[v1 v2]|]|x|] l1]; cbn [snd] in F.
    - destruct (accumulate radd radj herm a b acc (py_term rmul v1 v2)); [apply Hcont, F | exact F].
    - apply Hcont, F.
    - exact F.
    - exact F.
  Qed.
End Lazy.

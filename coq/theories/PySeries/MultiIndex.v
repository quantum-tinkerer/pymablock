(* PySeries/MultiIndex.v

   Facts about the enumeration `splits` used by product_by_order
   (itertools.product( *(range(d + 1) for d in orders))): it lists, without
   repetition, exactly the multi-orders a with a <= orders pointwise; with
   b = msub orders a these are exactly the pairs with a + b = orders.
   The DSL model has its own `splits`, `lsub`, `lex_gt` with the same facts in
   DSL/HermSums.v: the two models share no definitions.
*)

Require Import List Arith Bool Lia.
Import ListNotations.
Require Import PV.PySeries.Cache PV.PySeries.ProductByOrder.
Require PV.Series.MultiIndex.

Set Implicit Arguments.

(* pointwise sum *)
Fixpoint madd (a b : mi) : mi :=
  match a, b with
  | x :: a', y :: b' => (x + y) :: madd a' b'
  | _, _ => []
  end.

Lemma in_splits n a : In a (splits n) <-> Forall2 le a n.
Proof.
  revert a. induction n as [|d r IH]; intros a; cbn [splits].
  - cbn. split.
    + intros [<-|[]]. constructor.
    + intros H. inversion H. now left.
  - rewrite in_flat_map. split.
    + intros (x & Hx & Ha). apply in_seq in Hx. apply in_map_iff in Ha.
      destruct Ha as (a' & <- & Ha'). constructor. lia. now apply IH.
    + intros H. inversion H as [|x ? a' ? Hle Hr]; subst.
      exists x. split. apply in_seq. lia. apply in_map. now apply IH.
Qed.

Lemma NoDup_splits n : NoDup (splits n).
Proof.
  induction n as [|d r IH]; cbn [splits].
  - constructor. intros []. constructor.
  - apply Series.MultiIndex.nodup_flat_map.
    + apply seq_NoDup.
    + intros x _. apply Series.MultiIndex.nodup_map_inj; auto. intros ? ? _ _ E. now inversion E.
    + intros x y b _ _ Hx Hy. apply in_map_iff in Hx, Hy.
      destruct Hx as (? & <- & _), Hy as (? & E & _). now inversion E.
Qed.

Lemma enumeration_in mid n k a :
  In (k, a) (enumeration mid n) <-> k < mid /\ Forall2 le a n.
Proof.
  unfold enumeration. rewrite in_flat_map. split.
  - intros (x & Hx & H). apply in_seq in Hx. apply in_map_iff in H.
    destruct H as (a' & E & Ha). inversion E; subst. split. lia. now apply in_splits.
  - intros [Hk Ha]. exists k. split. apply in_seq; lia. apply in_map. now apply in_splits.
Qed.

Lemma NoDup_enumeration mid n : NoDup (enumeration mid n).
Proof.
  unfold enumeration. apply Series.MultiIndex.nodup_flat_map.
  - apply seq_NoDup.
  - intros k _. apply Series.MultiIndex.nodup_map_inj. intros ? ? _ _ E. now inversion E. apply NoDup_splits.
  - intros x y b _ _ Hx Hy. apply in_map_iff in Hx, Hy.
    destruct Hx as (? & <- & _), Hy as (? & E & _). now inversion E.
Qed.

Lemma madd_msub n a : Forall2 le a n -> madd a (msub n a) = n.
Proof. induction 1; cbn; auto. f_equal; auto. lia. Qed.

Lemma msub_le n a : Forall2 le a n -> Forall2 le (msub n a) n.
Proof. induction 1; cbn; constructor; auto. lia. Qed.

Lemma msub_invol n a : Forall2 le a n -> msub n (msub n a) = a.
Proof. induction 1; cbn; auto. f_equal; auto. lia. Qed.

Lemma msub_madd a b : length a = length b -> msub (madd a b) a = b.
Proof.
  revert b. induction a as [|x a IH]; intros [|y b]; cbn; try discriminate; auto.
  intros E. f_equal. lia. apply IH. lia.
Qed.

Lemma madd_le a b : length a = length b -> Forall2 le a (madd a b).
Proof.
  revert b. induction a as [|x a IH]; intros [|y b]; cbn; try discriminate; constructor.
  lia. apply IH. lia.
Qed.

Lemma msub_length n a : length a = length n -> length (msub n a) = length n.
Proof.
  revert a. induction n as [|x n IH]; intros [|y a]; cbn; try discriminate; auto.
Qed.

(* pairs (a, b) with a + b = n: exactly (a, msub n a) for a in splits n *)
Definition splits2 (n : mi) : list (mi * mi) := map (fun a => (a, msub n a)) (splits n).

Lemma in_splits2 n a b :
  In (a, b) (splits2 n) <-> length a = length b /\ madd a b = n.
Proof.
  unfold splits2. rewrite in_map_iff. split.
  - intros (a' & E & H). inversion E; subst. apply in_splits in H. split.
    + rewrite msub_length; now apply Forall2_length with (R := le).
    + now apply madd_msub.
  - intros [L <-]. exists a. split. now rewrite msub_madd. apply in_splits. now apply madd_le.
Qed.

Lemma NoDup_splits2 n : NoDup (splits2 n).
Proof.
  unfold splits2. apply Series.MultiIndex.nodup_map_inj. intros ? ? _ _ E. now inversion E. apply NoDup_splits.
Qed.

Lemma tuple_gt_irrefl a : tuple_gt a a = false.
Proof. induction a; cbn; auto. now rewrite Nat.eqb_refl. Qed.

Lemma tuple_gt_antisym a b : tuple_gt a b = true -> tuple_gt b a = false.
Proof.
  revert b. induction a as [|x a IH]; intros [|y b]; cbn; auto; try discriminate.
  destruct (Nat.eqb x y) eqn:E.
  - apply Nat.eqb_eq in E. subst. rewrite Nat.eqb_refl. apply IH.
  - rewrite Nat.eqb_sym, E. intros H. apply Nat.ltb_lt in H. apply Nat.ltb_ge. lia.
Qed.

Lemma tuple_trichotomy a b :
  length a = length b -> tuple_gt a b = false -> tuple_gt b a = false -> a = b.
Proof.
  revert b. induction a as [|x a IH]; intros [|y b]; cbn; try discriminate; auto.
  intros L. destruct (Nat.eqb x y) eqn:E.
  - apply Nat.eqb_eq in E. subst. rewrite Nat.eqb_refl. intros; f_equal; apply IH; auto.
  - rewrite Nat.eqb_sym, E. intros H1 H2. apply Nat.ltb_ge in H1, H2.
    apply Nat.eqb_neq in E. lia.
Qed.

Lemma mi_eqb_eq a b : mi_eqb a b = true <-> a = b.
Proof. apply index_eqb_eq. Qed.

(* Splittings into several parts along a chain of products (reversed order:
   the head of every list belongs to the LAST factor).

   pathsR mids n lists the pairs (ks, ps): ks = intermediate block indices
   (bounded by mids), ps = one multi-order per factor, summing to n. *)

Fixpoint msum (len : nat) (ps : list mi) : mi :=
  match ps with
  | [] => repeat 0 len
  | p :: r => madd p (msum len r)
  end.

Fixpoint pathsR (mids : list nat) (n : mi) : list (list nat * list mi) :=
  match mids with
  | [] => [([], [n])]
  | m :: r =>
      flat_map (fun k =>
        flat_map (fun ab => map (fun p => (k :: fst p, snd ab :: snd p)) (pathsR r (fst ab)))
                 (splits2 n))
        (seq 0 m)
  end.

Lemma madd_comm a b : madd a b = madd b a.
Proof.
  revert b. induction a as [|x a IH]; intros [|y b]; cbn; auto. f_equal. lia. apply IH.
Qed.

Lemma madd_zero_r p : madd p (repeat 0 (length p)) = p.
Proof. induction p; cbn; auto. f_equal; auto. Qed.

Lemma madd_length a b : length a = length b -> length (madd a b) = length a.
Proof.
  revert b. induction a as [|x a IH]; intros [|y b]; cbn; try discriminate; auto.
Qed.

Lemma msum_length len ps :
  Forall (fun p => length p = len) ps -> length (msum len ps) = len.
Proof.
  induction 1; cbn. apply repeat_length. rewrite madd_length; auto. congruence.
Qed.

Definition path_ok (mids : list nat) (n : mi) (ks : list nat) (ps : list mi) : Prop :=
  Forall2 lt ks mids /\
  length ps = S (length mids) /\
  Forall (fun p => length p = length n) ps /\
  msum (length n) ps = n.

Lemma in_pathsR mids : forall n ks ps,
  In (ks, ps) (pathsR mids n) <-> path_ok mids n ks ps.
Proof.
  unfold path_ok. induction mids as [|m r IH]; intros n ks ps; cbn [pathsR].
  - split.
    + intros [E|[]]. inversion E; subst. split; [constructor|]. split; [reflexivity|].
      split; [repeat constructor|]. cbn. apply madd_zero_r.
    + intros (F2 & L & Fl & S). inversion F2; subst.
      destruct ps as [|p [|? ?]]; try discriminate. inversion Fl; subst.
      cbn in S. rewrite <- H1, madd_zero_r in S. subst. now left.
  - rewrite in_flat_map. split.
    + intros (k & Hk & H). apply in_seq in Hk. apply in_flat_map in H.
      destruct H as ([a b] & Hab & H). apply in_map_iff in H. destruct H as ([ks' ps'] & E & H).
      cbn [fst snd] in *. inversion E; subst. apply IH in H. destruct H as (F2 & L & Fl & S).
      apply in_splits2 in Hab. destruct Hab as [Lab Sab].
      assert (length n = length a) as Ln by (rewrite <- Sab; now apply madd_length).
      repeat split.
      * constructor; auto. lia.
      * cbn. now rewrite L.
      * constructor. congruence. rewrite Ln. exact Fl.
      * cbn. rewrite Ln, S. now rewrite madd_comm.
    + intros (F2 & L & Fl & S). inversion F2 as [|k ? ks' ? Hk F2']; subst.
      destruct ps as [|b ps']; try discriminate. inversion Fl as [|? ? Lb Fl']; subst.
      cbn in S, L. set (a := msum (length n) ps') in *.
      assert (length a = length n) as La by (apply msum_length; auto).
      exists k. split. apply in_seq. lia. apply in_flat_map. exists (a, b). split.
      * apply in_splits2. split. congruence. now rewrite madd_comm.
      * apply in_map_iff. exists (ks', ps'). split; auto. apply IH. cbn [fst].
        split; [exact F2'|]. split; [lia|]. split; rewrite La; auto.
Qed.

Lemma NoDup_pathsR mids : forall n, NoDup (pathsR mids n).
Proof.
  induction mids as [|m r IH]; intros n; cbn [pathsR].
  - constructor. intros []. constructor.
  - apply Series.MultiIndex.nodup_flat_map.
    + apply seq_NoDup.
    + intros k _. apply Series.MultiIndex.nodup_flat_map.
      * apply NoDup_splits2.
      * intros [a b] _. apply Series.MultiIndex.nodup_map_inj; auto.
        intros [? ?] [? ?] _ _ E. cbn in E. now inversion E.
      * intros [a b] [a' b'] x Hab Hab' Hx Hx'. cbn [fst snd] in *.
        apply in_map_iff in Hx, Hx'. destruct Hx as ([ks ps] & <- & Hx), Hx' as ([ks' ps'] & E & Hx').
        cbn [fst snd] in *. inversion E; subst.
        apply in_pathsR in Hx, Hx'. destruct Hx as (_ & _ & _ & S), Hx' as (_ & _ & _ & S').
        apply in_splits2 in Hab, Hab'. destruct Hab as [L _], Hab' as [L' _].
        f_equal. rewrite <- S, <- S'. now rewrite L, L'.
    + intros k k' x _ _ Hx Hx'. apply in_flat_map in Hx, Hx'.
      destruct Hx as (ab & _ & Hx), Hx' as (ab' & _ & Hx').
      apply in_map_iff in Hx, Hx'. destruct Hx as (p & <- & _), Hx' as (p' & E & _).
      now inversion E.
Qed.

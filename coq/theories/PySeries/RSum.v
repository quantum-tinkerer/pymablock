(* PySeries/RSum.v

   Finite sums over lists in a (non-commutative) ring with setoid equality
   (Coq.setoid_ring.Ncring), and an additive map `adj` given by section variables.
   Used by the proofs about product_by_order and cauchy_dot_product.  `bigsum` has
   the same body as Base/BigSum.bigsum, hence is convertible with it, and the facts
   are those of Base/BigSum.v.  Index arithmetic is kept out of this file (Ncring's
   notations capture + * 0 1); use Nat.add etc. if needed.
*)

Require Import Ncring List Permutation.
Import ListNotations.
Require PV.Base.BigSum.

Set Implicit Arguments.

Section BigSum.
  Context {T : Type} `{Rg : Ring T}.

  Fixpoint bigsum {A} (f : A -> T) (l : list A) : T :=
    match l with [] => 0 | a :: l' => f a + bigsum f l' end.

  Lemma bigsum_ext {A} (f g : A -> T) l :
    (forall a, In a l -> f a == g a) -> bigsum f l == bigsum g l.
  Proof. exact (BigSum.bigsum_ext f g l). Qed.

  Lemma bigsum_app {A} (f : A -> T) l1 l2 :
    bigsum f (l1 ++ l2) == bigsum f l1 + bigsum f l2.
  Proof. exact (BigSum.bigsum_app f l1 l2). Qed.

  Lemma bigsum_perm {A} (f : A -> T) l1 l2 :
    Permutation l1 l2 -> bigsum f l1 == bigsum f l2.
  Proof. exact (BigSum.bigsum_perm f (l1:=l1) (l2:=l2)). Qed.

  Lemma bigsum_mul_l {A} (f : A -> T) c l :
    c * bigsum f l == bigsum (fun a => c * f a) l.
  Proof. exact (BigSum.bigsum_mul_l f c l). Qed.

  Lemma bigsum_mul_r {A} (f : A -> T) c l :
    bigsum f l * c == bigsum (fun a => f a * c) l.
  Proof. exact (BigSum.bigsum_mul_r f c l). Qed.

  Lemma bigsum_add {A} (f g : A -> T) l :
    bigsum (fun a => f a + g a) l == bigsum f l + bigsum g l.
  Proof. exact (BigSum.bigsum_add f g l). Qed.

  Lemma bigsum_flat_map {A B} (f : B -> T) (g : A -> list B) l :
    bigsum f (flat_map g l) == bigsum (fun a => bigsum f (g a)) l.
  Proof. exact (BigSum.bigsum_flat_map f g l). Qed.

  Lemma bigsum_map {A B} (f : B -> T) (g : A -> B) l :
    bigsum f (map g l) == bigsum (fun a => f (g a)) l.
  Proof. exact (BigSum.bigsum_map f g l). Qed.

  Lemma bigsum_zero {A} (f : A -> T) l :
    (forall a, In a l -> f a == 0) -> bigsum f l == 0.
  Proof. exact (BigSum.bigsum_zero f l). Qed.

  (* "the sum over all x with property P": any two duplicate-free enumerations of
     the same set give the same sum *)
  Lemma bigsum_same_set {A} (f : A -> T) l1 l2 :
    NoDup l1 -> NoDup l2 -> (forall a, In a l1 <-> In a l2) ->
    bigsum f l1 == bigsum f l2.
  Proof. intros. apply bigsum_perm. now apply NoDup_Permutation. Qed.

  Lemma add_assoc' (x y z : T) : (x + y) + z == x + (y + z).
  Proof. symmetry. apply ring_add_assoc. Qed.

  (* the involution *)
  Section Star.
    Variable adj : T -> T.
    Hypothesis adj_proper : Proper (_==_ ==> _==_) adj.
    Hypothesis adj_add : forall x y, adj (x + y) == adj x + adj y.

    Lemma adj_zero : adj 0 == 0.
    Proof. now apply BigSum.additive_zero. Qed.

    Lemma adj_bigsum {A} (f : A -> T) l : adj (bigsum f l) == bigsum (fun a => adj (f a)) l.
    Proof. apply BigSum.bigsum_morph; auto using adj_zero. Qed.
  End Star.
End BigSum.

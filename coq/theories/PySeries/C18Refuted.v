(* PySeries/C18Refuted.v

   The Hermitian half-sum of product_by_order is NOT valid for every Hermitian
   product: A = 1 + 2 lambda, B = 1 + lambda (1x1 blocks, one perturbation, integer
   values, adjoint = identity).  A * B = 1 + 3 lambda + 2 lambda^2 is Hermitian, but
   with hermitian=True the element (0, 0, 1) evaluates to 2.  The same happens on the
   implementation (known finding C18-halfsum-nonadjoint).
   Plain Z arithmetic, no Ncring.
*)

Require Import List ZArith Bool Arith.
Import ListNotations.
Require Import PV.PySeries.Sentinel PV.PySeries.Cache PV.PySeries.ProductByOrder
        PV.PySeries.CauchyDot.

Local Open Scope Z_scope.

Definition zadj (x : Z) : Z := x.
Definition zden (x : sval Z) : Z := den 0 1 x.

Fixpoint ztable (l : list (index * sval Z)) (i : index) : sval Z :=
  match l with
  | [] => SZero
  | (k, v) :: r => if index_eqb k i then v else ztable r i
  end.

Definition refA : index -> sval Z := ztable [([0; 0; 0]%nat, SVal 1); ([0; 0; 1]%nat, SVal 2)].
Definition refB : index -> sval Z := ztable [([0; 0; 0]%nat, SVal 1); ([0; 0; 1]%nat, SVal 1)].

(* the exact element (0,0,[n]) of the product of two 1x1-block one-parameter series *)
Definition exact_prod (A B : index -> sval Z) (n : nat) : Z :=
  fold_right Z.add 0
    (map (fun a => zden (A (0 :: 0 :: a))%nat * zden (B (0 :: 0 :: msub [n] a))%nat) (splits [n])).

Definition ref_base (A B : index -> sval Z) : list (sdesc Z) :=
  [SBase (mkHead 1 1 1 [0%nat]) (fun i => Ok (A i)); SBase (mkHead 1 1 1 [0%nat]) (fun i => Ok (B i))].

(* cauchy_dot_product(A, B, hermitian=h)[0, 0, 1] on fresh series *)
Definition model_element (A B : index -> sval Z) (h : bool) (idx : index) : option (res pyerr (sval Z)) :=
  match cauchy_dot_product (ref_base A B) [0; 1]%nat h with
  | None => None
  | Some (descs, p) =>
      Some (fst (cdp_getitem Z.add Z.mul zadj descs 20 p idx (empty_world (sval Z))))
  end.

(* further sanity examples on the same model: order 2, and three factors *)
Example ref_order2 :
  model_element refA refB false [0; 0; 2]%nat = Some (Ok (SVal 2)).
Proof. vm_compute. reflexivity. Qed.

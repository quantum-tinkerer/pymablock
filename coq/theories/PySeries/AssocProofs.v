(* PySeries/AssocProofs.v

   The left-associated product of several factors, cdp(cdp(f0, f1), f2, ...), where
   each two-factor product is the Cauchy sum, equals the sum over ALL chains of
   intermediate block indices and ALL splittings of the multi-order into one part
   per factor, each taken exactly once.
*)

Require Import Ncring List Bool.
Import ListNotations.
Require Import PV.PySeries.Cache PV.PySeries.ProductByOrder PV.PySeries.MultiIndex
        PV.PySeries.RSum PV.PySeries.PBOProofs.

Set Implicit Arguments.

Section Assoc.
  Context {T : Type} `{Rg : Ring T}.

  Definition fac := nat -> nat -> mi -> T.       (* element (i, k, orders) of a factor *)

  (* the two-factor Cauchy product; mid = number of intermediate blocks *)
  Definition cprod (mid : nat) (f g : fac) : fac :=
    fun i j n =>
      bigsum (fun k => bigsum (fun ab => f i k (fst ab) * g k j (snd ab)) (splits2 n)) (seq 0 mid).

  (* same thing as the sum computed by product_by_order (PBOProofs.cauchy_sum) *)
  Lemma cprod_cauchy_sum mid (f g : fac) i j n :
    cprod mid f g i j n
    == cauchy_sum (fun idx => match idx with a :: b :: o => f a b o | _ => 0 end)
                  (fun idx => match idx with a :: b :: o => g a b o | _ => 0 end)
                  mid i j n.
  Proof.
    unfold cprod, cauchy_sum. apply bigsum_ext. intros k _. unfold splits2.
    rewrite bigsum_map. reflexivity.
  Qed.

  (* cdp(...cdp(cdp(f0, g1), g2)..., gm): `rest` lists (mid_l, g_l) in order *)
  Definition lprod (f0 : fac) (rest : list (nat * fac)) : fac :=
    fold_left (fun acc mg => cprod (fst mg) acc (snd mg)) rest f0.

  (* the same with the list of later factors reversed (last factor first) *)
  Fixpoint lprodR (f0 : fac) (rr : list (nat * fac)) : fac :=
    match rr with
    | [] => f0
    | mg :: r => cprod (fst mg) (lprodR f0 r) (snd mg)
    end.

  Lemma lprod_lprodR f0 rest : lprod f0 rest = lprodR f0 (rev rest).
  Proof.
    unfold lprod. revert f0. induction rest as [|mg rest IH]; intros f0; cbn; auto.
    rewrite IH. clear IH. generalize (rev rest). intros l. induction l as [|x l IHl]; cbn; auto.
    now rewrite IHl.
  Qed.

  (* one term: f0(i,k1,p0) * g1(k1,k2,p1) * ... * gm(km,j,pm); lists reversed *)
  Fixpoint termR (f0 : fac) (rr : list (nat * fac)) (i j : nat) (ks : list nat) (ps : list mi) : T :=
    match rr, ks, ps with
    | [], _, p :: _ => f0 i j p
    | mg :: r, k :: ks', b :: ps' => termR f0 r i k ks' ps' * snd mg k j b
    | _, _, _ => 0
    end.

  Lemma lprodR_paths f0 rr : forall i j n,
    lprodR f0 rr i j n
    == bigsum (fun kp => termR f0 rr i j (fst kp) (snd kp)) (pathsR (map fst rr) n).
  Proof.
    induction rr as [|[m g] r IH]; intros i j n; cbn [lprodR pathsR map fst snd].
    - cbn. symmetry. apply ring_add_0_r.
    - unfold cprod. rewrite bigsum_flat_map. apply bigsum_ext. intros k _.
      rewrite bigsum_flat_map. apply bigsum_ext. intros [a b] _. cbn [fst snd].
      rewrite bigsum_map. rewrite IH, bigsum_mul_r. apply bigsum_ext. intros [ks ps] _.
      cbn [fst snd termR]. reflexivity.
  Qed.

End Assoc.

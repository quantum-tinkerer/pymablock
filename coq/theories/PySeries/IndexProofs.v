(* PySeries/IndexProofs.v

   Facts about the NumPy indexing specification (Index.v) and the model of
   BlockSeries.__getitem__ (GetItem.v) on which the C19 theorems rest:

   np_index_extent       the NumPy result of an index expression whose order part passed
                         _check_finite does not depend on the extent of the order
                         dimensions, as long as it is at least the trial extent
   bs_getitem_full_pass  what __getitem__ does once the checks have passed
   getitem_all_ints      an all-integer request is exactly one element request
   sort_uniq_*           np.where order: sorted, duplicate-free, same elements
   bs_eval_respects      the evals of the model act on the caches only through element
                         requests; hence the counting invariant of Cache.v for scripts
*)

Require Import List ZArith Arith Bool Lia Sorted RelationClasses.
Import ListNotations.
Require Import PV.PySeries.Sentinel PV.PySeries.Cache PV.PySeries.Index PV.PySeries.GetItem.

Set Implicit Arguments.

Lemma np_index_full shape item :
  length item = length shape ->
  np_index shape item =
  match basic_error shape item with
  | Some e => IErr e
  | None => match norm_all (lenient_item item) shape item with
            | IErr e => IErr e
            | IOk items => np_index_n items
            end
  end.
Proof. intros L. unfold np_index. now rewrite L, Nat.ltb_irrefl, Nat.sub_diag, app_nil_r. Qed.

Lemma norm_all_app b fs : forall fitem ext orders,
  length fitem = length fs ->
  norm_all b (fs ++ ext) (fitem ++ orders) =
  match norm_all b fs fitem with
  | IOk A => match norm_all b ext orders with IOk B => IOk (A ++ B) | IErr e => IErr e end
  | IErr e => IErr e
  end.
Proof.
  induction fs as [|d fs IH]; intros [|i fitem] ext orders L; try discriminate; cbn.
  - now destruct (norm_all b ext orders).
  - destruct (norm_ix b d i); auto. rewrite IH by (cbn in L; lia).
    destruct (norm_all b fs fitem); auto. now destruct (norm_all b ext orders).
Qed.

Lemma basic_error_app fs : forall fitem ext orders,
  length fitem = length fs ->
  basic_error (fs ++ ext) (fitem ++ orders) =
  match basic_error fs fitem with Some e => Some e | None => basic_error ext orders end.
Proof.
  induction fs as [|d fs IH]; intros [|i fitem] ext orders L; try discriminate; cbn; auto.
  rewrite IH by (cbn in L; lia). destruct i; auto; now destruct (norm_ix false d _).
Qed.

Lemma skipn_exact {A} (a b : list A) n : length a = n -> skipn n (a ++ b) = b.
Proof. intros <-. now rewrite skipn_app, skipn_all, Nat.sub_diag. Qed.

Lemma norm_int_nonneg d z :
  (0 <= z)%Z -> (Z.to_nat z < d) -> norm_int d z = Some (Z.to_nat z).
Proof.
  intros H0 H1. unfold norm_int.
  assert ((0 <=? z)%Z = true) as -> by (apply Z.leb_le; lia).
  assert ((z <? Z.of_nat d)%Z = true) as -> by (apply Z.ltb_lt; lia).
  reflexivity.
Qed.

Lemma norm_list_nonneg d l :
  (forall z, In z l -> (0 <= z)%Z /\ Z.to_nat z < d) ->
  norm_list d l = Some (map Z.to_nat l).
Proof.
  induction l as [|z r IH]; cbn; intros H; auto.
  destruct (H z (or_introl eq_refl)) as [H0 H1].
  rewrite (norm_int_nonneg H0 H1). rewrite IH; [reflexivity|]. intros; apply H; now right.
Qed.

Lemma le_fold_max l z : In z l -> (z <= fold_right Z.max 0 l)%Z.
Proof.
  induction l as [|a r IH]; cbn; intros H; [tauto|]. destruct H as [->|H]. lia.
  specialize (IH H). lia.
Qed.

(* the order o passed _check_finite and its trial extent is at most d *)
Definition order_fits (o : ix) (d : nat) : Prop :=
  order_bad o = false /\ exists e, order_extent o = IOk e /\ e <= d.

(* a slice with a non-negative start and a stop of at most d selects the same
   positions on every extent from d on *)
Lemma slice_positions_extent d d' start sp step :
  match start with Some st => (st <? 0)%Z | None => false end = false ->
  (0 <= sp)%Z -> Z.to_nat sp <= d -> d <= d' ->
  slice_positions d' start (Some sp) step = slice_positions d start (Some sp) step.
Proof.
  intros Bs Bp Le Ldd. unfold slice_positions.
  assert (forall x, Z.to_nat sp <= x -> clip x (Some sp) (Z.of_nat x) = sp) as Hstop.
  { intros x Hx. unfold clip. assert ((sp <? 0)%Z = false) as -> by (apply Z.ltb_ge; lia). lia. }
  rewrite (Hstop d'), (Hstop d) by lia.
  destruct start as [st|]; cbn [clip]; [|reflexivity]. rewrite Bs. apply Z.ltb_ge in Bs.
  destruct (Z.le_gt_cases st sp) as [Hs|Hs].
  - now rewrite !Z.min_l by lia.
  - assert ((sp <=? Z.min st (Z.of_nat d'))%Z = true) as -> by (apply Z.leb_le; lia).
    assert ((sp <=? Z.min st (Z.of_nat d))%Z = true) as -> by (apply Z.leb_le; lia).
    reflexivity.
Qed.

Lemma norm_ix_extent b o d d' :
  order_fits o d -> d <= d' -> norm_ix b d' o = norm_ix b d o.
Proof.
  intros (B & e & E & Le) Ldd. destruct o as [z|l|start stop step]; cbn in *.
  - apply Z.ltb_ge in B. injection E as <-. now rewrite !norm_int_nonneg by lia.
  - destruct b; [reflexivity|]. destruct l as [|z0 l0]; [discriminate|]. injection E as <-.
    set (l := z0 :: l0) in *.
    assert (forall z, In z l -> (0 <= z)%Z /\ Z.to_nat z < d) as H.
    { intros z Hz. pose proof (le_fold_max l z Hz) as M. unfold l in M. cbn in M. split; [|lia].
      apply Z.ltb_ge. destruct (Z.ltb z 0) eqn:N; [|reflexivity].
      rewrite <- B. symmetry. apply existsb_exists. eauto. }
    rewrite !norm_list_nonneg; auto. intros z Hz. destruct (H z Hz). lia.
  - destruct stop as [sp|]; [|discriminate]. injection E as <-.
    apply orb_false_iff in B. destruct B as [Bs Bp]. apply Z.ltb_ge in Bp.
    now rewrite (@slice_positions_extent (Z.to_nat sp) d), (@slice_positions_extent (Z.to_nat sp) d') by (auto; lia).
Qed.

Lemma norm_all_extent b orders ext ext' :
  Forall2 order_fits orders ext -> Forall2 le ext ext' ->
  norm_all b ext' orders = norm_all b ext orders.
Proof.
  intros F. revert ext'.
  induction F as [|o e orders ext Ho F IH]; intros ext' Le; inversion Le; subst; cbn; auto.
  now rewrite (norm_ix_extent b Ho H1), IH.
Qed.

Lemma basic_error_extent orders ext ext' :
  Forall2 order_fits orders ext -> Forall2 le ext ext' ->
  basic_error ext' orders = basic_error ext orders.
Proof.
  intros F. revert ext'.
  induction F as [|o e orders ext Ho F IH]; intros ext' Le; inversion Le; subst; cbn; auto.
  now rewrite (norm_ix_extent false Ho H1), IH.
Qed.

Lemma extents_fits orders ext :
  existsb order_bad orders = false -> extents orders = IOk ext -> Forall2 order_fits orders ext.
Proof.
  revert ext. induction orders as [|o r IH]; cbn; intros ext B E.
  - inversion E. constructor.
  - apply orb_false_iff in B. destruct B as [Bo Br].
    destruct (order_extent o) as [e|] eqn:Eo; [|discriminate].
    destruct (extents r) as [es|] eqn:Er; [|discriminate]. inversion E; subst.
    constructor; auto. split; auto. exists e. auto.
Qed.

Lemma np_index_extent_app fs fitem orders ext ext' :
  length fitem = length fs -> Forall2 order_fits orders ext -> Forall2 le ext ext' ->
  np_index (fs ++ ext') (fitem ++ orders) = np_index (fs ++ ext) (fitem ++ orders).
Proof.
  intros L Fit Le. pose proof (Forall2_length Fit). pose proof (Forall2_length Le).
  rewrite !np_index_full, !norm_all_app, !basic_error_app by (rewrite ?app_length; lia).
  now rewrite (norm_all_extent _ Fit Le), (basic_error_extent Fit Le).
Qed.

Theorem np_index_extent fs item ext ext' :
  length fs <= length item ->
  existsb order_bad (skipn (length fs) item) = false ->
  extents (skipn (length fs) item) = IOk ext ->
  Forall2 le ext ext' ->
  np_index (fs ++ ext') item = np_index (fs ++ ext) item /\
  np_scalar (fs ++ ext') item = np_scalar (fs ++ ext) item.
Proof.
  intros L B E Le. split.
  - rewrite <- (firstn_skipn (length fs) item).
    apply np_index_extent_app; [rewrite firstn_length; lia | now apply extents_fits | exact Le].
  - unfold np_scalar. now rewrite !app_length, (Forall2_length Le).
Qed.

Lemma pos_eqb_eq a b : pos_eqb a b = true <-> a = b.
Proof.
  revert b. induction a as [|x a IH]; intros [|y b]; cbn; split; try discriminate; auto.
  - intros H. apply andb_true_iff in H. destruct H as [H1 H2]. apply Nat.eqb_eq in H1.
    apply IH in H2. congruence.
  - intros H. inversion H; subst. rewrite Nat.eqb_refl. cbn. now apply IH.
Qed.

Lemma in_insert_pos p q l : In q (insert_pos p l) <-> q = p \/ In q l.
Proof.
  induction l as [|r l IH]; cbn.
  - intuition.
  - destruct (pos_eqb p r) eqn:E.
    + apply pos_eqb_eq in E. subst. cbn. intuition.
    + destruct (pos_ltb p r); cbn; [intuition|]. rewrite IH. intuition.
Qed.

Lemma in_sort_uniq q l : In q (sort_uniq l) <-> In q l.
Proof.
  unfold sort_uniq. induction l as [|p l IH]; cbn; [tauto|].
  rewrite in_insert_pos, IH. intuition.
Qed.

Lemma pos_ltb_irrefl a : pos_ltb a a = false.
Proof. induction a; cbn; auto. now rewrite Nat.eqb_refl. Qed.

Lemma pos_ltb_trans a : forall b c, pos_ltb a b = true -> pos_ltb b c = true -> pos_ltb a c = true.
Proof.
  induction a as [|x a IH]; intros [|y b] [|z c]; cbn; auto; try discriminate.
  destruct (Nat.eqb x y) eqn:E1; destruct (Nat.eqb y z) eqn:E2.
  - apply Nat.eqb_eq in E1, E2. subst. rewrite Nat.eqb_refl. apply IH.
  - apply Nat.eqb_eq in E1. subst. rewrite E2. auto.
  - apply Nat.eqb_eq in E2. subst. rewrite E1. auto.
  - intros H1 H2. apply Nat.ltb_lt in H1, H2.
    assert (Nat.eqb x z = false) as -> by (apply Nat.eqb_neq; lia). apply Nat.ltb_lt. lia.
Qed.

Lemma pos_total a : forall b, pos_eqb a b = false -> pos_ltb a b = false -> pos_ltb b a = true.
Proof.
  induction a as [|x a IH]; intros [|y b]; cbn; auto; try discriminate.
  destruct (Nat.eqb x y) eqn:E.
  - apply Nat.eqb_eq in E. subst. rewrite Nat.eqb_refl. cbn. apply IH.
  - rewrite Nat.eqb_sym, E. cbn. intros _ H. apply Nat.ltb_ge in H. apply Nat.eqb_neq in E.
    apply Nat.ltb_lt. lia.
Qed.

Definition pos_lt (a b : list nat) : Prop := pos_ltb a b = true.

Lemma insert_pos_sorted p l :
  Sorted.StronglySorted pos_lt l -> Sorted.StronglySorted pos_lt (insert_pos p l).
Proof.
  induction 1 as [|q r Hr IH Hq]; cbn.
  - constructor. constructor. constructor.
  - destruct (pos_eqb p q) eqn:E; [now constructor|].
    destruct (pos_ltb p q) eqn:L.
    + constructor. now constructor. constructor; auto.
      eapply Forall_impl; [|exact Hq]. intros c Hc. eapply pos_ltb_trans; eauto.
    + constructor; auto. apply Forall_forall. intros c Hc. apply in_insert_pos in Hc.
      destruct Hc as [->|Hc].
      * apply pos_total; auto.
      * rewrite Forall_forall in Hq. now apply Hq.
Qed.

Lemma sort_uniq_sorted l : Sorted.StronglySorted pos_lt (sort_uniq l).
Proof.
  unfold sort_uniq. induction l; cbn. constructor. now apply insert_pos_sorted.
Qed.

Lemma sort_uniq_NoDup l : NoDup (sort_uniq l).
Proof.
  pose proof (sort_uniq_sorted l) as S. induction S as [|q r Hr IH Hq]; constructor; auto.
  intros H. rewrite Forall_forall in Hq. specialize (Hq q H). unfold pos_lt in Hq.
  now rewrite pos_ltb_irrefl in Hq.
Qed.

(* Orders given one by one.  An encoding f of single orders as indices (integers,
   or the length-one slices of the packed view): f n passes _check_finite, has
   trial extent n + 1 and selects exactly the order n (normal form h n). *)

Definition order_code (f : nat -> ix) (h : nat -> nix) : Prop :=
  forall n, order_bad (f n) = false /\ order_extent (f n) = IOk (n + 1) /\
            forall b, norm_ix b (n + 1) (f n) = IOk (h n).

Lemma int_code : order_code (fun n => IInt (Z.of_nat n)) NInt.
Proof.
  intros n. cbn. rewrite Nat2Z.id. split; [apply Z.ltb_ge; lia|]. split; [reflexivity|].
  intros _. rewrite norm_int_nonneg by lia. now rewrite Nat2Z.id.
Qed.

Section Orders.
  Variables (f : nat -> ix) (h : nat -> nix).
  Hypothesis code : order_code f h.

  Lemma extents_orders idx :
    existsb order_bad (map f idx) = false /\ extents (map f idx) = IOk (map (fun n => n + 1) idx).
  Proof.
    induction idx as [|n r [IH1 IH2]]; cbn; auto. destruct (code n) as (-> & -> & _).
    now rewrite IH1, IH2.
  Qed.

  Lemma norm_all_orders b idx :
    norm_all b (map (fun n => n + 1) idx) (map f idx) = IOk (map h idx).
  Proof.
    induction idx as [|n r IH]; cbn; auto. destruct (code n) as (_ & _ & ->). now rewrite IH.
  Qed.

  Lemma basic_error_orders idx : basic_error (map (fun n => n + 1) idx) (map f idx) = None.
  Proof.
    induction idx as [|n r IH]; cbn; auto. destruct (code n) as (_ & _ & N).
    specialize (N false). destruct (f n); auto; now rewrite N.
  Qed.

  Lemma np_index_orders fs fitem idx :
    length fitem = length fs ->
    np_index (fs ++ map (fun n => n + 1) idx) (fitem ++ map f idx) =
    match basic_error fs fitem with
    | Some e => IErr e
    | None => match norm_all (lenient_item (fitem ++ map f idx)) fs fitem with
              | IErr e => IErr e
              | IOk A => np_index_n (A ++ map h idx)
              end
    end.
  Proof.
    intros L. rewrite np_index_full by (rewrite !app_length, !map_length; lia).
    rewrite basic_error_app, norm_all_app, basic_error_orders, norm_all_orders by auto.
    destruct (basic_error fs fitem); [reflexivity|]. now destruct (norm_all _ fs fitem).
  Qed.
End Orders.

Section Algo.
  Variable X : Type.
  Variable xdefault : X.

  Notation bval := (bval X).
  Notation bcallback := (bcallback X).

  Lemma eval_positions_keys (g : bcallback) s ps : forall w l w',
    eval_positions g s ps w = (Ok l, w') -> map fst l = ps.
  Proof.
    induction ps as [|p r IH]; cbn; intros w l w' E.
    - inversion E. reflexivity.
    - destruct (g s p w) as [[v|x|] w1]; try discriminate.
      destruct (eval_positions g s r w1) as [[l'|x|] w2] eqn:E'; try discriminate.
      inversion E; subst. cbn. f_equal. eapply IH; eauto.
  Qed.

  Lemma lookup_eval_in (l : list (index * bval)) p :
    In p (map fst l) -> exists v, lookup_eval l p = Some v.
  Proof.
    induction l as [|[q v] r IH]; cbn; [tauto|].
    destruct (index_eqb q p) eqn:E; eauto.
    intros [H|H]; auto. subst. now rewrite index_eqb_refl in E.
  Qed.

  (* __getitem__ after the view branch, once the checks have passed *)
  Lemma bs_getitem_full_pass (g : bcallback) hd s item w ext :
    existsb order_bad (skipn (length (fshape hd)) item) = false ->
    length item = length (fshape hd) + bninf hd ->
    extents (skipn (length (fshape hd)) item) = IOk ext ->
    bs_getitem_full xdefault g hd s item w =
    match np_index (fshape hd ++ ext) item with
    | IErr e => (Raise (exn_of_ixerr e), w)
    | IOk (shp, poss) =>
        match eval_positions g s (sort_uniq poss) w with
        | (Ok evald, w') =>
            (Ok (if np_scalar (fshape hd ++ ext) item
                 then RScalar (hd_default xdefault (map (value_at xdefault evald) poss))
                 else RArray shp (map (value_at xdefault evald) poss)), w')
        | (Raise x, w') => (Raise x, w')
        | (OutOfFuel, w') => (OutOfFuel, w')
        end
    end.
  Proof. intros B A E. unfold bs_getitem_full. now rewrite B, A, Nat.eqb_refl, E. Qed.

  (* a successful request has passed the checks *)
  Lemma bs_getitem_full_ok (g : bcallback) hd s item w r w' :
    bs_getitem_full xdefault g hd s item w = (Ok r, w') ->
    existsb order_bad (skipn (length (fshape hd)) item) = false /\
    length item = length (fshape hd) + bninf hd /\
    exists ext, extents (skipn (length (fshape hd)) item) = IOk ext.
  Proof.
    unfold bs_getitem_full.
    destruct (existsb order_bad _); [discriminate|].
    destruct (Nat.eqb_spec (length item) (length (fshape hd) + bninf hd)); [|discriminate].
    destruct (extents _) as [ext|]; [eauto|discriminate].
  Qed.

  Lemma bs_getitem_full_orders (g : bcallback) hd s fitem f h idx w :
    order_code f h -> length fitem = length (fshape hd) -> length idx = bninf hd ->
    bs_getitem_full xdefault g hd s (fitem ++ map f idx) w =
    match np_index (fshape hd ++ map (fun n => n + 1) idx) (fitem ++ map f idx) with
    | IErr e => (Raise (exn_of_ixerr e), w)
    | IOk (shp, poss) =>
        match eval_positions g s (sort_uniq poss) w with
        | (Ok evald, w') =>
            (Ok (if np_scalar (fshape hd ++ map (fun n => n + 1) idx) (fitem ++ map f idx)
                 then RScalar (hd_default xdefault (map (value_at xdefault evald) poss))
                 else RArray shp (map (value_at xdefault evald) poss)), w')
        | (Raise x, w') => (Raise x, w')
        | (OutOfFuel, w') => (OutOfFuel, w')
        end
    end.
  Proof.
    intros C Lf Li. destruct (extents_orders C idx) as [B E].
    apply bs_getitem_full_pass.
    - now rewrite skipn_exact.
    - rewrite app_length, map_length. lia.
    - now rewrite skipn_exact.
  Qed.

  (* all-integer requests *)

  Lemma norm_all_ints b shape (zs : list Z) ns :
    Forall2 (fun dz n => norm_int (fst dz) (snd dz) = Some n) (combine shape zs) ns ->
    length shape = length zs ->
    norm_all b shape (map IInt zs) = IOk (map NInt ns).
  Proof.
    revert zs ns. induction shape as [|d sh IH]; intros [|z zs] ns F L; try discriminate.
    - inversion F. reflexivity.
    - cbn in F. inversion F as [|? n ? ns' Hn F']; subst. cbn. cbn in Hn. rewrite Hn.
      rewrite (IH zs ns'); auto.
  Qed.

  Lemma basic_error_ints shape : forall zs : list Z,
    length zs = length shape ->
    basic_error shape (map IInt zs) =
    match norm_all false shape (map IInt zs) with IErr e => Some e | IOk _ => None end.
  Proof.
    induction shape as [|d sh IH]; intros [|z zs] L; try discriminate; cbn; auto.
    destruct (norm_int d z); auto. rewrite IH by (cbn in L; lia).
    now destruct (norm_all false sh (map IInt zs)).
  Qed.

  Lemma np_index_n_ints ns :
    np_index_n (map NInt ns) = IOk ([], [ns]).
  Proof.
    unfold np_index_n.
    assert (forall acc, bcast_len (map NInt ns) acc = Some acc) as ->.
    { induction ns; cbn; auto. }
    assert (slices_of (map NInt ns) = []) as -> by (induction ns; cbn; auto).
    cbn. repeat f_equal. induction ns; cbn; auto. f_equal. auto.
  Qed.

  (* series[z1, ..., zk] with all integers: normalised position `pos`
     (negative finite integers counted from the end, orders non-negative) *)
  Theorem getitem_all_ints (g : bcallback) hd s (fz : list Z) (orders : list nat) fpos w :
    length fz = length (fshape hd) -> length orders = bninf hd ->
    Forall2 (fun dz n => norm_int (fst dz) (snd dz) = Some n) (combine (fshape hd) fz) fpos ->
    bs_getitem_full xdefault g hd s (map IInt fz ++ map (fun n => IInt (Z.of_nat n)) orders) w =
    match g s (fpos ++ orders) w with
    | (Ok v, w') => (Ok (RScalar v), w')
    | (Raise x, w') => (Raise x, w')
    | (OutOfFuel, w') => (OutOfFuel, w')
    end.
  Proof.
    intros Lf Lo F.
    rewrite (bs_getitem_full_orders g hd s _ _ w int_code) by (now rewrite ?map_length).
    rewrite (np_index_orders int_code) by (now rewrite map_length).
    rewrite basic_error_ints, !(norm_all_ints _ _ _ F), <- map_app, np_index_n_ints by auto.
    cbn [sort_uniq fold_right insert_pos eval_positions].
    destruct (g s (fpos ++ orders) w) as [[v|x|] w1]; auto.
    assert (np_scalar (fshape hd ++ map (fun n => n + 1) orders)
                      (map IInt fz ++ map (fun n => IInt (Z.of_nat n)) orders) = true) as ->.
    { unfold np_scalar. rewrite !app_length, !map_length, Lf, Nat.eqb_refl, forallb_app.
      cbn [andb]. apply andb_true_iff. split; [clear; induction fz|clear; induction orders]; cbn; auto. }
    cbn. unfold value_at. cbn. now rewrite index_eqb_refl.
  Qed.

End Algo.

Section Evaluated.
  Variable X : Type.
  Variable xdefault : X.

  (* the callback is applied by eval_positions to a prefix of the list, in order; to all of it
     iff no exception occurs *)
  Fixpoint requested (g : bcallback X) (s : sid) (ps : list index) (w : bworld X) : list index :=
    match ps with
    | [] => []
    | p :: r =>
        match g s p w with
        | (Ok _, w1) => p :: requested g s r w1
        | _ => [p]
        end
    end.

  Lemma requested_prefix g s ps : forall w, exists rest, ps = requested g s ps w ++ rest.
  Proof.
    induction ps as [|p r IH]; intros w; cbn. exists []. reflexivity.
    destruct (g s p w) as [[v|x|] w1].
    - destruct (IH w1) as (rest & E). exists rest. cbn. now f_equal.
    - exists r. reflexivity.
    - exists r. reflexivity.
  Qed.

  Lemma requested_all g s ps : forall w l w',
    eval_positions g s ps w = (Ok l, w') -> requested g s ps w = ps.
  Proof.
    induction ps as [|p r IH]; cbn; intros w l w' E; auto.
    destruct (g s p w) as [[v|x|] w1]; try discriminate.
    destruct (eval_positions g s r w1) as [[l'|x|] w2] eqn:E'; try discriminate.
    f_equal. eapply IH; eauto.
  Qed.
End Evaluated.

(* _check_finite: the classes of rejected orders *)
Lemma order_bad_spec o :
  order_bad o = true <->
  (exists start step, o = ISlice start None step) \/                       (* infinite *)
  (exists st stop step, o = ISlice (Some st) stop step /\ (st < 0)%Z) \/   (* negative start *)
  (exists start sp step, o = ISlice start (Some sp) step /\ (sp < 0)%Z) \/ (* negative stop *)
  (exists z, o = IInt z /\ (z < 0)%Z) \/                                   (* negative integer *)
  (exists l z, o = IList l /\ In z l /\ (z < 0)%Z).                        (* negative list entry *)
Proof.
  split.
  - destruct o as [z|l|start stop step]; cbn; intros H.
    + right; right; right; left. exists z. split; auto. now apply Z.ltb_lt.
    + right; right; right; right. apply existsb_exists in H. destruct H as (z & Hz & N).
      exists l, z. repeat split; auto. now apply Z.ltb_lt.
    + destruct stop as [sp|]; [|left; eauto].
      apply orb_true_iff in H. destruct H as [H|H].
      * destruct start as [st|]; [|discriminate]. right; left. exists st, (Some sp), step.
        split; auto. now apply Z.ltb_lt.
      * right; right; left. exists start, sp, step. split; auto. now apply Z.ltb_lt.
  - intros [(a & b & ->)|[(st & stop & step & -> & H)|[(start & sp & step & -> & H)|[(z & -> & H)|(l & z & -> & Hz & H)]]]];
      cbn; auto.
    + destruct stop; auto. apply orb_true_iff. left. now apply Z.ltb_lt.
    + apply orb_true_iff. right. now apply Z.ltb_lt.
    + now apply Z.ltb_lt.
    + apply existsb_exists. exists z. split; auto. now apply Z.ltb_lt.
Qed.

(* The cache theorems of Cache.v for the BlockSeries model: the evals of all series
   (tables with call-backs, integer views, packed arrays, array views) act on the caches
   only through element requests, hence any script of user requests keeps the counting
   invariant "evaluations <= removals + 1". *)

Section Respects.
  Variable X : Type.
  Variable xzero : X -> bool.
  Variable xdefault : X.

  Variable R : bworld X -> bworld X -> Prop.
  Hypothesis Rrefl : Reflexive R.
  Hypothesis Rtrans : Transitive R.

  Lemma eval_positions_respects (g : bcallback X) s ps :
    respects R g -> forall w, R w (snd (eval_positions g s ps w)).
  Proof.
    intros Hg. induction ps as [|p r IH]; intros w; cbn. reflexivity.
    pose proof (Hg s p w) as H1. destruct (g s p w) as [[v|x|] w1]; cbn in *; auto.
    pose proof (IH w1) as H2. destruct (eval_positions g s r w1) as [[l|x|] w2]; cbn in *;
      etransitivity; eauto.
  Qed.

  Lemma getitem_full_respects (g : bcallback X) hd s item :
    respects R g -> forall w, R w (snd (bs_getitem_full xdefault g hd s item w)).
  Proof.
    intros Hg w. unfold bs_getitem_full.
    destruct (existsb order_bad _); [reflexivity|].
    destruct (negb _); [reflexivity|].
    destruct (extents _); [|reflexivity].
    destruct (np_index _ _) as [[shp poss]|]; [|reflexivity].
    pose proof (eval_positions_respects s (sort_uniq poss) Hg w) as H.
    destruct (eval_positions g s (sort_uniq poss) w) as [[l|x|] w2]; cbn in *; auto.
  Qed.

  Lemma bs_eval_step (descs : list (bdesc X)) (g : bcallback X) :
    respects R g -> forall s i w, R w (snd (bs_eval xdefault descs s g i w)).
  Proof.
    intros Hg s i w. unfold bs_eval.
    destruct (nth_error descs s) as [[h tbl|h p item|h p item|h q]|]; [| | | |reflexivity].
    - destruct (tbl i); cbn; try reflexivity. apply Hg.
    - pose proof (getitem_full_respects (bhead_at descs p) p
                    (map IInt item ++ map (fun n => IInt (Z.of_nat n)) i) Hg w) as H.
      destruct (bs_getitem_full _ _ _ _ _ _) as [[[v|shp vals]|x|] w2]; cbn in *; auto.
    - pose proof (getitem_full_respects (bhead_at descs p) p (item ++ map order_slice i) Hg w) as H.
      destruct (bs_getitem_full _ _ _ _ _ _) as [[[v|shp vals]|x|] w2]; cbn in *; auto.
      destruct (elems_of vals); cbn; auto.
    - pose proof (Hg q (skipn (length i - bninf h) i) w) as H.
      destruct (g q _ w) as [[[x|shp xs]|x|] w2]; cbn in *; auto.
  Qed.
End Respects.

Section Inst.
  Variable X : Type.
  Variable xzero : X -> bool.
  Variable xdefault : X.

  Theorem bs_eval_respects (descs : list (bdesc X)) pops :
    eval_respects pops (bs_eval xdefault descs).
  Proof. intros R Rr Rt _ g Hg s i w. now apply bs_eval_step. Qed.

  Definition good (w : bworld X) : Prop := wf_world w /\ once_inv w.

  Lemma good_getitem descs fuel : respects (keeps good) (getitem (bs_eval xdefault descs) fuel).
  Proof. intros s i w [W I]. exact (getitem_once (@bs_eval_respects descs true) fuel s i W I). Qed.

  (* any user request keeps the invariant *)
  Theorem bs_request_once fuel descs q w :
    good w ->
    let '(_, _, w') := bs_request xzero xdefault fuel descs q w in good w'.
  Proof.
    intros G. destruct q as [s item|s i|s i]; cbn [bs_request].
    - destruct (Nat.eqb _ _ && Nat.ltb _ _).
      + destruct (forallb is_int item); auto. destruct (np_index _ _) as [[vs ps]|]; auto.
      + pose proof (@getitem_full_respects X xdefault (keeps good) (@keeps_refl _ good) (@keeps_trans _ good)
                      (getitem (bs_eval xdefault descs) fuel) (bhead_at descs s) s item
                      (good_getitem descs fuel) w) as H.
        destruct (bs_getitem_full _ _ _ _ _ _) as [[[v|shp vals]|x|] w2]; cbn in *; auto.
    - exact G.
    - destruct G as [W I]. split; [now apply wf_drop | now apply once_inv_drop].
  Qed.

  Theorem bs_script_once fuel : forall qs descs w,
    good w ->
    let '(_, _, w') := bs_script xzero xdefault fuel descs qs w in
    good w' /\ forall s i, n_evals s i w' <= n_removals s i w' + 1.
  Proof.
    induction qs as [|q rest IH]; intros descs w G; cbn [bs_script].
    - split; auto. intros. apply once_bound. apply G.
    - pose proof (bs_request_once fuel descs q G) as H.
      destruct (bs_request xzero xdefault fuel descs q w) as [[o d1] w1].
      specialize (IH d1 w1 H). destruct (bs_script xzero xdefault fuel d1 rest w1) as [[os d2] w2].
      exact IH.
  Qed.
End Inst.

(** * C08 - NumberOrderedForm arithmetic faithfully represents the operator algebra

  Property text (properties.jsonl, id C08): "For all expressions built from boson,
  fermion, spin-1/2 and ladder operators, number operators, scalars and functions of
  number operators, conversion to number-ordered form and its sum, difference,
  product, integer power, adjoint and conversion back denote the same operator as the
  original expression under the canonical (anti)commutation relations. In particular
  multiplication is associative and distributive and the adjoint reverses products."

  Model: PV.NOF.Model (executable transcription of number_ordered_form.py, tied to the
  code by tools/harness/k_nof.py).  Semantics: PV.NOF.Fock ([den ks x n] = x e_n as a
  formal linear combination of Fock basis states; [opact ks i q] = the elementary
  operator power; [lc_bind l F] = apply F to every state of l; [lc_eq] = equality of
  normalised linear combinations).

  Preconditions that appear below:
   - [sig_ok ks]   : operators ordered bosons, ladders, spins, fermions (what
                     [_validate_operators] / [find_operators] enforce);
   - [wf_nof ks x] : the term keys are distinct (Python dict), aligned with the operator
                     list, and spin/fermion powers lie in {-1,0,1}; every operation is
                     proved to preserve it, [from_expr] establishes it;
   - [bok ks n]    : spin/fermion occupations of the basis state are 0 or 1 (boson and
                     ladder occupations are arbitrary integers: all statements hold for
                     every occupation number and every power, no bound). *)
Require Import List ZArith QArith Bool Lia.
Require Import PV.NOF.Gauss PV.NOF.Coeff PV.NOF.Fock PV.NOF.FockLemmas PV.NOF.LinComb PV.NOF.Model
  PV.NOF.NofProof PV.NOF.NofProof2 PV.NOF.C08Lemmas PV.NOF.SolveScalar PV.NOF.FromExpr
  PV.NOF.FromExprProof PV.NOF.C08Lemmas2.
Import ListNotations.
Local Open Scope Z_scope.

(** the action of a stored term, closed form: weight * coefficient(N at the middle) and
    target state n - p (used by all proofs; shows what a term means) *)
Theorem C08_term_closed_form : forall ks t n,
  length (fst t) = length ks -> length n = length ks ->
  peq (den_term ks t n)
      (gmul (ws ks (fst t) n) (cval (snd t) (omid n (fst t))), osub n (fst t)).
Proof. exact den_term_cf_eq. Qed.
Print Assumptions C08_term_closed_form.

(** _multiply_op : [[x._multiply_op(i,q)]] = [[x]] o [[op_i^q]], all four branches *)
Theorem C08_mulop : forall ks x i q n x',
  sig_ok ks = true -> wf_nof ks x -> bok ks n ->
  multiply_op ks x i q = Ok x' ->
  lc_eq (den ks x' n) (lc_bind [opact ks i q n] (den ks x)) /\ wf_nof ks x'.
Proof.
  intros ks x i q n x' Hs Hw Hb H. unfold multiply_op in H.
  destruct (Nat.ltb_spec i (length ks)); cbn [andb] in H; [|discriminate].
  destruct (Z.eqb_spec q 0); cbn [negb] in H; [discriminate|].
  injection H as H. subst x'.
  split; [|apply mulop_raw_wf; auto]. rewrite lc_bind_single. apply mulop_raw_den; auto.
Qed.
Print Assumptions C08_mulop.

Example C08_mulop_nonvacuous :
  exists x', multiply_op ex_ks ex_x 0 1 = Ok x' /\ ~ lc_eq (den ex_ks x' [3; -2; 1; 1; 1]) [].
Proof.
  eexists. split; [reflexivity|]. intros H. specialize (H [3; -2; 1; 0; 1]).
  vm_compute in H. destruct H as [H _]. discriminate H.
Qed.

(** _multiply_expr : multiplication by a function of the number operators *)
Theorem C08_mulexpr : forall ks x e n,
  sig_ok ks = true -> wf_nof ks x -> length n = length ks ->
  lc_eq (den ks (mulexpr ks x e) n) (lc_bind [fact e n] (den ks x)) /\ wf_nof ks (mulexpr ks x e).
Proof.
  intros. split; [|apply mulexpr_wf; auto]. rewrite lc_bind_single. apply mulexpr_den; auto.
Qed.
Print Assumptions C08_mulexpr.

(** __mul__ : [[x*y]] = [[x]] o [[y]] *)
Theorem C08_mul : forall ks x y n,
  sig_ok ks = true -> wf_nof ks x -> wf_nof ks y -> bok ks n ->
  lc_eq (den ks (mul ks x y) n) (lc_bind (den ks y n) (den ks x)) /\ wf_nof ks (mul ks x y).
Proof. intros. split; [apply mul_den|apply mul_wf]; auto. Qed.
Print Assumptions C08_mul.

Example C08_mul_nonvacuous :
  sig_ok ex_ks = true /\ wf_nof ex_ks ex_x /\ wf_nof ex_ks ex_y /\ bok ex_ks ex_n /\
  ~ lc_eq (den ex_ks (mul ex_ks ex_x ex_y) ex_n) [].
Proof.
  split; [exact ex_sig|]. split; [exact ex_wf_x|]. split; [exact ex_wf_y|]. split; [exact ex_bok|].
  intros H. specialize (H [4; -2; 1; 0; 0]). vm_compute in H. destruct H as [_ H]. discriminate H.
Qed.

(** __add__, __neg__ (hence __sub__) *)
Theorem C08_add : forall ks x y n,
  lc_eq (den ks (add x y) n) (den ks x n ++ den ks y n)
  /\ (wf_nof ks x -> wf_nof ks y -> wf_nof ks (add x y)).
Proof. intros. split; [apply add_correct|apply add_wf]. Qed.
Print Assumptions C08_add.

Theorem C08_neg : forall ks x n,
  lc_eq (den ks (neg x) n) (lc_scale (gopp g1) (den ks x n)) /\ (wf_nof ks x -> wf_nof ks (neg x)).
Proof. intros. split; [apply neg_correct|apply neg_wf]. Qed.
Print Assumptions C08_neg.

Theorem C08_sub : forall ks x y n,
  lc_eq (den ks (sub x y) n) (den ks x n ++ lc_scale (gopp g1) (den ks y n)).
Proof. intros. unfold sub. rewrite add_correct, neg_correct. reflexivity. Qed.
Print Assumptions C08_sub.

(** _eval_adjoint : <x e_n, e_m> = <e_n, x† e_m> for the inner product <e_n,e_n> = prod n_boson!
    on physical states (boson occupations >= 0, spin/fermion occupations in {0,1}) *)
Theorem C08_adjoint : forall ks x n m,
  wf_nof ks x -> phys ks n -> phys ks m ->
  geq (gmul (gconj (melt ks x n m)) (mu ks m)) (gmul (melt ks (adj x) m n) (mu ks n))
  /\ wf_nof ks (adj x).
Proof. intros. split; [apply adj_correct; auto|apply adj_wf; auto]. Qed.
Print Assumptions C08_adjoint.

Example C08_adjoint_nonvacuous :
  phys ex_ks [4; -2; 1; 1; 1] /\ phys ex_ks [5; -2; 1; 0; 1] /\
  ~ geq (melt ex_ks ex_x [4; -2; 1; 1; 1] [5; -2; 1; 0; 1]) g0 .
Proof.
  split; [cbn; repeat split; intros; auto; try discriminate; lia|].
  split; [cbn; repeat split; intros; auto; try discriminate; lia|].
  intros H. vm_compute in H. destruct H as [H _]. discriminate H.
Qed.

(** __pow__ with a non-negative integer exponent: x**0 = 1 and x**(e+1) = x**e * x *)
Theorem C08_pow : forall ks x e n,
  sig_ok ks = true -> wf_nof ks x -> bok ks n -> 0 <= e ->
  (exists y0, pow ks x 0 = Ok y0 /\ lc_eq (den ks y0 n) [(g1, n)]) /\
  exists y y', pow ks x e = Ok y /\ pow ks x (e + 1) = Ok y' /\ wf_nof ks y /\ wf_nof ks y' /\
               lc_eq (den ks y' n) (lc_bind (den ks x n) (den ks y)).
Proof.
  intros. split; [|apply pow_correct; auto].
  exists (one_nof ks). split; [reflexivity|apply den_one].
Qed.
Print Assumptions C08_pow.

(** corollaries: associativity and distributivity of the product as operator identities *)
Theorem C08_assoc : forall ks x y z,
  sig_ok ks = true -> wf_nof ks x -> wf_nof ks y -> wf_nof ks z ->
  forall n, bok ks n -> lc_eq (den ks (mul ks (mul ks x y) z) n) (den ks (mul ks x (mul ks y z)) n).
Proof. exact mul_assoc_den. Qed.
Print Assumptions C08_assoc.

Theorem C08_distr_l : forall ks x y z,
  sig_ok ks = true -> wf_nof ks x -> wf_nof ks y -> wf_nof ks z ->
  forall n, bok ks n -> lc_eq (den ks (mul ks x (add y z)) n) (den ks (add (mul ks x y) (mul ks x z)) n).
Proof. exact mul_add_distr_l_den. Qed.
Print Assumptions C08_distr_l.

Theorem C08_distr_r : forall ks x y z,
  sig_ok ks = true -> wf_nof ks x -> wf_nof ks y -> wf_nof ks z ->
  forall n, bok ks n -> lc_eq (den ks (mul ks (add x y) z) n) (den ks (add (mul ks x z) (mul ks y z)) n).
Proof. exact mul_add_distr_r_den. Qed.
Print Assumptions C08_distr_r.


(** the adjoint reverses products: (x*y)† and y† * x† have the same matrix elements between all
    physical Fock states (boson occupations >= 0, spin/fermion occupations in {0,1}) *)
Theorem C08_dagger_mul : forall ks x y n m,
  sig_ok ks = true -> wf_nof ks x -> wf_nof ks y -> phys ks n -> phys ks m ->
  geq (melt ks (adj (mul ks x y)) n m) (melt ks (mul ks (adj y) (adj x)) n m).
Proof. exact dagger_mul_correct. Qed.
Print Assumptions C08_dagger_mul.
Example C08_dagger_mul_nonvacuous :
  phys ex_ks [4; -2; 1; 0; 0] /\ phys ex_ks ex_n /\
  ~ geq (melt ex_ks (adj (mul ex_ks ex_x ex_y)) [4; -2; 1; 0; 0] ex_n) g0.
Proof.
  split; [cbn; repeat split; intros; auto; try discriminate; lia|]. split; [exact ex_phys|].
  intros H. vm_compute in H. destruct H as [_ H]. discriminate H.
Qed.

(** conversion to number-ordered form: from_expr (model PV.NOF.FromExpr, sums, products, non-negative
    integer powers, Dagger, scalars, number operators, generators of the four kinds) denotes the same
    operator as the expression itself; [eden ks e] is the direct meaning of e built from the
    elementary Fock-space actions (PV.NOF.FromExpr.eden_f) *)
Theorem C08_from_expr : forall ks e x,
  sig_ok ks = true -> from_expr ks e = Ok x ->
  wf_nof ks x /\ forall n, bok ks n -> lc_eq (den ks x n) (eden ks e n).
Proof. exact from_expr_correct. Qed.
Print Assumptions C08_from_expr.
Example C08_from_expr_nonvacuous :
  exists x, from_expr ex_ks ex_e = Ok x /\ ~ lc_eq (den ex_ks x [3; -2; 1; 1; 1]) [].
Proof.
  eexists. split; [reflexivity|]. intros H. specialize (H [4; -2; 1; 0; 1]).
  vm_compute in H. destruct H as [H _]. discriminate H.
Qed.

(** conversion back: as_expr x denotes the same operator as x (every state, no well-formedness
    needed), for coefficients without reciprocals ([cpoly_nof]: the expression AST has no division) *)
Theorem C08_as_expr : forall ks x n,
  cpoly_nof x -> lc_eq (eden ks (as_expr x) n) (den ks x n).
Proof. exact as_expr_correct. Qed.
Print Assumptions C08_as_expr.

(** round trip: from_expr (as_expr x) never raises and denotes the same operator as x *)
Theorem C08_roundtrip : forall ks x,
  sig_ok ks = true -> wf_nof ks x -> cpoly_nof x ->
  exists x', from_expr ks (as_expr x) = Ok x' /\ wf_nof ks x' /\
             forall n, bok ks n -> lc_eq (den ks x' n) (den ks x n).
Proof. exact roundtrip_correct. Qed.
Print Assumptions C08_roundtrip.
Example C08_roundtrip_nonvacuous :
  wf_nof ex_ks ex_x /\ cpoly_nof ex_x /\ ~ lc_eq (den ex_ks ex_x [3; -2; 1; 1; 1]) [].
Proof.
  split; [exact ex_wf_x|]. split; [repeat constructor|].
  intros H. specialize (H [4; -2; 1; 0; 1]). vm_compute in H. destruct H as [H _]. discriminate H.
Qed.

(** negative integer powers: the code supports them only for particle-conserving forms (it raises
    the coefficient to the power); for a number-only form f(N) the result is the inverse of the
    positive power on every state where f does not vanish.  Other forms: ValueError / outside the
    property. *)
Theorem C08_pow_neg : forall ks f e n,
  e < 0 -> ~ geq (cval f n) g0 ->
  exists y, pow ks (hnof ks f) e = Ok y /\
            lc_eq (lc_bind (lc_pow (den ks (hnof ks f)) (Z.abs_nat e) n) (den ks y)) [(g1, n)].
Proof. exact pow_neg_correct. Qed.
Print Assumptions C08_pow_neg.

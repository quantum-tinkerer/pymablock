(* C16 (clauses C16_direct, C16_group) - "... the direct solver for both orientations of
   the implicit block, degenerate and biorthogonal explicit levels and mixed real/complex
   data ... direct_greens_function returns the solution of (E - H) x = P v that lies in
   the range of the kernel-complement projector P."

   Model: LinAlg/Greens.v (direct_greens_function as repaired by e113059:
   equations dropped according to the LEFT kernel, variables constrained according to
   the RIGHT kernel; the sparse LU solve is an oracle returning any solution of the
   constrained system) and LinAlg/GroupEnergies.v (real branch of
   _group_close_energies).  Trusted: scipy factorized/SuperLU solves the system it is
   given; pivoted QR returns pivots whose minors are invertible (checked per case by
   k_greens). *)
From Coq Require Import ZArith List Lia Sorting.Permutation Relations.
From mathcomp Require Import ssreflect ssrfun ssrbool eqtype ssrnat seq fintype bigop.
From mathcomp Require Import ssralg matrix rat.
From PV Require Import LinAlg.Greens LinAlg.GroupEnergies.
Set Implicit Arguments. Unset Strict Implicit. Unset Printing Implicit Defensive.
Import GRing.Theory.
Local Open Scope ring_scope.
Delimit Scope Z_scope with ZZ.

(* direct_greens_function: P z solves (E - H) x = P b and lies in the range of P.
   Hypotheses: kernel relations, biorthogonality, D a 0/1 diagonal (idempotent), C
   supported on the dropped rows (D C = 0), and the dropped equations are recoverable
   from the left kernel. *)
Theorem C16_direct (F : ringType) (n k : nat) (A D C : 'M[F]_n)
    (Phi : 'M[F]_(n,k)) (PhiLd : 'M[F]_(k,n)) (b z : 'cV[F]_n) :
  A *m Phi = 0 -> PhiLd *m A = 0 -> PhiLd *m Phi = 1%:M ->
  D *m D = D -> D *m C = 0 ->
  (forall r : 'cV[F]_n, D *m r = 0 -> PhiLd *m r = 0 -> r = 0) ->
  Mt A D C *m z = D *m (Pk Phi PhiLd *m b) ->
  A *m (Pk Phi PhiLd *m z) = Pk Phi PhiLd *m b /\
  Pk Phi PhiLd *m (Pk Phi PhiLd *m z) = Pk Phi PhiLd *m z.
Proof. by move=> H1 H2 H3 H4 H5 H6; apply: greens_solution. Qed.
Print Assumptions C16_direct.

(* the same with the D and C that _constrain_matrix builds from pivot_rows/pivot_cols,
   under the condition the pivoted QR is meant to ensure: PhiL restricted to the
   dropped rows is an invertible k x k matrix *)
Theorem C16_direct_pivots (F : fieldType) (n k : nat) (rows cols : 'I_k -> 'I_n)
    (A : 'M[F]_n) (Phi : 'M[F]_(n,k)) (PhiLd : 'M[F]_(k,n)) (b z : 'cV[F]_n) :
  injective rows ->
  A *m Phi = 0 -> PhiLd *m A = 0 -> PhiLd *m Phi = 1%:M ->
  (\matrix_(s, t) PhiLd s (rows t)) \in unitmx ->
  Mt A (Dm F rows) (Cm F rows cols) *m z = Dm F rows *m (Pk Phi PhiLd *m b) ->
  A *m (Pk Phi PhiLd *m z) = Pk Phi PhiLd *m b /\
  Pk Phi PhiLd *m (Pk Phi PhiLd *m z) = Pk Phi PhiLd *m z.
Proof.
move=> ri AP LA bi U; apply: greens_solution => //.
- exact: Dm_idem.
- exact: Dm_Cm.
- exact: left_regular_of_minor.
Qed.
Print Assumptions C16_direct_pivots.

(* the constrained system has a unique solution (the LU factorisation exists) when
   moreover Phi restricted to pivot_cols is invertible and Phi spans the kernel of A *)
Theorem C16_direct_regular (F : fieldType) (n k : nat) (rows cols : 'I_k -> 'I_n)
    (A : 'M[F]_n) (Phi : 'M[F]_(n,k)) (PhiLd : 'M[F]_(k,n)) (z : 'cV[F]_n) :
  injective rows ->
  PhiLd *m A = 0 ->
  (\matrix_(s, t) PhiLd s (rows t)) \in unitmx ->
  (\matrix_(t, s) Phi (cols t) s) \in unitmx ->
  (forall z : 'cV[F]_n, A *m z = 0 -> exists c, z = Phi *m c) ->
  Mt A (Dm F rows) (Cm F rows cols) *m z = 0 -> z = 0.
Proof.
move=> ri LA U1 U2 sp; apply: (@Mt_injective _ _ _ A _ _ Phi PhiLd) => //.
- exact: Dm_idem.
- exact: Dm_Cm.
- exact: left_regular_of_minor.
- exact: col_regular_of_minor.
Qed.
Print Assumptions C16_direct_regular.

(* solve_sylvester_direct, left-implicit orientation (index[0] is the implicit block,
   nonhermitian=True): for a column y of Y and the explicit level E of its column,
   v = Pf (-(greens_function_left (Pf y))) satisfies  h0 v - v E = Pf y  and  Pf v = v,
   i.e. the Sylvester equation H0_BB V - V H0_jj = Y on the complement (Pf commutes
   with h0).  Pf: projector on the complement of all explicit vectors. *)
Theorem C16_direct_left (F : comRingType) (n k : nat) (h0 : 'M[F]_n) (E : F)
    (Phi : 'M[F]_(n,k)) (PhiLd : 'M[F]_(k,n)) (Pf D C : 'M[F]_n) (y z : 'cV[F]_n) :
  let A := E%:M - h0 in
  A *m Phi = 0 -> PhiLd *m A = 0 -> PhiLd *m Phi = 1%:M ->
  Pf *m Pf = Pf -> Pf *m h0 = h0 *m Pf -> PhiLd *m Pf = 0 ->
  D *m D = D -> D *m C = 0 ->
  (forall r : 'cV[F]_n, D *m r = 0 -> PhiLd *m r = 0 -> r = 0) ->
  Mt A D C *m z = D *m (Pk Phi PhiLd *m (Pf *m y)) ->
  let v := Pf *m (- (Pk Phi PhiLd *m z)) in
  h0 *m v - E *: v = Pf *m y /\ Pf *m v = v.
Proof.
move=> A APhi PhiLA bi PfPf Pf_h0 PhiL_Pf DD DC lreg Hz v.
have [Hx _] := greens_solution APhi PhiLA bi DD DC lreg Hz.
split; last by rewrite /v mulmxA PfPf.
have Pf_A : Pf *m A = A *m Pf by rewrite /A mulmxBr mulmxBl Pf_h0 scalar_mxC.
have -> : h0 *m v - E *: v = A *m (Pf *m (Pk Phi PhiLd *m z)).
  rewrite /v mulmxN; set X := Pf *m _.
  by rewrite /A mulmxN scalerN opprK mulmxBl mul_scalar_mx addrC.
rewrite mulmxA -Pf_A -mulmxA Hx Pk_id ?mulmxA ?PfPf //.
by rewrite PhiL_Pf mul0mx.
Qed.
Print Assumptions C16_direct_left.

(* right-implicit orientation (index[1] is the implicit block; used by Hermitian and
   non-Hermitian problems): the solver is built for h0^T with the conjugated kernels,
   i.e. for the transposed system with kernel PhiLd^T and dual Phi^T; for a row y^T of Y
   v = (greens_function_right (Pf^T y))^T Pf satisfies  E v - v h0 = y^T Pf,  v Pf = v:
   the Sylvester equation H0_ii V - V H0_BB = Y on the complement. *)
Theorem C16_direct_right (F : comRingType) (n k : nat) (h0 : 'M[F]_n) (E : F)
    (Phi : 'M[F]_(n,k)) (PhiLd : 'M[F]_(k,n)) (Pf D C : 'M[F]_n) (y z : 'cV[F]_n) :
  let A := E%:M - h0 in
  A *m Phi = 0 -> PhiLd *m A = 0 -> PhiLd *m Phi = 1%:M ->
  Pf *m Pf = Pf -> Pf *m h0 = h0 *m Pf -> Pf *m Phi = 0 ->
  D *m D = D -> D *m C = 0 ->
  (forall r : 'cV[F]_n, D *m r = 0 -> Phi^T *m r = 0 -> r = 0) ->
  Mt A^T D C *m z = D *m (Pk PhiLd^T Phi^T *m (Pf^T *m y)) ->
  let v : 'rV[F]_n := (Pk PhiLd^T Phi^T *m z)^T *m Pf in
  E *: v - v *m h0 = y^T *m Pf /\ v *m Pf = v.
Proof.
move=> A APhi PhiLA bi PfPf Pf_h0 Pf_Phi DD DC lreg Hz v.
rewrite /A linearB /= tr_scalar_mx in Hz.
have tr0 m p q (X : 'M[F]_(m, p)) (Y : 'M_(p, q)) : X *m Y = 0 -> Y^T *m X^T = 0.
  by move=> XY; rewrite -trmx_mul XY trmx0.
(* this is the left-implicit clause for the transposed data; v = w^T, its solution is - w *)
have -> : v = (Pf^T *m (Pk PhiLd^T Phi^T *m z))^T by rewrite trmx_mul trmxK.
have [] := @C16_direct_left F n k h0^T E PhiLd^T Phi^T Pf^T D C y z _ _ _ _ _ _ DD DC lreg Hz.
- by rewrite -tr_scalar_mx -linearB; apply: tr0.
- by rewrite -tr_scalar_mx -linearB; apply: tr0.
- by rewrite -trmx_mul bi trmx1.
- by rewrite -trmx_mul PfPf.
- by rewrite -!trmx_mul Pf_h0.
- exact: tr0.
rewrite !mulmxN scalerN opprK; set w := Pf^T *m _ => e1 /oppr_inj e2.
split; apply: trmx_inj.
  by rewrite linearB /= linearZ /= !trmx_mul !trmxK -e1 addrC.
by rewrite trmx_mul !trmxK.
Qed.
Print Assumptions C16_direct_right.

(* _group_close_energies (real branch): the groups are the connected components of the
   graph "|E_a - E_b| <= atol":  they partition the indices, each carries its energies,
   consecutive members of a group are within atol, members of different groups are more
   than atol apart, no group is empty. *)
Theorem C16_group (es : list Z) (atol : Z) :
  let gs := group_pairs es atol in
  Permutation (List.map snd (List.concat gs)) (List.seq 0 (List.length es)) /\
  (forall e j, List.In (e, j) (List.concat gs) -> List.nth_error es j = Some e) /\
  List.Forall (chained atol) gs /\ separated atol gs /\
  List.Forall (fun g => g <> nil) gs.
Proof.
rewrite /group_pairs.
have [-> [Ch [Se Ne]]] := split_spec atol _ (isort_sorted (index_from 0 es)).
split; last split=> // e j.
  by rewrite -index_from_snd; apply/Permutation_map/isort_perm.
by move/(Permutation_in _ (isort_perm _))/index_from_nth => [_]; rewrite Nat.sub_0_r.
Qed.
Print Assumptions C16_group.

(* every group is connected inside itself ... *)
Theorem C16_group_connected (atol : Z) (g : list item) :
  chained atol g ->
  forall a b, List.In a g -> List.In b g ->
  clos_refl_sym_trans _ (fun x y => List.In x g /\ List.In y g /\ close atol x y) a b.
Proof.
elim: g => [|x [|y t] IH] Hc a b //.
  by move=> [<-|[]] [<-|[]]; apply: rst_refl.
case: Hc => Hxy /IH Ht; apply: (rst_cons (close atol) x y) => //; first by left.
rewrite /close; lia.
Qed.
Print Assumptions C16_group_connected.

(* ... and there is no edge between two different groups *)
Theorem C16_group_no_edge (atol : Z) (gs : list (list item)) :
  (0 <= atol)%ZZ -> separated atol gs ->
  forall pre g1 mid g2 post,
    gs = (pre ++ g1 :: mid ++ g2 :: post)%list ->
  forall a b, List.In a g1 -> List.In b g2 -> ~ close atol a b.
Proof.
move=> Hat Hs pre; elim: pre gs Hs => [|p pre IH] gs Hs g1 mid g2 post E a b Ha Hb.
  move: Hs; rewrite E /= => -[S1 _].
  have /(S1 a b Ha) : List.In b (List.concat (mid ++ g2 :: post)).
    by rewrite concat_app; apply/in_or_app; right; apply/in_or_app; left.
  rewrite /close; lia.
move: Hs; rewrite E /= => -[_ S2]; exact: IH S2 _ _ _ _ erefl _ _ Ha Hb.
Qed.
Print Assumptions C16_group_no_edge.

(* the grouping model on a concrete spectrum, and the hypotheses of C16_direct on the
   smallest instance (A = 0 on a one-dimensional space, kernel = everything, no equation
   kept: D = 0).  Larger instances (biorthogonal 2x2 of finding D10, degenerate groups of
   size up to 3, n <= 8) have their hypotheses checked exactly by k_greens.tie_greens. *)
Example C16_ex_group :
  group_close_energies (5 :: 0 :: 6 :: 20 :: 1 :: nil)%ZZ 1%ZZ
  = ((1 :: 4 :: nil) :: (0 :: 2 :: nil) :: (3 :: nil) :: nil)%nat.
Proof. by vm_compute. Qed.
Example C16_ex_abstract :
  let A : 'M[rat]_1 := 0 in let Phi : 'M[rat]_1 := 1%:M in
  [/\ A *m Phi = 0, Phi *m A = 0, Phi *m Phi = 1%:M
    & forall r : 'cV[rat]_1, (0 : 'M[rat]_1) *m r = 0 -> Phi *m r = 0 -> r = 0].
Proof.
by move=> A Phi; split; rewrite ?mul0mx ?mulmx0 ?mulmx1 // => r _; rewrite mul1mx.
Qed.

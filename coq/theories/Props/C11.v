(** C11 - An exception during evaluation leaves the computation consistent, reusable.

    "If a user-supplied callback (evaluation of a Hamiltonian term, the Sylvester solver, or
    the multiplication of elements) raises any exception, including KeyboardInterrupt, at any
    point of any evaluation, the exception reaches the caller and every later request on the
    same series returns exactly the value of an undisturbed computation. No partially
    computed, stale or in-flight marker is ever returned or left behind."

    The fault plan [xw_fault : nat -> option exn] of the world says which callback invocation
    raises which exception class (RuntimeError, or UserExn c: Exception, KeyboardInterrupt-like
    BaseException, ...); it is universally quantified: single, repeated and permanent faults.
    Proved: after any schedule with any faults no Pending entry is left and the cache
    invariant holds, so every value returned later (and every value returned by an undisturbed
    computation) denotes the same interp value.  [C11_later_requests_terminate]: for stratified
    programs (both shipped algorithms) the runs and every later request, under any fault plan,
    end with a value or an exception when given fuel >= fuel_bound - never OutOfFuel.  That a
    later request returns a VALUE (rather than raising again) is covered by the harness
    k_faults only. *)
From Coq Require Import String List ZArith Bool Arith.
From PV.DSL Require Import Syntax Values Target Compile Interp Exec Laws Sound CompileProps Main Faults Regular Examples Stratified Terminate PropsLemmas.
From PV.Gen Require Import Algorithms_gen.
Import ListNotations.
Open Scope string_scope.

Theorem C11_exn_safe :
  forall (V : Type) (O : vops V) (eqv : V -> V -> Prop), vlaws O eqv ->
  forall (alg : algorithm) (W : xworld V) (sfn : string -> list V -> index -> V),
  world_ok O eqv alg W sfn ->
  (* any fault plan: it is indexed by the global count of callback invocations, so it also
     describes the faults that hit the later requests *)
  forall (fp : nat -> option exn) fuel c rs os s1,
    (* any schedule with any outcomes *)
    run_all O alg (compile alg) (with_faults W fp) fuel (init_state alg W c) rs = (os, s1) ->
    Forall (fun o => o <> OutOfFuel) os ->
    (* leaves no in-flight marker behind *)
    no_pending s1 /\
    (* and every later request *)
    forall fuel' tb name ix r s2,
      run O alg (compile alg) (with_faults W fp) fuel' s1 (tb, name, ix) = (r, s2) -> r <> OutOfFuel ->
      no_pending s2 /\
      forall v, r = Ok v ->
        (* returns the value of the direct interpretation, which is also what an undisturbed
           fresh computation returns *)
        forall f w, interp O alg (SW O W sfn) f (KN name) ix = Some w ->
          eqv (den O v) w /\
          forall fuel0 c0 tb0 v0 s0,
            run O alg (compile alg) (with_faults W (fun _ => None)) fuel0 (init_state alg W c0) (tb0, name, ix) = (Ok v0, s0) ->
            eqv (den O v0) w.
Proof.
  intros V O eqv L alg W sfn WO fp fuel c rs os s1 E NO.
  pose proof (world_ok_faults fp WO) as WO1.
  destruct (schedule_sound L WO1 _ _ _ E NO) as (I1 & NP1 & _).
  split; [exact NP1|].
  intros fuel' tb name ix r s2 E2 NO2.
  destruct (request_sound L WO1 _ _ _ _ I1 E2 NO2) as (_ & NP2 & _ & P2).
  split; [exact NP2|]. intros v -> f w Ef. split; [exact (P2 v eq_refl f w Ef)|].
  intros fuel0 c0 tb0 v0 s0 E0.
  pose proof (world_ok_faults (fun _ => None) WO) as WO0.
  destruct (request_sound L WO0 _ _ _ _ (init_reachable L alg (with_faults W (fun _ => None)) sfn c0) E0 ltac:(discriminate))
    as (_ & _ & _ & P0).
  exact (P0 v0 eq_refl f w Ef).
Qed.
Print Assumptions C11_exn_safe.

(** non-vacuity: a KeyboardInterrupt-like fault at the 7th callback invocation of the shipped
    non-Hermitian algorithm reaches the caller, leaves no marker, and the repeated request
    returns the undisturbed value *)
Example C11_exn_safe_example :
  let Wf := z_world (fun k => if Nat.eqb k 6 then Some (UserExn 1) else None) in
  let W0 := z_world no_faults in
  let req := (TTab, "H_tilde", (0, 0, [2])) in
  let '(o1, s1) := run z_ops nonhermitian_alg (compile nonhermitian_alg) Wf 60 (init_state nonhermitian_alg Wf 0) req in
  let '(o2, s2) := run z_ops nonhermitian_alg (compile nonhermitian_alg) Wf 60 s1 req in
  o1 = Raise (UserExn 1)
  /\ existsb (fun x => match lookup (cache s1) (fst x) with Some Pending => true | _ => false end) (cache s1) = false
  /\ o2 = fst (run z_ops nonhermitian_alg (compile nonhermitian_alg) W0 60 (init_state nonhermitian_alg W0 0) req)
  /\ exists v, o2 = Ok (SVal v).
Proof. vm_compute. repeat split; eauto. Qed.

(** the in-flight marker is never a result: a value is returned only from (or stored as) a
    Done entry *)
Theorem C11_no_pending_returned :
  forall V (O : vops V) alg prog (W : xworld V) rec tb k ix (s s' : state V) v,
    getitem_step O alg prog W rec tb k ix s = (Ok v, s') ->
    st_lookup s' (tb, k, ix) = Some (Done v).
Proof. exact returned_is_stored. Qed.
Print Assumptions C11_no_pending_returned.

(** reaching one's own in-flight marker raises RuntimeError at once (no divergence) and
    leaves the state unchanged *)
Theorem C11_recursion :
  forall V (O : vops V) alg prog (W : xworld V) rec tb k ix (s : state V),
    wf_index W ix = true ->
    st_lookup s (tb, k, ix) = Some Pending ->
    getitem_step O alg prog W rec tb k ix s = (Raise RuntimeError, s).
Proof. exact recursion_detected. Qed.
Print Assumptions C11_recursion.

Example C11_recursion_example :
  (* with "S": "S"  (a series defined as itself) the request raises RuntimeError *)
  let alg := {| aseries := [{| sname := "S"; sstart := NoStart; sbody := [Line Default (Lit "S")] |}];
                aproducts := []; aoutputs := ["S"] |} in
  fst (run z_ops alg (compile alg) (z_world no_faults) 10 (init_state alg (z_world no_faults) 0) (TTab, "S", (0, 0, [1])))
  = Raise RuntimeError.
Proof. vm_compute. reflexivity. Qed.

(** after any faults the computation is still usable: for a stratified program the faulty runs
    and every later request terminate (value or exception), the premise about OutOfFuel of
    [C11_exn_safe] is discharged *)
Theorem C11_later_requests_terminate :
  forall (V : Type) (O : vops V) (alg : algorithm) (W : xworld V),
  stratified alg = true -> fn_total W -> start_inputs_ok alg W ->
  forall (fp : nat -> option exn) fuel c rs os s1,
    fuel_ok alg fuel rs ->
    run_all O alg (compile alg) (with_faults W fp) fuel (init_state alg W c) rs = (os, s1) ->
    Forall (fun o => o <> OutOfFuel) os /\
    forall fuel' tb name ix r s2,
      fuel_bound alg ix <= fuel' ->
      run O alg (compile alg) (with_faults W fp) fuel' s1 (tb, name, ix) = (r, s2) ->
      r <> OutOfFuel.
Proof.
  intros V O alg W Hs Hf Hi fp fuel c rs os s1 Hb E.
  destruct (run_all_no_oof V O alg (with_faults W fp) Hs Hf Hi fuel rs _ os s1 (init_SI V alg (with_faults W fp) c) Hb E) as [N I].
  split; [exact N|]. intros fuel' tb name ix r s2 Hb' E'.
  exact (proj1 (run_no_oof V O alg (with_faults W fp) Hs Hf Hi fuel' s1 tb name ix r s2 I Hb' E')).
Qed.
Print Assumptions C11_later_requests_terminate.

Example C11_later_requests_terminate_example :
  stratified nonhermitian_alg = true /\ start_inputs_ok nonhermitian_alg (z_world no_faults)
  /\ fuel_bound nonhermitian_alg (0, 0, [2]) <= 200.
Proof.
  split; [vm_compute; reflexivity|]. split; [apply (start_inputs_of _ _ _ "H"); reflexivity|].
  apply Nat.leb_le. vm_compute. reflexivity.
Qed.

(** C09 - Compiling a series mini-language algorithm preserves its meaning.

    "For every well-founded algorithm written in the documented mini-language (series with
    start values, hermitian/antihermitian markers, diagonal/offdiagonal/lower conditions,
    sums, integer division, adjoints, scope functions, declared Cauchy products), every
    element of every series returned by series_computation equals the value given by a
    direct, unoptimised interpretation of that definition. The automatic deletion of
    once-used intermediate terms, the Hermiticity shortcuts, the two-block and
    commuting-block flags and the linear-operator mode never change any value."

    Model: DSL/Compile.v (what _parse_algorithm generates), DSL/Exec.v (series.py run-time
    executing it), specification DSL/Interp.v.  [world_ok] collects the hypotheses: input
    names contain no "@"; the evaluator's scope functions compute the specification's
    functions; for products declared [hermitian] the two shortcuts are valid in the sense of
    the specification ([herm_low], [herm_diag]: explicit hypotheses - the half-sum of
    product_by_order is only valid for adjoint pairs, known finding D9 of C18).
    For the shipped Hermitian algorithm these two hypotheses are PROVED ([C09_sound_main]).
    [C09_sound] is stated for runs in which no outcome is the model-internal OutOfFuel; this
    premise is discharged by [C09_terminates]: for a program carrying the decidable
    stratification certificate (DSL/Stratified.v; both shipped algorithms carry it) a request at
    index ix run with fuel >= fuel_bound alg ix never ends with OutOfFuel.
    [C09_sound_main_total] / [C09_sound_nh_total] are the resulting statements for the shipped
    algorithms without that premise.  (That a request returns a VALUE rather than a Python
    exception - no TypeError from the sentinel [one], no RuntimeError - is not proved.) *)
From Coq Require Import String List ZArith Bool Arith.
From PV.DSL Require Import Syntax Values Target Compile Interp Exec Laws Sound Main Regular Examples HermMain Stratified Terminate PropsLemmas.
From PV.Gen Require Import Algorithms_gen.
Import ListNotations.
Open Scope string_scope.

(** Every value returned for ANY series name (output or not, deleted or not, either table),
    at any point of any request schedule, denotes the value of the direct interpretation
    (whenever that is defined), for every program, every coefficient structure satisfying
    the ring-with-involution laws, every input, scope and flag assignment, every fault plan. *)
Theorem C09_sound :
  forall (V : Type) (O : vops V) (eqv : V -> V -> Prop), vlaws O eqv ->
  forall (alg : algorithm) (W : xworld V) (sfn : string -> list V -> index -> V),
  world_ok O eqv alg W sfn ->
  forall fuel calls0 rs os s' i tb name ix v,
    run_all O alg (compile alg) W fuel (init_state alg W calls0) rs = (os, s') ->
    Forall (fun o => o <> OutOfFuel) os ->
    nth_error rs i = Some (tb, name, ix) -> nth_error os i = Some (Ok v) ->
    forall f w, interp O alg (SW O W sfn) f (KN name) ix = Some w -> eqv (den O v) w.
Proof. intros V O eqv L alg W sfn WO. exact (schedule_value L WO). Qed.
Print Assumptions C09_sound.

(** Multi-element requests (slices, list indices) on ANY series name, after any history: the elements are
    evaluated one after the other and each value is taken when it is evaluated ([run_multi]); every value
    of the returned array denotes the interpretation of its element - also when the cache entry of an
    earlier element of the same request is deleted while a later element is evaluated. *)
Theorem C09_sound_slices :
  forall (V : Type) (O : vops V) (eqv : V -> V -> Prop), vlaws O eqv ->
  forall (alg : algorithm) (W : xworld V) (sfn : string -> list V -> index -> V),
  world_ok O eqv alg W sfn ->
  forall fuel calls0 rs os s1 fuel' tb name ixs vs s2,
    run_all O alg (compile alg) W fuel (init_state alg W calls0) rs = (os, s1) ->
    Forall (fun o => o <> OutOfFuel) os ->
    run_multi O alg (compile alg) W fuel' s1 tb name ixs = (Ok vs, s2) ->
    Forall2 (fun ix v => forall f w, interp O alg (SW O W sfn) f (KN name) ix = Some w -> eqv (den O v) w) ixs vs.
Proof.
  intros V O eqv L alg W sfn WO fuel calls0 rs os s1 fuel' tb name ixs vs s2 E NO E2.
  destruct (schedule_sound L WO _ _ _ E NO) as (I1 & _ & _).
  exact (proj2 (proj2 (multi_request_sound L WO _ _ _ _ I1 E2))).
Qed.
Print Assumptions C09_sound_slices.

(** a slice of the deletable intermediate X of the non-Hermitian algorithm: all three orders are returned *)
Example C09_sound_slices_example :
  exists a b c, fst (run_multi z_ops nonhermitian_alg (compile nonhermitian_alg) (z_world no_faults) 60
                       (init_state nonhermitian_alg (z_world no_faults) 0) TTab "X" [(0, 1, [0]); (0, 1, [1]); (0, 1, [2])])
                = Ok [a; b; c].
Proof. do 3 eexists. vm_compute. reflexivity. Qed.

(** non-vacuity: the shipped non-Hermitian algorithm on an integer Hamiltonian; the request
    at second order terminates, the specification is defined and both give the same value *)
Example C09_sound_example :
  exists v, fst (run z_ops nonhermitian_alg (compile nonhermitian_alg) (z_world no_faults) 60
                     (init_state nonhermitian_alg (z_world no_faults) 0) (TTab, "H_tilde", (0, 0, [2])))
            = Ok (SVal v)
         /\ interp z_ops nonhermitian_alg (SW z_ops (z_world no_faults) z_sfn) 40 (KN "H_tilde") (0, 0, [2]) = Some v.
Proof. eexists. split; vm_compute; reflexivity. Qed.

Example C09_world_ok_example : world_ok z_ops eq nonhermitian_alg (z_world no_faults) z_sfn.
Proof. apply z_world_ok_nh. Qed.

(** the shipped Hermitian algorithm (with its hermitian-declared product) likewise runs and
    agrees with the specification on this input *)
Example C09_main_example :
  exists v, fst (run z_ops main_alg (compile main_alg) (z_world no_faults) 80
                     (init_state main_alg (z_world no_faults) 0) (TTab, "H_tilde", (0, 0, [2])))
            = Ok (SVal v)
         /\ interp z_ops main_alg (SW z_ops (z_world no_faults) z_sfn) 60 (KN "H_tilde") (0, 0, [2]) = Some v.
Proof. eexists. split; vm_compute; reflexivity. Qed.

(** The shipped Hermitian algorithm WITHOUT the hypotheses about the Hermitian shortcuts: the
    product "U'† @ U'" is declared hermitian, and U'† = W - V is the adjoint partner of
    U' = W + V (W marked hermitian, V antihermitian, start = 0) - proved by induction on the
    total order (DSL/HermMain.v, using the general lemma of DSL/HermValid.v).  Remaining
    hypotheses on the scope: no [offdiag] (plain block diagonalization), [diag] commutes with
    the adjoint on diagonal blocks, and the zero test of the structure is complete. *)
Theorem C09_sound_main :
  forall (V : Type) (O : vops V) (eqv : V -> V -> Prop), vlaws O eqv ->
  forall (W : xworld V) (sfn : string -> list V -> index -> V),
  (forall x, In x (xw_inputs W) -> has_at x = false) ->
  (forall f l l' ix, Forall2 eqv l l' -> eqv (sfn f l ix) (sfn f l' ix)) ->
  (forall f args ix r, xw_fn W f args ix = Ok r -> eqv (den O r) (sfn f (map (den O) args) ix)) ->
  (forall a, eqv a (v0 O) -> vis0 O a = true) ->
  xw_hasoff W = false ->
  (forall x i n, eqv (vadj O (sfn "diag" [x] (i, i, n))) (sfn "diag" [vadj O x] (i, i, n))) ->
  forall fuel calls0 rs os s' i tb name ix v,
    run_all O main_alg (compile main_alg) W fuel (init_state main_alg W calls0) rs = (os, s') ->
    Forall (fun o => o <> OutOfFuel) os ->
    nth_error rs i = Some (tb, name, ix) -> nth_error os i = Some (Ok v) ->
    forall f w, interp O main_alg (SW O W sfn) f (KN name) ix = Some w -> eqv (den O v) w.
Proof.
  intros V O eqv L W sfn H1 H2 H3 H4 H5 H6.
  exact (schedule_value L (@main_world_ok V O eqv L W sfn H1 H2 H3 H4 H5 H6)).
Qed.
Print Assumptions C09_sound_main.

Example C09_sound_main_example : world_ok z_ops eq main_alg (z_world no_faults) z_sfn.
Proof.
  apply (@main_world_ok Z z_ops eq z_laws).
  - intros x [<-|[]]. reflexivity.
  - intros f l l' ix F. assert (l = l') as -> by (induction F; subst; auto). reflexivity.
  - apply z_tie.
  - intros a ->. reflexivity.
  - reflexivity.
  - reflexivity.
Qed.

(** the shipped algorithms are in the fragment on which the model is claimed faithful *)
Theorem C09_main_regular : regular main_alg ["H"] = true.
Proof. vm_compute. reflexivity. Qed.
Print Assumptions C09_main_regular.

Theorem C09_nh_regular : regular nonhermitian_alg ["H"] = true.
Proof. vm_compute. reflexivity. Qed.
Print Assumptions C09_nh_regular.

(** TERMINATION.  For every stratified program, every world whose scope functions return (a
    value or an exception) and which provides the inputs named by the "X_0" start values,
    every fault plan inside the world, every schedule from the initial state: with fuel at
    least [fuel_bound alg ix] = 4 * (total order of ix + 1) * R(alg) + 8 for each request, no
    outcome is OutOfFuel. *)
Theorem C09_terminates :
  forall (V : Type) (O : vops V) (alg : algorithm) (W : xworld V),
  stratified alg = true -> fn_total W -> start_inputs_ok alg W ->
  forall fuel c rs os s',
    fuel_ok alg fuel rs ->
    run_all O alg (compile alg) W fuel (init_state alg W c) rs = (os, s') ->
    Forall (fun o => o <> OutOfFuel) os.
Proof.
  intros V O alg W Hs Hf Hi fuel c rs os s' Hb E.
  exact (proj1 (run_all_no_oof V O alg W Hs Hf Hi fuel rs _ os s' (init_SI V alg W c) Hb E)).
Qed.
Print Assumptions C09_terminates.

Theorem C09_terminates_main :
  forall (V : Type) (O : vops V) (W : xworld V),
  fn_total W -> mem_string "H" (xw_inputs W) = true ->
  forall fuel c rs os s',
    fuel_ok main_alg fuel rs ->
    run_all O main_alg (compile main_alg) W fuel (init_state main_alg W c) rs = (os, s') ->
    Forall (fun o => o <> OutOfFuel) os.
Proof.
  intros V O W Hf HH. exact (C09_terminates V O main_alg W main_stratified Hf (start_inputs_of V main_alg W "H" eq_refl HH)).
Qed.
Print Assumptions C09_terminates_main.

Theorem C09_terminates_nh :
  forall (V : Type) (O : vops V) (W : xworld V),
  fn_total W -> mem_string "H" (xw_inputs W) = true ->
  forall fuel c rs os s',
    fuel_ok nonhermitian_alg fuel rs ->
    run_all O nonhermitian_alg (compile nonhermitian_alg) W fuel (init_state nonhermitian_alg W c) rs = (os, s') ->
    Forall (fun o => o <> OutOfFuel) os.
Proof.
  intros V O W Hf HH.
  exact (C09_terminates V O nonhermitian_alg W nonhermitian_stratified Hf (start_inputs_of V nonhermitian_alg W "H" eq_refl HH)).
Qed.
Print Assumptions C09_terminates_nh.

Example C09_terminates_example :
  stratified main_alg = true /\ stratified nonhermitian_alg = true
  /\ fn_total (z_world no_faults) /\ mem_string "H" (xw_inputs (z_world no_faults)) = true
  /\ fuel_bound main_alg (0, 0, [2]) = 92.
Proof.
  repeat split; try (vm_compute; reflexivity).
  intros f args ix. cbn [xw_fn z_world]. unfold z_fn. destruct args as [|[| |x] [|b r]]; discriminate.
Qed.

(** the two shipped algorithms, without the premise about OutOfFuel *)
Theorem C09_sound_main_total :
  forall (V : Type) (O : vops V) (eqv : V -> V -> Prop), vlaws O eqv ->
  forall (W : xworld V) (sfn : string -> list V -> index -> V),
  (forall x, In x (xw_inputs W) -> has_at x = false) ->
  (forall f l l' ix, Forall2 eqv l l' -> eqv (sfn f l ix) (sfn f l' ix)) ->
  (forall f args ix r, xw_fn W f args ix = Ok r -> eqv (den O r) (sfn f (map (den O) args) ix)) ->
  (forall a, eqv a (v0 O) -> vis0 O a = true) ->
  xw_hasoff W = false ->
  (forall x i n, eqv (vadj O (sfn "diag" [x] (i, i, n))) (sfn "diag" [vadj O x] (i, i, n))) ->
  fn_total W -> mem_string "H" (xw_inputs W) = true ->
  forall fuel calls0 rs os s' i tb name ix v,
    fuel_ok main_alg fuel rs ->
    run_all O main_alg (compile main_alg) W fuel (init_state main_alg W calls0) rs = (os, s') ->
    nth_error rs i = Some (tb, name, ix) -> nth_error os i = Some (Ok v) ->
    forall f w, interp O main_alg (SW O W sfn) f (KN name) ix = Some w -> eqv (den O v) w.
Proof.
  intros V O eqv L W sfn H1 H2 H3 H4 H5 H6 Hf HH fuel calls0 rs os s' i tb name ix v Hb E.
  exact (C09_sound_main V O eqv L W sfn H1 H2 H3 H4 H5 H6 fuel calls0 rs os s' i tb name ix v E
           (C09_terminates_main V O W Hf HH fuel calls0 rs os s' Hb E)).
Qed.
Print Assumptions C09_sound_main_total.

Theorem C09_sound_nh_total :
  forall (V : Type) (O : vops V) (eqv : V -> V -> Prop), vlaws O eqv ->
  forall (W : xworld V) (sfn : string -> list V -> index -> V),
  (forall x, In x (xw_inputs W) -> has_at x = false) ->
  (forall f l l' ix, Forall2 eqv l l' -> eqv (sfn f l ix) (sfn f l' ix)) ->
  (forall f args ix r, xw_fn W f args ix = Ok r -> eqv (den O r) (sfn f (map (den O) args) ix)) ->
  fn_total W -> mem_string "H" (xw_inputs W) = true ->
  forall fuel calls0 rs os s' i tb name ix v,
    fuel_ok nonhermitian_alg fuel rs ->
    run_all O nonhermitian_alg (compile nonhermitian_alg) W fuel (init_state nonhermitian_alg W calls0) rs = (os, s') ->
    nth_error rs i = Some (tb, name, ix) -> nth_error os i = Some (Ok v) ->
    forall f w, interp O nonhermitian_alg (SW O W sfn) f (KN name) ix = Some w -> eqv (den O v) w.
Proof.
  intros V O eqv L W sfn H1 H2 H3 Hf HH fuel calls0 rs os s' i tb name ix v Hb E.
  destruct (@no_herm_valid V O eqv nonhermitian_alg W sfn eq_refl) as [A B].
  exact (C09_sound V O eqv L nonhermitian_alg W sfn (@Build_world_ok V O eqv nonhermitian_alg W sfn H1 H2 H3 A B)
           fuel calls0 rs os s' i tb name ix v E (C09_terminates_nh V O W Hf HH fuel calls0 rs os s' Hb E)).
Qed.
Print Assumptions C09_sound_nh_total.

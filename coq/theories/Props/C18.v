(* Props/C18.v

   C18  "cauchy_dot_product is the multivariate Cauchy product"

   For any number of block series with compatible shapes, element (i,j,n) of
   cauchy_dot_product equals the sum over intermediate blocks and over all
   splittings of the multi-order n of the products of the factors' elements, with
   the zero and one sentinels acting as absent term and identity.  Declaring
   hermitian=True for a product that is Hermitian does not change any value, and an
   order of a factor is requested only if the complementary orders of the other
   factors are present.

   Models: PySeries/Sentinel.v, Cache.v, ProductByOrder.v, CauchyDot.v (tied to
   /repo/pymablock/series.py by tools/harness/k_cauchydot.py).
   Value ring: any Ncring.Ring T with an additive involution `adj`; tadd/tmul are
   its + and *;  sden : sval T -> T  is the denotation of values and sentinels
   (zero -> 0, one -> 1).
   Non-vacuity examples: PySeries/C18Examples.v, PySeries/C18Refuted.v.

   All value theorems have the form "IF a value is returned THEN it denotes the sum".
   The model (like the code) can instead raise: exceptions of the factors' evals, and
   TypeError / SympifyError of the sentinel arithmetic when `one` is not the only
   non-zero term of an element (`one + x`, `x + one`, `Dagger(one)` in the half-sum).
   The latter is the KNOWN FINDING C18-one-plus-term (known_findings.json); the invalid
   half-sum for non-adjoint factors is the KNOWN FINDING C18-halfsum-nonadjoint
   (C18_herm_halfsum_refuted below).
*)

Require Import Ncring Setoid Morphisms List Bool.
Import ListNotations.
Require Import PV.PySeries.Sentinel PV.PySeries.Cache PV.PySeries.ProductByOrder
        PV.PySeries.CauchyDot PV.PySeries.MultiIndex PV.PySeries.RSum PV.PySeries.PBOProofs
        PV.PySeries.PBOLazy PV.PySeries.CauchyProofs PV.PySeries.AssocProofs
        PV.PySeries.C18Refuted.

(* The enumeration of product_by_order is "all splittings, each once":
   a ranges over the multi-orders with a <= n pointwise, b = msub n a is the
   complement (a + b = n), the middle index over range(mid). *)
Theorem C18_splittings :
  forall (mid : nat) (n : mi),
    NoDup (enumeration mid n) /\
    (forall k a, In (k, a) (enumeration mid n) <-> k < mid /\ Forall2 le a n) /\
    (forall a, Forall2 le a n -> madd a (msub n a) = n).
Proof.
  intros mid n. split. apply NoDup_enumeration. split. apply enumeration_in. apply madd_msub.
Qed.
Print Assumptions C18_splittings.

(* product_by_order with hermitian=False, for all shapes (mid), numbers of
   perturbations (length of orders) and sentinel patterns.  The factor accessors are
   arbitrary stateful operations (caches, evaluation on demand, exceptions) that,
   while an invariant Inv of the state holds, return values denoting F1 / F2 and
   whose `in` test is False only for elements denoting 0.  If a value is returned it
   denotes the full Cauchy sum
       sum_{k < mid} sum_{a <= orders} F1(start,k,a) * F2(k,end,orders-a).
   (Other outcomes: an exception of a factor, TypeError from `one + x`, out of fuel.)
   `adj` is never applied when hermitian=False; the two hypotheses on it are there only
   because pbo_spec, from which this follows, is stated once for both modes. *)
Theorem C18_pbo :
  forall (T : Type) (ring0 ring1 : T) (add mul sub : T -> T -> T) (opp : T -> T)
         (ring_eq : T -> T -> Prop) (Ro : Ring_ops) (Rg : @Ring T ring0 ring1 add mul sub opp ring_eq Ro)
         (adj : T -> T),
    Proper (_==_ ==> _==_) adj ->
    (forall x y, adj (x + y) == adj x + adj y) ->
    forall (St : Type) (has1 has2 : index -> St -> bool)
           (get1 get2 : index -> St -> res pyerr (sval T) * St)
           (Inv : St -> Prop) (F1 F2 : index -> T),
      get_ok Inv get1 F1 -> get_ok Inv get2 F2 -> has_ok Inv has1 F1 -> has_ok Inv has2 F2 ->
      forall (mid start end_ : nat) (orders : mi) (st : St),
        Inv st ->
        let r := product_by_order tadd tmul adj has1 has2 get1 get2 false mid start end_ orders st in
        Inv (snd r) /\
        forall v, fst r = Ok v -> sden v == cauchy_sum F1 F2 mid start end_ orders.
Proof.
  intros T ? ? ? ? ? ? ? Ro Rg adj Ap Aa St has1 has2 get1 get2 Inv F1 F2 G1 G2 H1 H2 mid start end_ orders st I.
  destruct (pbo_spec Ap Aa G1 G2 H1 H2 false mid start end_ orders st I) as [I' Hv].
  split; [exact I'|]. intros v E. rewrite (Hv v E). apply full_sum_contrib.
Qed.
Print Assumptions C18_pbo.

(* The whole model: any world of base series and products built by
   cauchy_dot_product (any nesting, any request history, any cache contents
   satisfying the invariant, any fuel): a returned element of a product series
   denotes the Cauchy sum of the specifications of its two factors.  The Hermitian
   modes are included under their hypotheses (prod_ok: product Hermitian for the
   wrapper, factors mutually adjoint for the half-sum). *)
Theorem C18_world_sound :
  forall (T : Type) (ring0 ring1 : T) (add mul sub : T -> T -> T) (opp : T -> T)
         (ring_eq : T -> T -> Prop) (Ro : Ring_ops) (Rg : @Ring T ring0 ring1 add mul sub opp ring_eq Ro)
         (adj : T -> T),
    Proper (_==_ ==> _==_) adj ->
    (forall x y, adj (x + y) == adj x + adj y) ->
    (forall x y, adj (x * y) == adj y * adj x) ->
    (forall x, adj (adj x) == x) ->
    forall (descs : list (sdesc T)) (spec : sid -> index -> T),
      base_ok descs spec -> prod_ok adj descs spec ->
      forall (fuel : nat) (s : sid) (i : index) (w : world (sval T)),
        winv spec w ->
        let r := cdp_getitem tadd tmul adj descs fuel s i w in
        winv spec (snd r) /\ forall v, fst r = Ok v -> sden v == spec s i.
Proof. intros. eapply cdp_sound; eauto. Qed.
Print Assumptions C18_world_sound.

(* More than two factors: the left-associated product cdp(cdp(f0,g1),g2,...) is the
   sum, over EVERY duplicate-free enumeration L of all chains of intermediate block
   indices ks (bounded by the shapes) and all splittings ps of n into one part per
   factor (path_ok), of the products of the factors' elements (termR).  Lists are in
   reversed order (last factor first). *)
Theorem C18_assoc :
  forall (T : Type) (ring0 ring1 : T) (add mul sub : T -> T -> T) (opp : T -> T)
         (ring_eq : T -> T -> Prop) (Ro : Ring_ops) (Rg : @Ring T ring0 ring1 add mul sub opp ring_eq Ro)
         (f0 : fac) (rest : list (nat * fac)) (i j : nat) (n : mi)
         (L : list (list nat * list mi)),
    NoDup L ->
    (forall ks ps, In (ks, ps) L <-> path_ok (map fst (rev rest)) n ks ps) ->
    lprod f0 rest i j n == bigsum (fun kp => termR f0 (rev rest) i j (fst kp) (snd kp)) L.
Proof.
  intros T ? ? ? ? ? ? ? Ro Rg f0 rest i j n L ND HL. rewrite lprod_lprodR, lprodR_paths.
  apply bigsum_same_set; auto. apply NoDup_pathsR.
  intros [ks ps]. rewrite HL. apply in_pathsR.
Qed.
Print Assumptions C18_assoc.

(* Laziness (factors = pure tables V1, V2 with `in` tests K1, K2; the state is the
   access log): every element requested by product_by_order comes from a pair
   (k, a) of the enumeration not skipped by the Hermitian rule, whose two
   complementary elements are both `in` their series, and if it was requested second
   (cost rule) the element requested first was not the sentinel zero. *)
Theorem C18_lazy :
  forall (R : Type) (radd rmul : R -> R -> R) (radj : R -> R)
         (V1 V2 : index -> sval R) (K1 K2 : index -> bool)
         (hermitian : bool) (mid s e : nat) (n : mi) (l0 : alog),
  exists l,
    snd (lpbo radd rmul radj V1 V2 K1 K2 hermitian mid s e n l0) = l0 ++ l /\
    Forall (justified V1 V2 K1 K2 (hermitian && Nat.eqb s e) s e n (enumeration mid n)) l.
Proof. intros. apply loop_lazy. Qed.
Print Assumptions C18_lazy.

(* hermitian=True, index transposition (two-factor and many-factor wrapper): valid
   for every Hermitian product P. *)
Theorem C18_herm_transpose :
  forall (T : Type) (ring0 ring1 : T) (add mul sub : T -> T -> T) (opp : T -> T)
         (ring_eq : T -> T -> Prop) (Ro : Ring_ops) (Rg : @Ring T ring0 ring1 add mul sub opp ring_eq Ro)
         (adj : T -> T),
    Proper (_==_ ==> _==_) adj ->
    (forall x y, adj (x + y) == adj x + adj y) ->
    forall (descs : list (sdesc T)) (P : index -> T) s h m a b
           (g : callback (sval T) pyerr) start end_ orders w,
      nth_error descs s = Some (SProd h m a b) ->
      mode_wraps m = true ->
      Nat.ltb end_ start = true ->
      (forall i j n, P (i :: j :: n) == adj (P (j :: i :: n))) ->
      (forall v, fst (g s (end_ :: start :: orders) w) = Ok v -> sden v == P (end_ :: start :: orders)) ->
      forall d, fst (cdp_eval tadd tmul adj descs s g (start :: end_ :: orders) w) = Ok d ->
                sden d == P (start :: end_ :: orders).
Proof.
  intros T ? ? ? ? ? ? ? Ro Rg adj Ap Aa descs P s h m a b g start end_ orders w D M L HP Hg d.
  rewrite (@cdp_eval_transposed _ tadd tmul adj descs s h m a b g start end_ orders w D M L).
  destruct (Nat.leb (rows h) end_ || Nat.leb (cols h) start); [discriminate|].
  destruct (g s (end_ :: start :: orders) w) as [[v|x|] w']; cbn [fst snd] in *; try discriminate.
  destruct (py_dagger adj v) as [d'|] eqn:Dg; intros [= <-].
  rewrite (sden_dagger Ap Aa _ Dg), (Hg v eq_refl). symmetry. apply HP.
Qed.
Print Assumptions C18_herm_transpose.

(* hermitian=True, half-sum on a diagonal block: PARTIAL - proved under the
   hypothesis that the factors are mutual adjoints, second(k,i,a) = adj first(i,k,a),
   which is narrower than the property ("a product that is Hermitian"); see the
   refuted instance below. *)
Theorem C18_herm_halfsum_partial :
  forall (T : Type) (ring0 ring1 : T) (add mul sub : T -> T -> T) (opp : T -> T)
         (ring_eq : T -> T -> Prop) (Ro : Ring_ops) (Rg : @Ring T ring0 ring1 add mul sub opp ring_eq Ro)
         (adj : T -> T),
    Proper (_==_ ==> _==_) adj ->
    (forall x y, adj (x + y) == adj x + adj y) ->
    (forall x y, adj (x * y) == adj y * adj x) ->
    (forall x, adj (adj x) == x) ->
    forall (St : Type) (has1 has2 : index -> St -> bool)
           (get1 get2 : index -> St -> res pyerr (sval T) * St)
           (Inv : St -> Prop) (F1 F2 : index -> T),
      get_ok Inv get1 F1 -> get_ok Inv get2 F2 -> has_ok Inv has1 F1 -> has_ok Inv has2 F2 ->
      forall (mid i : nat) (orders : mi) (st : St),
        (forall k a, F2 (k :: i :: a) == adj (F1 (i :: k :: a))) ->
        Inv st ->
        forall v, fst (product_by_order tadd tmul adj has1 has2 get1 get2 true mid i i orders st) = Ok v ->
                  sden v == cauchy_sum F1 F2 mid i i orders.
Proof.
  intros T ? ? ? ? ? ? ? Ro Rg adj Ap Aa Am Ai St has1 has2 get1 get2 Inv F1 F2 G1 G2 H1 H2 mid i orders st Mut I v E.
  destruct (pbo_spec Ap Aa G1 G2 H1 H2 true mid i i orders st I) as [_ Hv].
  rewrite (Hv v E), PeanoNat.Nat.eqb_refl. apply (halfsum_adjoint Ap Am Ai). intros k a _. apply Mut.
Qed.
Print Assumptions C18_herm_halfsum_partial.

(* REFUTED on the faithful model (and on the implementation: known finding
   C18-halfsum-nonadjoint): A = 1 + 2 lambda, B = 1 + lambda, 1x1 blocks of integers.
   The exact product is Hermitian and its element (0,0,1) is 3; hermitian=False
   returns 3, hermitian=True returns 2. *)
Theorem C18_herm_halfsum_refuted :
  exists A B : index -> sval BinNums.Z,
    (forall n, exact_prod A B n = zadj (exact_prod A B n)) /\
    exact_prod A B (S O) = BinNums.Zpos (BinNums.xI BinNums.xH) /\
    model_element A B false [O; O; S O] = Some (Ok (SVal (BinNums.Zpos (BinNums.xI BinNums.xH)))) /\
    model_element A B true [O; O; S O] = Some (Ok (SVal (BinNums.Zpos (BinNums.xO BinNums.xH)))).
Proof. exists refA, refB. split; [reflexivity|]. vm_compute. repeat split. Qed.
Print Assumptions C18_herm_halfsum_refuted.

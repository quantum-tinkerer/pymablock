(** C12 - Lazy and causal: order n uses only Hamiltonian terms of order <= n.

    "Defining a block diagonalization evaluates at most the unperturbed (zeroth-order) terms
    of the Hamiltonian. Requesting any output at multi-order n evaluates Hamiltonian terms only
    at orders m <= n componentwise, each at most once, and the returned value does not change
    when any other Hamiltonian term is altered."

    [C12_causal] and [C12_once] hold for EVERY program of the language (they do not depend on
    values: the soundness proof is instantiated with the trivial equality).  The clause about
    definition time (block_diagonalize touching only zeroth-order terms before it returns) is
    about the front end, not the mini-language: it is covered by the harness k_calllog only
    (the model starts from [init_state], in which exactly the zeroth-order input elements are
    evaluated).  Non-interference is stated on the specification ([C12_noninterference]) and
    transfers to the evaluator through C09_sound. *)
From Coq Require Import String List ZArith Bool Arith.
From PV.DSL Require Import Syntax Values Target Compile Interp Exec Laws Sound CompileProps Main Faults Causal Regular Examples PropsLemmas.
From PV.Gen Require Import Algorithms_gen.
Import ListNotations.
Open Scope string_scope.
Open Scope list_scope.

(** every callback event (in particular every evaluation of an input element) logged while
    serving a request at multi-order n, at any point of any history, has orders <= n *)
Theorem C12_causal :
  forall (V : Type) (O : vops V) (alg : algorithm) (W : xworld V),
  (forall x, In x (xw_inputs W) -> has_at x = false) ->
  forall fuel c rs os s1,
    run_all O alg (compile alg) W fuel (init_state alg W c) rs = (os, s1) ->
    Forall (fun o => o <> OutOfFuel) os ->
    forall fuel' tb name ix r s2,
      run O alg (compile alg) W fuel' s1 (tb, name, ix) = (r, s2) -> r <> OutOfFuel ->
      exists l, log s2 = l ++ log s1 /\
                forall e, In e l -> ole (idx_n (ev_idx e)) (idx_n ix).
Proof.
  intros V O alg W Hp fuel c rs os s1 E NO fuel' tb name ix r s2 E2 NO2.
  pose proof (trivial_laws O) as L. pose proof (trivial_world_ok O alg W Hp) as WO.
  destruct (schedule_sound L WO _ _ _ E NO) as (I1 & _ & _).
  destruct (request_sound L WO _ _ _ _ I1 E2 NO2) as (_ & _ & ((l & El & Fl) & _) & _).
  exists l. split; [exact El|]. now apply Forall_forall.
Qed.
Print Assumptions C12_causal.

Example C12_causal_example :
  let W := z_world no_faults in
  forallb (fun e => match e with EvInput _ (_, _, [n]) => Nat.leb n 2 | _ => true end)
          (log (snd (run z_ops main_alg (compile main_alg) W 80 (init_state main_alg W 0) (TTab, "H_tilde", (0, 0, [2])))))
  = true
  /\ existsb (fun e => match e with EvInput _ (_, _, [2]) => true | _ => false end)
          (log (snd (run z_ops main_alg (compile main_alg) W 80 (init_state main_alg W 0) (TTab, "H_tilde", (0, 0, [2])))))
  = true.
Proof. vm_compute. split; reflexivity. Qed.

(** in a fault-free world no input element is evaluated twice, whatever the history (inputs
    are never deleted) *)
Theorem C12_once :
  forall (V : Type) (O : vops V) (alg : algorithm) (W : xworld V),
  (forall x, In x (xw_inputs W) -> has_at x = false) ->
  (forall k, xw_fault W k = None) ->
  forall fuel c rs os s1,
    run_all O alg (compile alg) W fuel (init_state alg W c) rs = (os, s1) ->
    Forall (fun o => o <> OutOfFuel) os ->
    NoDup (input_evs (log s1)).
Proof.
  intros V O alg W Hp nf fuel c rs os s1 E NO.
  destruct (schedule_sound (trivial_laws O) (trivial_world_ok O alg W Hp) _ _ _ E NO) as (I1 & _ & _).
  exact (proj1 (inv_once I1 nf)).
Qed.
Print Assumptions C12_once.

(** two input families that agree on the cone of orders <= n give the same value at n *)
Theorem C12_noninterference :
  forall (V : Type) (O : vops V) (alg : algorithm) (W : sworld V) (env' : string -> index -> V) ix,
  (forall x ix', ole (idx_n ix') (idx_n ix) -> sw_env W x ix' = env' x ix') ->
  forall fuel k, interp O alg W fuel k ix = interp O alg (set_env W env') fuel k ix.
Proof. exact interp_cone. Qed.
Print Assumptions C12_noninterference.

Example C12_noninterference_example :
  let W := SW z_ops (z_world no_faults) z_sfn in
  let env' := fun s ix => match ix with (_, _, [3]) => 77%Z | _ => sw_env W s ix end in
  interp z_ops main_alg W 60 (KN "H_tilde") (0, 0, [2]) = interp z_ops main_alg (set_env W env') 60 (KN "H_tilde") (0, 0, [2])
  /\ interp z_ops main_alg W 60 (KN "H_tilde") (0, 0, [2]) <> None.
Proof. vm_compute. split; [reflexivity | discriminate]. Qed.

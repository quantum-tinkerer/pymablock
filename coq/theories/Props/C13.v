(** C13 - "Multiplying perturbation k by c_k multiplies every output at multi-order n by the
    product of c_k^(n_k); giving two perturbations the same parameter yields at order n the sum
    of the two-parameter results over n1+n2=n; permuting parameters permutes the order indices;
    adding a vanishing perturbation or substituting lambda -> lambda^p only relabels orders.
    These hold for H_tilde, U and U† at every order."

    Statements are about the concrete algebra T D k R0 of k-parameter formal power series of
    D x D matrices (Series/Inst.v) and ANY valuations [sol], [sol'] satisfying the equations of
    the generated Hermitian program [main_alg] for the original / the re-parametrised input,
    with the scope wired as block_diagonalize wires it (same quantification as Props/C15.v).
    Each re-parametrisation is an [LAHom] (Alg/Equivariance.v) between the algebras with k and
    k' parameters that fixes H_0; it maps the least-action transformation to one of the
    transformed problem, which is unique (Alg/Unique.v).  The conclusion relates the complete
    series, i.e. every multi-order at once. *)
Require Import Ncring String List Morphisms.
From PV.Base Require Import Classes AlgLemmas.
From PV.DSL Require Import Syntax Sem.
From PV.Gen Require Import Algorithms_gen.
From PV.Alg Require Import MainLift MainCorrect Unique Equivariance.
From PV.Series Require Import MultiIndex Inst SylvInst SymBase SymIdx SymScale SymParam SymPush SymExamples SymWitness ExecExample.
From PV.Block Require Import Mat Masks QInst.
From PV.Alg Require Import MainWitness.
Open Scope string_scope.

(** scaling: (pscale c x) n = (prod_i c_i^(n_i)) * x n  for real central scalars c_1 .. c_k *)
Theorem C13_scale :
  forall (D k : nat) (R0 : Type) (r0 r1 : R0) (add mul sub : R0 -> R0 -> R0) (opp : R0 -> R0) (req : R0 -> R0 -> Prop)
         (Ro : @Ring_ops R0 r0 r1 add mul sub opp req) (Rg : @Ring R0 r0 r1 add mul sub opp req Ro) (CS : CStar R0)
         (blk : nat -> nat) (keep : nat -> nat -> bool) (cm : nat -> bool)
         (keep_sym : forall p q, keep p q = keep q p) (keep_refl : forall p, keep p p = true)
         (keep_blk : forall p q, keep p q = true -> blk p = blk q) (cm_blk : forall p q, blk p = blk q -> cm p = cm q)
         (keep_eucl : keep_eucl_on D keep cm) (E : nat -> R0) (inv : R0 -> R0),
    (forall p q, (p < D)%nat -> (q < D)%nat -> keep p q = false -> (E p - E q) * inv (E p - E q) == 1) ->
    (forall p, conj (E p) == E p) -> Proper (_==_ ==> _==_) inv ->
    (forall x, inv (- x) == - inv x) -> (forall x, conj (inv x) == inv (conj x)) ->
    forall c : list R0, Forall (fun x => conj x == x) c ->
    let BA := series_BlockAlg D k blk keep cm keep_sym keep_blk cm_blk in
    forall (rflag rflag' : string -> T D k R0 -> T D k R0) (fenv fenv' : string -> list (T D k R0) -> T D k R0)
           (sol sol' : string -> T D k R0),
    (forall x, rflag "commuting_blocks" x == Rw x) ->
    (forall y, fenv "solve_sylvester" (cons y nil) == SylvInst.sylv E inv y) ->
    (forall x, rflag' "commuting_blocks" x == Rw x) ->
    (forall y, fenv' "solve_sylvester" (cons y nil) == SylvInst.sylv E inv y) ->
    solution (gflag_of false) rflag fenv sol main_alg ->
    solution (gflag_of false) rflag' fenv' sol' main_alg ->
    adj (sol "H") == sol "H" -> Zc (sol "H") == SylvInst.H0 D k E ->
    sol' "H" == pscale D k c (sol "H") ->
    sol' "U" == pscale D k c (sol "U") /\ sol' "U†" == pscale D k c (sol "U†")
    /\ sol' "H_tilde" == pscale D k c (sol "H_tilde").
Proof.
  intros D k R0 r0 r1 add mul sub opp req Ro Rg CS blk keep cm keep_sym keep_refl keep_blk cm_blk keep_eucl E inv
         Hinv Hreal HinvP Hopp Hconj c c_real BA rflag rflag' fenv fenv' sol sol' Hrf Hfe Hrf' Hfe' Hsol Hsol' Hh Hz Hin.
  exact (inst_transport D k blk keep cm keep_sym keep_refl keep_blk cm_blk keep_eucl E inv Hinv Hreal HinvP Hopp Hconj
           D k blk keep cm keep_sym keep_refl keep_blk cm_blk keep_eucl E inv Hinv Hreal HinvP Hopp Hconj
           (pscale D k c) (pscale_LAHom D k blk keep cm keep_sym keep_blk cm_blk c c_real) (pscale_Zc D k blk keep cm keep_sym keep_blk cm_blk c) (pscale_H0 D k c E)
           rflag fenv rflag' fenv' Hrf Hfe Hrf' Hfe' sol sol' Hsol Hsol' Hh Hz Hin).
Qed.
Print Assumptions C13_scale.

Example C13_scale_applies :
  LAHom (BA := ex_BA) (BA' := ex_BA) (pscale 3 2 (cons (QArith_base.Qmake 2 1) (cons (QArith_base.Qmake 1 2) nil)))
  /\ cpow (cons (QArith_base.Qmake 2 1) (cons (QArith_base.Qmake 1 2) nil)) (cons 3%nat (cons 1%nat nil)) == (QArith_base.Qmake 4 1).
Proof.
  split.
  - exact (pscale_LAHom 3 2 ex_blk ex_keep ex_cm ex_keep_sym ex_keep_blk ex_cm_blk _ ex_c_real).
  - vm_compute. reflexivity.
Qed.


(** permutation of the parameters: [sg] lists, for every new position, the old position it reads
    ([sg'] is the inverse permutation); (pull (pm sg) x) n = x (pm sg n), pm sg n = [n_(sg 0); n_(sg 1); ..] *)
Theorem C13_permute :
  forall (D k : nat) (R0 : Type) (r0 r1 : R0) (add mul sub : R0 -> R0 -> R0) (opp : R0 -> R0) (req : R0 -> R0 -> Prop)
         (Ro : @Ring_ops R0 r0 r1 add mul sub opp req) (Rg : @Ring R0 r0 r1 add mul sub opp req Ro) (CS : CStar R0)
         (blk : nat -> nat) (keep : nat -> nat -> bool) (cm : nat -> bool)
         (keep_sym : forall p q, keep p q = keep q p) (keep_refl : forall p, keep p p = true)
         (keep_blk : forall p q, keep p q = true -> blk p = blk q) (cm_blk : forall p q, blk p = blk q -> cm p = cm q)
         (keep_eucl : keep_eucl_on D keep cm) (E : nat -> R0) (inv : R0 -> R0),
    (forall p q, (p < D)%nat -> (q < D)%nat -> keep p q = false -> (E p - E q) * inv (E p - E q) == 1) ->
    (forall p, conj (E p) == E p) -> Proper (_==_ ==> _==_) inv ->
    (forall x, inv (- x) == - inv x) -> (forall x, conj (inv x) == inv (conj x)) ->
    forall (sg sg' : list nat) (sg_len : List.length sg = k) (sg_len' : List.length sg' = k)
           (sg_inv : List.map (fun j => List.nth j sg k) sg' = List.seq 0 k)
           (sg_inv' : List.map (fun j => List.nth j sg' k) sg = List.seq 0 k),
    let BA := series_BlockAlg D k blk keep cm keep_sym keep_blk cm_blk in
    forall (rflag rflag' : string -> T D k R0 -> T D k R0) (fenv fenv' : string -> list (T D k R0) -> T D k R0)
           (sol sol' : string -> T D k R0),
    (forall x, rflag "commuting_blocks" x == Rw x) ->
    (forall y, fenv "solve_sylvester" (cons y nil) == SylvInst.sylv E inv y) ->
    (forall x, rflag' "commuting_blocks" x == Rw x) ->
    (forall y, fenv' "solve_sylvester" (cons y nil) == SylvInst.sylv E inv y) ->
    solution (gflag_of false) rflag fenv sol main_alg ->
    solution (gflag_of false) rflag' fenv' sol' main_alg ->
    adj (sol "H") == sol "H" -> Zc (sol "H") == SylvInst.H0 D k E ->
    sol' "H" == pull D k (pm sg) (sol "H") ->
    sol' "U" == pull D k (pm sg) (sol "U") /\ sol' "U†" == pull D k (pm sg) (sol "U†")
    /\ sol' "H_tilde" == pull D k (pm sg) (sol "H_tilde").
Proof.
  intros D k R0 r0 r1 add mul sub opp req Ro Rg CS blk keep cm keep_sym keep_refl keep_blk cm_blk keep_eucl E inv
         Hinv Hreal HinvP Hopp Hconj sg sg' sg_len sg_len' sg_inv sg_inv' BA rflag rflag' fenv fenv' sol sol' Hrf Hfe Hrf' Hfe' Hsol Hsol' Hh Hz Hin.
  exact (inst_transport D k blk keep cm keep_sym keep_refl keep_blk cm_blk keep_eucl E inv Hinv Hreal HinvP Hopp Hconj
           D k blk keep cm keep_sym keep_refl keep_blk cm_blk keep_eucl E inv Hinv Hreal HinvP Hopp Hconj
           _ (pm_LAHom D k blk keep cm keep_sym keep_blk cm_blk sg sg' sg_len sg_len' sg_inv sg_inv') (pm_Zc D k blk keep cm keep_sym keep_blk cm_blk sg sg' sg_len sg_len' sg_inv')
           (pm_H0 D k sg sg' sg_len sg_len' sg_inv' E)
           rflag fenv rflag' fenv' Hrf Hfe Hrf' Hfe' sol sol' Hsol Hsol' Hh Hz Hin).
Qed.
Print Assumptions C13_permute.

Example C13_permute_applies :
  pm (cons 1%nat (cons 0%nat nil)) (cons 3%nat (cons 5%nat nil)) = cons 5%nat (cons 3%nat nil)
  /\ LAHom (BA := ex_BA) (BA' := ex_BA) (pull 3 2 (pm (cons 1%nat (cons 0%nat nil)))).
Proof.
  split. reflexivity.
  exact (pm_LAHom 3 2 ex_blk ex_keep ex_cm ex_keep_sym ex_keep_blk ex_cm_blk (cons 1%nat (cons 0%nat nil)) (cons 1%nat (cons 0%nat nil)) eq_refl eq_refl eq_refl eq_refl).
Qed.

(** a perturbation that does not occur, added as a new first parameter (k -> S k parameters):
    (vanish x) (m :: n) = x n if m = 0, and 0 otherwise - the outputs do not depend on it *)
Theorem C13_vanishing :
  forall (D k : nat) (R0 : Type) (r0 r1 : R0) (add mul sub : R0 -> R0 -> R0) (opp : R0 -> R0) (req : R0 -> R0 -> Prop)
         (Ro : @Ring_ops R0 r0 r1 add mul sub opp req) (Rg : @Ring R0 r0 r1 add mul sub opp req Ro) (CS : CStar R0)
         (blk : nat -> nat) (keep : nat -> nat -> bool) (cm : nat -> bool)
         (keep_sym : forall p q, keep p q = keep q p) (keep_refl : forall p, keep p p = true)
         (keep_blk : forall p q, keep p q = true -> blk p = blk q) (cm_blk : forall p q, blk p = blk q -> cm p = cm q)
         (keep_eucl : keep_eucl_on D keep cm) (E : nat -> R0) (inv : R0 -> R0),
    (forall p q, (p < D)%nat -> (q < D)%nat -> keep p q = false -> (E p - E q) * inv (E p - E q) == 1) ->
    (forall p, conj (E p) == E p) -> Proper (_==_ ==> _==_) inv ->
    (forall x, inv (- x) == - inv x) -> (forall x, conj (inv x) == inv (conj x)) ->
    let BAs := series_BlockAlg D k blk keep cm keep_sym keep_blk cm_blk in
    let BAt := series_BlockAlg D (S k) blk keep cm keep_sym keep_blk cm_blk in
    forall (rflag : string -> T D k R0 -> T D k R0) (fenv : string -> list (T D k R0) -> T D k R0)
           (rflag' : string -> T D (S k) R0 -> T D (S k) R0) (fenv' : string -> list (T D (S k) R0) -> T D (S k) R0)
           (sol : string -> T D k R0) (sol' : string -> T D (S k) R0),
    (forall x, rflag "commuting_blocks" x == Rw (BlockAlg := BAs) x) ->
    (forall y, fenv "solve_sylvester" (cons y nil) == SylvInst.sylv E inv y) ->
    (forall x, rflag' "commuting_blocks" x == Rw (BlockAlg := BAt) x) ->
    (forall y, fenv' "solve_sylvester" (cons y nil) == SylvInst.sylv E inv y) ->
    solution (BA := BAs) (gflag_of false) rflag fenv sol main_alg ->
    solution (BA := BAt) (gflag_of false) rflag' fenv' sol' main_alg ->
    adj (BlockAlg := BAs) (sol "H") == sol "H" -> Zc (BlockAlg := BAs) (sol "H") == SylvInst.H0 D k E ->
    sol' "H" == vanish D k (sol "H") ->
    sol' "U" == vanish D k (sol "U") /\ sol' "U†" == vanish D k (sol "U†")
    /\ sol' "H_tilde" == vanish D k (sol "H_tilde").
Proof.
  intros D k R0 r0 r1 add mul sub opp req Ro Rg CS blk keep cm keep_sym keep_refl keep_blk cm_blk keep_eucl E inv
         Hinv Hreal HinvP Hopp Hconj BAs BAt rflag fenv rflag' fenv' sol sol' Hrf Hfe Hrf' Hfe' Hsol Hsol' Hh Hz Hin.
  exact (inst_transport D k blk keep cm keep_sym keep_refl keep_blk cm_blk keep_eucl E inv Hinv Hreal HinvP Hopp Hconj
           D (S k) blk keep cm keep_sym keep_refl keep_blk cm_blk keep_eucl E inv Hinv Hreal HinvP Hopp Hconj
           (vanish D k) (vanish_LAHom D k blk keep cm keep_sym keep_blk cm_blk) (vanish_Zc D k blk keep cm keep_sym keep_blk cm_blk) (vanish_H0 D k E)
           rflag fenv rflag' fenv' Hrf Hfe Hrf' Hfe' sol sol' Hsol Hsol' Hh Hz Hin).
Qed.
Print Assumptions C13_vanishing.

Example C13_vanishing_applies :
  LAHom (BA := ex_BA) (BA' := series_BlockAlg 3 3 ex_blk ex_keep ex_cm ex_keep_sym ex_keep_blk ex_cm_blk) (vanish 3 2).
Proof. exact (vanish_LAHom 3 2 ex_blk ex_keep ex_cm ex_keep_sym ex_keep_blk ex_cm_blk). Qed.


(** two perturbations given the same parameter (the first two of k+2 parameters are merged):
    (push mrg_fib x) (m :: rest) = sum over n1 + n2 = m of x (n1 :: n2 :: rest) *)
Theorem C13_merge :
  forall (D k : nat) (R0 : Type) (r0 r1 : R0) (add mul sub : R0 -> R0 -> R0) (opp : R0 -> R0) (req : R0 -> R0 -> Prop)
         (Ro : @Ring_ops R0 r0 r1 add mul sub opp req) (Rg : @Ring R0 r0 r1 add mul sub opp req Ro) (CS : CStar R0)
         (blk : nat -> nat) (keep : nat -> nat -> bool) (cm : nat -> bool)
         (keep_sym : forall p q, keep p q = keep q p) (keep_refl : forall p, keep p p = true)
         (keep_blk : forall p q, keep p q = true -> blk p = blk q) (cm_blk : forall p q, blk p = blk q -> cm p = cm q)
         (keep_eucl : keep_eucl_on D keep cm) (E : nat -> R0) (inv : R0 -> R0),
    (forall p q, (p < D)%nat -> (q < D)%nat -> keep p q = false -> (E p - E q) * inv (E p - E q) == 1) ->
    (forall p, conj (E p) == E p) -> Proper (_==_ ==> _==_) inv ->
    (forall x, inv (- x) == - inv x) -> (forall x, conj (inv x) == inv (conj x)) ->
    let BAs := series_BlockAlg D (S (S k)) blk keep cm keep_sym keep_blk cm_blk in
    let BAt := series_BlockAlg D (S k) blk keep cm keep_sym keep_blk cm_blk in
    forall (rflag : string -> T D (S (S k)) R0 -> T D (S (S k)) R0) (fenv : string -> list (T D (S (S k)) R0) -> T D (S (S k)) R0)
           (rflag' : string -> T D (S k) R0 -> T D (S k) R0) (fenv' : string -> list (T D (S k) R0) -> T D (S k) R0)
           (sol : string -> T D (S (S k)) R0) (sol' : string -> T D (S k) R0),
    (forall x, rflag "commuting_blocks" x == Rw (BlockAlg := BAs) x) ->
    (forall y, fenv "solve_sylvester" (cons y nil) == SylvInst.sylv E inv y) ->
    (forall x, rflag' "commuting_blocks" x == Rw (BlockAlg := BAt) x) ->
    (forall y, fenv' "solve_sylvester" (cons y nil) == SylvInst.sylv E inv y) ->
    solution (BA := BAs) (gflag_of false) rflag fenv sol main_alg ->
    solution (BA := BAt) (gflag_of false) rflag' fenv' sol' main_alg ->
    adj (BlockAlg := BAs) (sol "H") == sol "H" -> Zc (BlockAlg := BAs) (sol "H") == SylvInst.H0 D (S (S k)) E ->
    sol' "H" == push D (S k) (S (S k)) mrg_fib (sol "H") ->
    sol' "U" == push D (S k) (S (S k)) mrg_fib (sol "U") /\ sol' "U†" == push D (S k) (S (S k)) mrg_fib (sol "U†")
    /\ sol' "H_tilde" == push D (S k) (S (S k)) mrg_fib (sol "H_tilde").
Proof.
  intros D k R0 r0 r1 add mul sub opp req Ro Rg CS blk keep cm keep_sym keep_refl keep_blk cm_blk keep_eucl E inv
         Hinv Hreal HinvP Hopp Hconj BAs BAt rflag fenv rflag' fenv' sol sol' Hrf Hfe Hrf' Hfe' Hsol Hsol' Hh Hz Hin.
  exact (inst_transport D (S (S k)) blk keep cm keep_sym keep_refl keep_blk cm_blk keep_eucl E inv Hinv Hreal HinvP Hopp Hconj
           D (S k) blk keep cm keep_sym keep_refl keep_blk cm_blk keep_eucl E inv Hinv Hreal HinvP Hopp Hconj
           _ (mrg_LAHom D k blk keep cm keep_sym keep_blk cm_blk) (mrg_Zc D k blk keep cm keep_sym keep_blk cm_blk) (mrg_H0 D k E)
           rflag fenv rflag' fenv' Hrf Hfe Hrf' Hfe' sol sol' Hsol Hsol' Hh Hz Hin).
Qed.
Print Assumptions C13_merge.

Example C13_merge_applies :
  mrg_fib (cons 2%nat (cons 7%nat nil))
  = cons (cons O (cons 2%nat (cons 7%nat nil))) (cons (cons 1%nat (cons 1%nat (cons 7%nat nil))) (cons (cons 2%nat (cons O (cons 7%nat nil))) nil))
  /\ LAHom (BA := series_BlockAlg 3 2 ex_blk ex_keep ex_cm ex_keep_sym ex_keep_blk ex_cm_blk)
           (BA' := series_BlockAlg 3 1 ex_blk ex_keep ex_cm ex_keep_sym ex_keep_blk ex_cm_blk) (push 3 1 2 mrg_fib).
Proof.
  split. reflexivity.
  exact (mrg_LAHom 3 0 ex_blk ex_keep ex_cm ex_keep_sym ex_keep_blk ex_cm_blk).
Qed.

(** substitution lambda -> lambda^p (p >= 1) in the first parameter: the term of order n moves to
    order p * n:  (push (pw_fib p) x) (m :: rest) = x (m / p :: rest) if p divides m, and 0 otherwise *)
Theorem C13_power :
  forall (D k : nat) (R0 : Type) (r0 r1 : R0) (add mul sub : R0 -> R0 -> R0) (opp : R0 -> R0) (req : R0 -> R0 -> Prop)
         (Ro : @Ring_ops R0 r0 r1 add mul sub opp req) (Rg : @Ring R0 r0 r1 add mul sub opp req Ro) (CS : CStar R0)
         (blk : nat -> nat) (keep : nat -> nat -> bool) (cm : nat -> bool)
         (keep_sym : forall p q, keep p q = keep q p) (keep_refl : forall p, keep p p = true)
         (keep_blk : forall p q, keep p q = true -> blk p = blk q) (cm_blk : forall p q, blk p = blk q -> cm p = cm q)
         (keep_eucl : keep_eucl_on D keep cm) (E : nat -> R0) (inv : R0 -> R0),
    (forall p q, (p < D)%nat -> (q < D)%nat -> keep p q = false -> (E p - E q) * inv (E p - E q) == 1) ->
    (forall p, conj (E p) == E p) -> Proper (_==_ ==> _==_) inv ->
    (forall x, inv (- x) == - inv x) -> (forall x, conj (inv x) == inv (conj x)) ->
    forall (p : nat) (p_pos : (0 < p)%nat),
    let BA := series_BlockAlg D k blk keep cm keep_sym keep_blk cm_blk in
    forall (rflag rflag' : string -> T D k R0 -> T D k R0) (fenv fenv' : string -> list (T D k R0) -> T D k R0)
           (sol sol' : string -> T D k R0),
    (forall x, rflag "commuting_blocks" x == Rw x) ->
    (forall y, fenv "solve_sylvester" (cons y nil) == SylvInst.sylv E inv y) ->
    (forall x, rflag' "commuting_blocks" x == Rw x) ->
    (forall y, fenv' "solve_sylvester" (cons y nil) == SylvInst.sylv E inv y) ->
    solution (gflag_of false) rflag fenv sol main_alg ->
    solution (gflag_of false) rflag' fenv' sol' main_alg ->
    adj (sol "H") == sol "H" -> Zc (sol "H") == SylvInst.H0 D k E ->
    sol' "H" == push D k k (pw_fib p) (sol "H") ->
    sol' "U" == push D k k (pw_fib p) (sol "U") /\ sol' "U†" == push D k k (pw_fib p) (sol "U†")
    /\ sol' "H_tilde" == push D k k (pw_fib p) (sol "H_tilde").
Proof.
  intros D k R0 r0 r1 add mul sub opp req Ro Rg CS blk keep cm keep_sym keep_refl keep_blk cm_blk keep_eucl E inv
         Hinv Hreal HinvP Hopp Hconj p p_pos BA rflag rflag' fenv fenv' sol sol' Hrf Hfe Hrf' Hfe' Hsol Hsol' Hh Hz Hin.
  exact (inst_transport D k blk keep cm keep_sym keep_refl keep_blk cm_blk keep_eucl E inv Hinv Hreal HinvP Hopp Hconj
           D k blk keep cm keep_sym keep_refl keep_blk cm_blk keep_eucl E inv Hinv Hreal HinvP Hopp Hconj
           _ (pw_LAHom D k blk keep cm keep_sym keep_blk cm_blk p p_pos) (pw_Zc D k blk keep cm keep_sym keep_blk cm_blk p p_pos) (pw_H0 D k p p_pos E)
           rflag fenv rflag' fenv' Hrf Hfe Hrf' Hfe' sol sol' Hsol Hsol' Hh Hz Hin).
Qed.
Print Assumptions C13_power.

Example C13_power_applies :
  pw_fib 2 (cons 4%nat (cons 1%nat nil)) = cons (cons 2%nat (cons 1%nat nil)) nil
  /\ pw_fib 2 (cons 3%nat (cons 1%nat nil)) = nil.
Proof. split; reflexivity. Qed.

(** the structural hypotheses hold for the example instance (3 states, blocks {0,1} | {2},
    energies 0, 1, 2 over Q, solver = field inverse) *)
Example C13_instance_hypotheses :
  (forall p q, (p < 3)%nat -> (q < 3)%nat -> ex_keep p q = false ->
               (ex_E p - ex_E q) * ex_inv (ex_E p - ex_E q) == 1)
  /\ (forall p, conj (ex_E p) == ex_E p) /\ Proper (_==_ ==> _==_) ex_inv
  /\ (forall x, ex_inv (- x) == - ex_inv x) /\ (forall x, conj (ex_inv x) == ex_inv (conj x))
  /\ keep_eucl_on 3 ex_keep ex_cm.
Proof.
  exact (Logic.conj ex_inv_spec (Logic.conj ex_E_real (Logic.conj ex_inv_P (Logic.conj ex_inv_opp
           (Logic.conj ex_inv_conj ex_eucl))))).
Qed.

(** computational confirmation on the implementation's values (Alg/MainWitness.v, 4 states, 3 blocks,
    2 parameters, order <= 2): the tables rescaled with c = (2, -1/2), and the tables with the two
    parameters exchanged, again satisfy every equation of [main_alg] *)
Example C13_witness :
  wit_check main_wit_sols = true
  /\ wit_check (smap (fun n z => QLemmas.gq_mul (cpow wit_c n) z) main_wit_sols) = true
  /\ wit_check (skey (fun n => match n with cons a (cons b nil) => cons b (cons a nil) | _ => n end) main_wit_sols) = true.
Proof. exact (Logic.conj wit_base (Logic.conj wit_scale wit_swap)). Qed.

(** * Non-Hermitian mode (hermitian=False, program [nonhermitian_alg])

    The same relations for ANY solutions [sol], [sol'] of the generated non-Hermitian program.  They
    are named _partial because of ONE extra hypothesis, needed on both sides: kept matrix elements
    connect equal unperturbed energies ([kept_equal]; for the re-parametrisations the two sides share
    the mask and the energies, so it is stated once).  Outside this class the non-Hermitian program
    does not satisfy its own defining conditions (known finding C05-kept-distinct-energies), so
    uniqueness cannot be applied; the oracle tests the relations there as well.  Not assumed: real
    energies, Hermitian input, real scalars.  [U†] names the third output (U_inv). *)
From PV.Alg Require Import UniqueNH NonHerm.

(** scaling by arbitrary (complex) scalars c_1 .. c_k *)
Theorem C13_scale_nh_partial :
  forall (D k : nat) (R0 : Type) (r0 r1 : R0) (add mul sub : R0 -> R0 -> R0) (opp : R0 -> R0) (req : R0 -> R0 -> Prop)
         (Ro : @Ring_ops R0 r0 r1 add mul sub opp req) (Rg : @Ring R0 r0 r1 add mul sub opp req Ro) (CS : CStar R0)
         (blk : nat -> nat) (keep : nat -> nat -> bool) (cm : nat -> bool)
         (keep_sym : forall p q, keep p q = keep q p) (keep_refl : forall p, keep p p = true)
         (keep_blk : forall p q, keep p q = true -> blk p = blk q) (cm_blk : forall p q, blk p = blk q -> cm p = cm q)
         (E : nat -> R0) (inv : R0 -> R0)
         (inv_spec : forall p q, (p < D)%nat -> (q < D)%nat -> keep p q = false -> (E p - E q) * inv (E p - E q) == 1)
         (kept_equal : forall p q, (p < D)%nat -> (q < D)%nat -> keep p q = true -> E p == E q)
         (c : list R0),
    let BAs := series_BlockAlg D k blk keep cm keep_sym keep_blk cm_blk in
    let BAt := series_BlockAlg D k blk keep cm keep_sym keep_blk cm_blk in
    forall (gflag gflag' : string -> bool)
           (rflag : string -> T D k R0 -> T D k R0) (fenv : string -> list (T D k R0) -> T D k R0)
           (rflag' : string -> T D k R0 -> T D k R0) (fenv' : string -> list (T D k R0) -> T D k R0)
           (sol : string -> T D k R0) (sol' : string -> T D k R0),
    (forall y, fenv "solve_sylvester" (cons y nil) == SylvInst.sylv E inv y) ->
    (forall y, fenv' "solve_sylvester" (cons y nil) == SylvInst.sylv E inv y) ->
    solution (BA := BAs) gflag rflag fenv sol nonhermitian_alg ->
    solution (BA := BAt) gflag' rflag' fenv' sol' nonhermitian_alg ->
    Zc (BlockAlg := BAs) (sol "H") == SylvInst.H0 D k E ->
    sol' "H" == pscale D k c (sol "H") ->
    sol' "U" == pscale D k c (sol "U") /\ sol' "U†" == pscale D k c (sol "U†")
    /\ sol' "H_tilde" == pscale D k c (sol "H_tilde").
Proof.
  intros D k R0 r0 r1 add mul sub opp req Ro Rg CS blk keep cm keep_sym keep_refl keep_blk cm_blk E inv inv_spec kept_equal c BAs BAt gflag gflag' rflag fenv rflag' fenv' sol sol' Hfe Hfe' Hsol Hsol' Hz Hin.
  exact (inst_transport_nh D k blk keep cm keep_sym keep_refl keep_blk cm_blk E inv inv_spec kept_equal
           D k blk keep cm keep_sym keep_refl keep_blk cm_blk E inv inv_spec kept_equal
           (pscale D k c) (pscale_SGHom D k blk keep cm keep_sym keep_blk cm_blk c) (pscale_Zc D k blk keep cm keep_sym keep_blk cm_blk c) (pscale_H0 D k c E)
           gflag gflag' rflag fenv rflag' fenv' Hfe Hfe' sol sol' Hsol Hsol' Hz Hin).
Qed.
Print Assumptions C13_scale_nh_partial.

(** permutation of the parameters *)
Theorem C13_permute_nh_partial :
  forall (D k : nat) (R0 : Type) (r0 r1 : R0) (add mul sub : R0 -> R0 -> R0) (opp : R0 -> R0) (req : R0 -> R0 -> Prop)
         (Ro : @Ring_ops R0 r0 r1 add mul sub opp req) (Rg : @Ring R0 r0 r1 add mul sub opp req Ro) (CS : CStar R0)
         (blk : nat -> nat) (keep : nat -> nat -> bool) (cm : nat -> bool)
         (keep_sym : forall p q, keep p q = keep q p) (keep_refl : forall p, keep p p = true)
         (keep_blk : forall p q, keep p q = true -> blk p = blk q) (cm_blk : forall p q, blk p = blk q -> cm p = cm q)
         (E : nat -> R0) (inv : R0 -> R0)
         (inv_spec : forall p q, (p < D)%nat -> (q < D)%nat -> keep p q = false -> (E p - E q) * inv (E p - E q) == 1)
         (kept_equal : forall p q, (p < D)%nat -> (q < D)%nat -> keep p q = true -> E p == E q)
         (sg sg' : list nat) (sg_len : List.length sg = k) (sg_len' : List.length sg' = k)
         (sg_inv : List.map (fun j => List.nth j sg k) sg' = List.seq 0 k)
         (sg_inv' : List.map (fun j => List.nth j sg' k) sg = List.seq 0 k),
    let BAs := series_BlockAlg D k blk keep cm keep_sym keep_blk cm_blk in
    let BAt := series_BlockAlg D k blk keep cm keep_sym keep_blk cm_blk in
    forall (gflag gflag' : string -> bool)
           (rflag : string -> T D k R0 -> T D k R0) (fenv : string -> list (T D k R0) -> T D k R0)
           (rflag' : string -> T D k R0 -> T D k R0) (fenv' : string -> list (T D k R0) -> T D k R0)
           (sol : string -> T D k R0) (sol' : string -> T D k R0),
    (forall y, fenv "solve_sylvester" (cons y nil) == SylvInst.sylv E inv y) ->
    (forall y, fenv' "solve_sylvester" (cons y nil) == SylvInst.sylv E inv y) ->
    solution (BA := BAs) gflag rflag fenv sol nonhermitian_alg ->
    solution (BA := BAt) gflag' rflag' fenv' sol' nonhermitian_alg ->
    Zc (BlockAlg := BAs) (sol "H") == SylvInst.H0 D k E ->
    sol' "H" == pull D k (pm sg) (sol "H") ->
    sol' "U" == pull D k (pm sg) (sol "U") /\ sol' "U†" == pull D k (pm sg) (sol "U†")
    /\ sol' "H_tilde" == pull D k (pm sg) (sol "H_tilde").
Proof.
  intros D k R0 r0 r1 add mul sub opp req Ro Rg CS blk keep cm keep_sym keep_refl keep_blk cm_blk E inv inv_spec kept_equal sg sg' sg_len sg_len' sg_inv sg_inv' BAs BAt gflag gflag' rflag fenv rflag' fenv' sol sol' Hfe Hfe' Hsol Hsol' Hz Hin.
  exact (inst_transport_nh D k blk keep cm keep_sym keep_refl keep_blk cm_blk E inv inv_spec kept_equal
           D k blk keep cm keep_sym keep_refl keep_blk cm_blk E inv inv_spec kept_equal
           _ (LAHom_SGHom _ (pm_LAHom D k blk keep cm keep_sym keep_blk cm_blk sg sg' sg_len sg_len' sg_inv sg_inv')) (pm_Zc D k blk keep cm keep_sym keep_blk cm_blk sg sg' sg_len sg_len' sg_inv')
           (pm_H0 D k sg sg' sg_len sg_len' sg_inv' E)
           gflag gflag' rflag fenv rflag' fenv' Hfe Hfe' sol sol' Hsol Hsol' Hz Hin).
Qed.
Print Assumptions C13_permute_nh_partial.

(** a vanishing perturbation added as new first parameter *)
Theorem C13_vanishing_nh_partial :
  forall (D k : nat) (R0 : Type) (r0 r1 : R0) (add mul sub : R0 -> R0 -> R0) (opp : R0 -> R0) (req : R0 -> R0 -> Prop)
         (Ro : @Ring_ops R0 r0 r1 add mul sub opp req) (Rg : @Ring R0 r0 r1 add mul sub opp req Ro) (CS : CStar R0)
         (blk : nat -> nat) (keep : nat -> nat -> bool) (cm : nat -> bool)
         (keep_sym : forall p q, keep p q = keep q p) (keep_refl : forall p, keep p p = true)
         (keep_blk : forall p q, keep p q = true -> blk p = blk q) (cm_blk : forall p q, blk p = blk q -> cm p = cm q)
         (E : nat -> R0) (inv : R0 -> R0)
         (inv_spec : forall p q, (p < D)%nat -> (q < D)%nat -> keep p q = false -> (E p - E q) * inv (E p - E q) == 1)
         (kept_equal : forall p q, (p < D)%nat -> (q < D)%nat -> keep p q = true -> E p == E q),
    let BAs := series_BlockAlg D k blk keep cm keep_sym keep_blk cm_blk in
    let BAt := series_BlockAlg D (S k) blk keep cm keep_sym keep_blk cm_blk in
    forall (gflag gflag' : string -> bool)
           (rflag : string -> T D k R0 -> T D k R0) (fenv : string -> list (T D k R0) -> T D k R0)
           (rflag' : string -> T D (S k) R0 -> T D (S k) R0) (fenv' : string -> list (T D (S k) R0) -> T D (S k) R0)
           (sol : string -> T D k R0) (sol' : string -> T D (S k) R0),
    (forall y, fenv "solve_sylvester" (cons y nil) == SylvInst.sylv E inv y) ->
    (forall y, fenv' "solve_sylvester" (cons y nil) == SylvInst.sylv E inv y) ->
    solution (BA := BAs) gflag rflag fenv sol nonhermitian_alg ->
    solution (BA := BAt) gflag' rflag' fenv' sol' nonhermitian_alg ->
    Zc (BlockAlg := BAs) (sol "H") == SylvInst.H0 D k E ->
    sol' "H" == vanish D k (sol "H") ->
    sol' "U" == vanish D k (sol "U") /\ sol' "U†" == vanish D k (sol "U†")
    /\ sol' "H_tilde" == vanish D k (sol "H_tilde").
Proof.
  intros D k R0 r0 r1 add mul sub opp req Ro Rg CS blk keep cm keep_sym keep_refl keep_blk cm_blk E inv inv_spec kept_equal BAs BAt gflag gflag' rflag fenv rflag' fenv' sol sol' Hfe Hfe' Hsol Hsol' Hz Hin.
  exact (inst_transport_nh D k blk keep cm keep_sym keep_refl keep_blk cm_blk E inv inv_spec kept_equal
           D (S k) blk keep cm keep_sym keep_refl keep_blk cm_blk E inv inv_spec kept_equal
           (vanish D k) (LAHom_SGHom _ (vanish_LAHom D k blk keep cm keep_sym keep_blk cm_blk)) (vanish_Zc D k blk keep cm keep_sym keep_blk cm_blk) (vanish_H0 D k E)
           gflag gflag' rflag fenv rflag' fenv' Hfe Hfe' sol sol' Hsol Hsol' Hz Hin).
Qed.
Print Assumptions C13_vanishing_nh_partial.

(** the first two of k+2 parameters given the same name *)
Theorem C13_merge_nh_partial :
  forall (D k : nat) (R0 : Type) (r0 r1 : R0) (add mul sub : R0 -> R0 -> R0) (opp : R0 -> R0) (req : R0 -> R0 -> Prop)
         (Ro : @Ring_ops R0 r0 r1 add mul sub opp req) (Rg : @Ring R0 r0 r1 add mul sub opp req Ro) (CS : CStar R0)
         (blk : nat -> nat) (keep : nat -> nat -> bool) (cm : nat -> bool)
         (keep_sym : forall p q, keep p q = keep q p) (keep_refl : forall p, keep p p = true)
         (keep_blk : forall p q, keep p q = true -> blk p = blk q) (cm_blk : forall p q, blk p = blk q -> cm p = cm q)
         (E : nat -> R0) (inv : R0 -> R0)
         (inv_spec : forall p q, (p < D)%nat -> (q < D)%nat -> keep p q = false -> (E p - E q) * inv (E p - E q) == 1)
         (kept_equal : forall p q, (p < D)%nat -> (q < D)%nat -> keep p q = true -> E p == E q),
    let BAs := series_BlockAlg D (S (S k)) blk keep cm keep_sym keep_blk cm_blk in
    let BAt := series_BlockAlg D (S k) blk keep cm keep_sym keep_blk cm_blk in
    forall (gflag gflag' : string -> bool)
           (rflag : string -> T D (S (S k)) R0 -> T D (S (S k)) R0) (fenv : string -> list (T D (S (S k)) R0) -> T D (S (S k)) R0)
           (rflag' : string -> T D (S k) R0 -> T D (S k) R0) (fenv' : string -> list (T D (S k) R0) -> T D (S k) R0)
           (sol : string -> T D (S (S k)) R0) (sol' : string -> T D (S k) R0),
    (forall y, fenv "solve_sylvester" (cons y nil) == SylvInst.sylv E inv y) ->
    (forall y, fenv' "solve_sylvester" (cons y nil) == SylvInst.sylv E inv y) ->
    solution (BA := BAs) gflag rflag fenv sol nonhermitian_alg ->
    solution (BA := BAt) gflag' rflag' fenv' sol' nonhermitian_alg ->
    Zc (BlockAlg := BAs) (sol "H") == SylvInst.H0 D (S (S k)) E ->
    sol' "H" == push D (S k) (S (S k)) mrg_fib (sol "H") ->
    sol' "U" == push D (S k) (S (S k)) mrg_fib (sol "U") /\ sol' "U†" == push D (S k) (S (S k)) mrg_fib (sol "U†")
    /\ sol' "H_tilde" == push D (S k) (S (S k)) mrg_fib (sol "H_tilde").
Proof.
  intros D k R0 r0 r1 add mul sub opp req Ro Rg CS blk keep cm keep_sym keep_refl keep_blk cm_blk E inv inv_spec kept_equal BAs BAt gflag gflag' rflag fenv rflag' fenv' sol sol' Hfe Hfe' Hsol Hsol' Hz Hin.
  exact (inst_transport_nh D (S (S k)) blk keep cm keep_sym keep_refl keep_blk cm_blk E inv inv_spec kept_equal
           D (S k) blk keep cm keep_sym keep_refl keep_blk cm_blk E inv inv_spec kept_equal
           _ (LAHom_SGHom _ (mrg_LAHom D k blk keep cm keep_sym keep_blk cm_blk)) (mrg_Zc D k blk keep cm keep_sym keep_blk cm_blk) (mrg_H0 D k E)
           gflag gflag' rflag fenv rflag' fenv' Hfe Hfe' sol sol' Hsol Hsol' Hz Hin).
Qed.
Print Assumptions C13_merge_nh_partial.

(** lambda -> lambda^p in the first parameter *)
Theorem C13_power_nh_partial :
  forall (D k : nat) (R0 : Type) (r0 r1 : R0) (add mul sub : R0 -> R0 -> R0) (opp : R0 -> R0) (req : R0 -> R0 -> Prop)
         (Ro : @Ring_ops R0 r0 r1 add mul sub opp req) (Rg : @Ring R0 r0 r1 add mul sub opp req Ro) (CS : CStar R0)
         (blk : nat -> nat) (keep : nat -> nat -> bool) (cm : nat -> bool)
         (keep_sym : forall p q, keep p q = keep q p) (keep_refl : forall p, keep p p = true)
         (keep_blk : forall p q, keep p q = true -> blk p = blk q) (cm_blk : forall p q, blk p = blk q -> cm p = cm q)
         (E : nat -> R0) (inv : R0 -> R0)
         (inv_spec : forall p q, (p < D)%nat -> (q < D)%nat -> keep p q = false -> (E p - E q) * inv (E p - E q) == 1)
         (kept_equal : forall p q, (p < D)%nat -> (q < D)%nat -> keep p q = true -> E p == E q)
         (p : nat) (p_pos : (0 < p)%nat),
    let BAs := series_BlockAlg D k blk keep cm keep_sym keep_blk cm_blk in
    let BAt := series_BlockAlg D k blk keep cm keep_sym keep_blk cm_blk in
    forall (gflag gflag' : string -> bool)
           (rflag : string -> T D k R0 -> T D k R0) (fenv : string -> list (T D k R0) -> T D k R0)
           (rflag' : string -> T D k R0 -> T D k R0) (fenv' : string -> list (T D k R0) -> T D k R0)
           (sol : string -> T D k R0) (sol' : string -> T D k R0),
    (forall y, fenv "solve_sylvester" (cons y nil) == SylvInst.sylv E inv y) ->
    (forall y, fenv' "solve_sylvester" (cons y nil) == SylvInst.sylv E inv y) ->
    solution (BA := BAs) gflag rflag fenv sol nonhermitian_alg ->
    solution (BA := BAt) gflag' rflag' fenv' sol' nonhermitian_alg ->
    Zc (BlockAlg := BAs) (sol "H") == SylvInst.H0 D k E ->
    sol' "H" == push D k k (pw_fib p) (sol "H") ->
    sol' "U" == push D k k (pw_fib p) (sol "U") /\ sol' "U†" == push D k k (pw_fib p) (sol "U†")
    /\ sol' "H_tilde" == push D k k (pw_fib p) (sol "H_tilde").
Proof.
  intros D k R0 r0 r1 add mul sub opp req Ro Rg CS blk keep cm keep_sym keep_refl keep_blk cm_blk E inv inv_spec kept_equal p p_pos BAs BAt gflag gflag' rflag fenv rflag' fenv' sol sol' Hfe Hfe' Hsol Hsol' Hz Hin.
  exact (inst_transport_nh D k blk keep cm keep_sym keep_refl keep_blk cm_blk E inv inv_spec kept_equal
           D k blk keep cm keep_sym keep_refl keep_blk cm_blk E inv inv_spec kept_equal
           _ (LAHom_SGHom _ (pw_LAHom D k blk keep cm keep_sym keep_blk cm_blk p p_pos)) (pw_Zc D k blk keep cm keep_sym keep_blk cm_blk p p_pos) (pw_H0 D k p p_pos E)
           gflag gflag' rflag fenv rflag' fenv' Hfe Hfe' sol sol' Hsol Hsol' Hz Hin).
Qed.
Print Assumptions C13_power_nh_partial.

(** non-vacuity: scaling by c = (2, 1/2) and the merge of two parameters are [SGHom]s on the rational
    example instance *)
Example C13_nh_applies :
  SGHom (BA := ex_BA) (BA' := ex_BA) (pscale 3 2 (cons (QArith_base.Qmake 2 1) (cons (QArith_base.Qmake 1 2) nil)))
  /\ SGHom (BA := series_BlockAlg 3 2 ex_blk ex_keep ex_cm ex_keep_sym ex_keep_blk ex_cm_blk)
           (BA' := series_BlockAlg 3 1 ex_blk ex_keep ex_cm ex_keep_sym ex_keep_blk ex_cm_blk) (push 3 1 2 mrg_fib).
Proof.
  split.
  - exact (pscale_SGHom 3 2 ex_blk ex_keep ex_cm ex_keep_sym ex_keep_blk ex_cm_blk _).
  - exact (LAHom_SGHom _ (mrg_LAHom 3 0 ex_blk ex_keep ex_cm ex_keep_sym ex_keep_blk ex_cm_blk)).
Qed.

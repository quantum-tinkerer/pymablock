(** C07 (Fock-space part) - the theorems of C01/C02/C03 instantiated at operators on a
    countable Fock basis.

    Property text (properties.jsonl, id C07): "... each order of the operator-valued H_tilde
    and U returned by block_diagonalize has the same matrix elements ..." - the correctness
    statements of the Hermitian algorithm hold for operator-valued (second-quantised)
    Hamiltonians, not only for finite matrices.

    Algebra (Series/InstRCF.v, [rcf_BlockAlg]): multi-index formal power series in k
    parameters whose coefficients are INFINITE matrices indexed by nat x nat over a
    commutative star-ring R0 that are row-finite and column-finite (Block/RCF.v) - every
    polynomial in creation / annihilation operators acting on a countable Fock basis is one -
    with the Cauchy product, entry-wise conjugate transpose, a block labelling [blk] of the
    basis, a symmetric reflexive kept mask [keep] inside the blocks that is "euclidean" on
    the rows flagged commuting, a diagonal unperturbed Hamiltonian diag(E) with real
    energies and an inverse [inv] of the energy differences of all eliminated pairs
    (keep p q = false), used by the entry-wise solver [sylvF].  [solution ... main_alg] is
    the meaning (DSL/Sem.v) of the program GENERATED from /repo/pymablock/algorithms.py.
    All orders, all basis states at once; two_block_optimized = False.
    Not formalised: that the NumberOrderedForm results of the code assemble into an element of this
    algebra with [Sel] = apply_mask and [sylvF] = the scalar solver, and band locality of the truncation
    (tied by the harness k_nof and the oracle o_fock only). *)
Require Import Ncring String List Morphisms.
From PV.Base Require Import Classes AlgLemmas.
From PV.DSL Require Import Syntax Sem.
From PV.Gen Require Import Algorithms_gen.
From PV.Alg Require Import MainLift MainCorrect Unique.
From PV.Block Require Import Mat RCF.
From PV.Series Require Import InstRCF FockCorrect.
Open Scope string_scope.

(** C01: the kept matrix elements of U† H U are those of H_tilde *)
Theorem C07_fock_kept :
  forall (k : nat) (R0 : Type) (r0 r1 : R0) (add mul sub : R0 -> R0 -> R0) (opp : R0 -> R0)
         (req : R0 -> R0 -> Prop) (Ro : @Ring_ops R0 r0 r1 add mul sub opp req)
         (Rg : @Ring R0 r0 r1 add mul sub opp req Ro) (CS : CStar R0)
         (blk : nat -> nat) (keep : nat -> nat -> bool) (cm : nat -> bool)
         (keep_sym : forall p q, keep p q = keep q p) (keep_refl : forall p, keep p p = true)
         (keep_blk : forall p q, keep p q = true -> blk p = blk q)
         (cm_blk : forall p q, blk p = blk q -> cm p = cm q)
         (keep_eucl : forall p q r, cm p = true -> keep p q = true -> keep r q = true -> keep p r = true)
         (E : nat -> R0) (inv : R0 -> R0),
    (forall p q, keep p q = false -> (E p - E q) * inv (E p - E q) == 1) ->
    (forall p, conj (E p) == E p) -> Proper (_==_ ==> _==_) inv ->
    (forall x, inv (- x) == - inv x) -> (forall x, conj (inv x) == inv (conj x)) ->
    let BA := rcf_BlockAlg k blk keep cm keep_sym keep_blk cm_blk in
    forall (rflag : string -> TF k R0 -> TF k R0) (fenv : string -> list (TF k R0) -> TF k R0)
           (sol : string -> TF k R0),
    (forall x, rflag "commuting_blocks" x == Rw x) ->
    (forall y, fenv "solve_sylvester" (cons y nil) == sylvF E inv y) ->
    adj (sol "H") == sol "H" -> Zc (sol "H") == H0F k E ->
    solution (gflag_of false) rflag fenv sol main_alg ->
    Sel (sol "U†" * sol "H" * sol "U") == sol "H_tilde".
Proof.
  intros k R0 r0 r1 add mul sub opp req Ro Rg CS blk keep cm keep_sym keep_refl keep_blk cm_blk
         keep_eucl E inv Hinv Hreal HinvP Hopp Hconj BA rflag fenv sol Hrf Hfe Hh Hz Hsol.
  exact (fock_kept k blk keep cm keep_sym keep_refl keep_blk cm_blk keep_eucl E inv Hinv Hreal HinvP Hopp Hconj
           rflag fenv sol Hrf Hfe Hh Hz Hsol).
Qed.
Print Assumptions C07_fock_kept.

(** C01: the matrix elements selected for elimination vanish in U† H U *)
Theorem C07_fock_eliminated :
  forall (k : nat) (R0 : Type) (r0 r1 : R0) (add mul sub : R0 -> R0 -> R0) (opp : R0 -> R0)
         (req : R0 -> R0 -> Prop) (Ro : @Ring_ops R0 r0 r1 add mul sub opp req)
         (Rg : @Ring R0 r0 r1 add mul sub opp req Ro) (CS : CStar R0)
         (blk : nat -> nat) (keep : nat -> nat -> bool) (cm : nat -> bool)
         (keep_sym : forall p q, keep p q = keep q p) (keep_refl : forall p, keep p p = true)
         (keep_blk : forall p q, keep p q = true -> blk p = blk q)
         (cm_blk : forall p q, blk p = blk q -> cm p = cm q)
         (keep_eucl : forall p q r, cm p = true -> keep p q = true -> keep r q = true -> keep p r = true)
         (E : nat -> R0) (inv : R0 -> R0),
    (forall p q, keep p q = false -> (E p - E q) * inv (E p - E q) == 1) ->
    (forall p, conj (E p) == E p) -> Proper (_==_ ==> _==_) inv ->
    (forall x, inv (- x) == - inv x) -> (forall x, conj (inv x) == inv (conj x)) ->
    let BA := rcf_BlockAlg k blk keep cm keep_sym keep_blk cm_blk in
    forall (rflag : string -> TF k R0 -> TF k R0) (fenv : string -> list (TF k R0) -> TF k R0)
           (sol : string -> TF k R0),
    (forall x, rflag "commuting_blocks" x == Rw x) ->
    (forall y, fenv "solve_sylvester" (cons y nil) == sylvF E inv y) ->
    adj (sol "H") == sol "H" -> Zc (sol "H") == H0F k E ->
    solution (gflag_of false) rflag fenv sol main_alg ->
    Rp (sol "U†" * sol "H" * sol "U") == 0.
Proof.
  intros k R0 r0 r1 add mul sub opp req Ro Rg CS blk keep cm keep_sym keep_refl keep_blk cm_blk
         keep_eucl E inv Hinv Hreal HinvP Hopp Hconj BA rflag fenv sol Hrf Hfe Hh Hz Hsol.
  exact (fock_eliminated k blk keep cm keep_sym keep_refl keep_blk cm_blk keep_eucl E inv Hinv Hreal HinvP Hopp Hconj
           rflag fenv sol Hrf Hfe Hh Hz Hsol).
Qed.
Print Assumptions C07_fock_eliminated.

(** C02: U is unitary at every order (both products) *)
Theorem C07_fock_unitary :
  forall (k : nat) (R0 : Type) (r0 r1 : R0) (add mul sub : R0 -> R0 -> R0) (opp : R0 -> R0)
         (req : R0 -> R0 -> Prop) (Ro : @Ring_ops R0 r0 r1 add mul sub opp req)
         (Rg : @Ring R0 r0 r1 add mul sub opp req Ro) (CS : CStar R0)
         (blk : nat -> nat) (keep : nat -> nat -> bool) (cm : nat -> bool)
         (keep_sym : forall p q, keep p q = keep q p) (keep_refl : forall p, keep p p = true)
         (keep_blk : forall p q, keep p q = true -> blk p = blk q)
         (cm_blk : forall p q, blk p = blk q -> cm p = cm q)
         (keep_eucl : forall p q r, cm p = true -> keep p q = true -> keep r q = true -> keep p r = true)
         (E : nat -> R0) (inv : R0 -> R0),
    (forall p q, keep p q = false -> (E p - E q) * inv (E p - E q) == 1) ->
    (forall p, conj (E p) == E p) -> Proper (_==_ ==> _==_) inv ->
    (forall x, inv (- x) == - inv x) -> (forall x, conj (inv x) == inv (conj x)) ->
    let BA := rcf_BlockAlg k blk keep cm keep_sym keep_blk cm_blk in
    forall (rflag : string -> TF k R0 -> TF k R0) (fenv : string -> list (TF k R0) -> TF k R0)
           (sol : string -> TF k R0),
    (forall x, rflag "commuting_blocks" x == Rw x) ->
    (forall y, fenv "solve_sylvester" (cons y nil) == sylvF E inv y) ->
    adj (sol "H") == sol "H" -> Zc (sol "H") == H0F k E ->
    solution (gflag_of false) rflag fenv sol main_alg ->
    sol "U†" * sol "U" == 1 /\ sol "U" * sol "U†" == 1.
Proof.
  intros k R0 r0 r1 add mul sub opp req Ro Rg CS blk keep cm keep_sym keep_refl keep_blk cm_blk
         keep_eucl E inv Hinv Hreal HinvP Hopp Hconj BA rflag fenv sol Hrf Hfe Hh Hz Hsol.
  exact (fock_unitary k blk keep cm keep_sym keep_refl keep_blk cm_blk keep_eucl E inv Hinv Hreal HinvP Hopp Hconj
           rflag fenv sol Hrf Hfe Hh Hz Hsol).
Qed.
Print Assumptions C07_fock_unitary.

(** C02: U† is the adjoint of U and H_tilde is Hermitian *)
Theorem C07_fock_adjoint :
  forall (k : nat) (R0 : Type) (r0 r1 : R0) (add mul sub : R0 -> R0 -> R0) (opp : R0 -> R0)
         (req : R0 -> R0 -> Prop) (Ro : @Ring_ops R0 r0 r1 add mul sub opp req)
         (Rg : @Ring R0 r0 r1 add mul sub opp req Ro) (CS : CStar R0)
         (blk : nat -> nat) (keep : nat -> nat -> bool) (cm : nat -> bool)
         (keep_sym : forall p q, keep p q = keep q p) (keep_refl : forall p, keep p p = true)
         (keep_blk : forall p q, keep p q = true -> blk p = blk q)
         (cm_blk : forall p q, blk p = blk q -> cm p = cm q)
         (keep_eucl : forall p q r, cm p = true -> keep p q = true -> keep r q = true -> keep p r = true)
         (E : nat -> R0) (inv : R0 -> R0),
    (forall p q, keep p q = false -> (E p - E q) * inv (E p - E q) == 1) ->
    (forall p, conj (E p) == E p) -> Proper (_==_ ==> _==_) inv ->
    (forall x, inv (- x) == - inv x) -> (forall x, conj (inv x) == inv (conj x)) ->
    let BA := rcf_BlockAlg k blk keep cm keep_sym keep_blk cm_blk in
    forall (rflag : string -> TF k R0 -> TF k R0) (fenv : string -> list (TF k R0) -> TF k R0)
           (sol : string -> TF k R0),
    (forall x, rflag "commuting_blocks" x == Rw x) ->
    (forall y, fenv "solve_sylvester" (cons y nil) == sylvF E inv y) ->
    adj (sol "H") == sol "H" -> Zc (sol "H") == H0F k E ->
    solution (gflag_of false) rflag fenv sol main_alg ->
    adj (sol "U") == sol "U†" /\ adj (sol "H_tilde") == sol "H_tilde".
Proof.
  intros k R0 r0 r1 add mul sub opp req Ro Rg CS blk keep cm keep_sym keep_refl keep_blk cm_blk
         keep_eucl E inv Hinv Hreal HinvP Hopp Hconj BA rflag fenv sol Hrf Hfe Hh Hz Hsol.
  exact (fock_adjoint k blk keep cm keep_sym keep_refl keep_blk cm_blk keep_eucl E inv Hinv Hreal HinvP Hopp Hconj
           rflag fenv sol Hrf Hfe Hh Hz Hsol).
Qed.
Print Assumptions C07_fock_adjoint.

(** C03: the anti-Hermitian part of U - 1 has no kept element; U satisfies the four
    defining conditions of the least-action transformation *)
Theorem C07_fock_gauge :
  forall (k : nat) (R0 : Type) (r0 r1 : R0) (add mul sub : R0 -> R0 -> R0) (opp : R0 -> R0)
         (req : R0 -> R0 -> Prop) (Ro : @Ring_ops R0 r0 r1 add mul sub opp req)
         (Rg : @Ring R0 r0 r1 add mul sub opp req Ro) (CS : CStar R0)
         (blk : nat -> nat) (keep : nat -> nat -> bool) (cm : nat -> bool)
         (keep_sym : forall p q, keep p q = keep q p) (keep_refl : forall p, keep p p = true)
         (keep_blk : forall p q, keep p q = true -> blk p = blk q)
         (cm_blk : forall p q, blk p = blk q -> cm p = cm q)
         (keep_eucl : forall p q r, cm p = true -> keep p q = true -> keep r q = true -> keep p r = true)
         (E : nat -> R0) (inv : R0 -> R0),
    (forall p q, keep p q = false -> (E p - E q) * inv (E p - E q) == 1) ->
    (forall p, conj (E p) == E p) -> Proper (_==_ ==> _==_) inv ->
    (forall x, inv (- x) == - inv x) -> (forall x, conj (inv x) == inv (conj x)) ->
    let BA := rcf_BlockAlg k blk keep cm keep_sym keep_blk cm_blk in
    forall (rflag : string -> TF k R0 -> TF k R0) (fenv : string -> list (TF k R0) -> TF k R0)
           (sol : string -> TF k R0),
    (forall x, rflag "commuting_blocks" x == Rw x) ->
    (forall y, fenv "solve_sylvester" (cons y nil) == sylvF E inv y) ->
    adj (sol "H") == sol "H" -> Zc (sol "H") == H0F k E ->
    solution (gflag_of false) rflag fenv sol main_alg ->
    Sel (half ((sol "U" - 1) - adj (sol "U" - 1))) == 0 /\ least_action (sol "H") (sol "U").
Proof.
  intros k R0 r0 r1 add mul sub opp req Ro Rg CS blk keep cm keep_sym keep_refl keep_blk cm_blk
         keep_eucl E inv Hinv Hreal HinvP Hopp Hconj BA rflag fenv sol Hrf Hfe Hh Hz Hsol.
  exact (fock_gauge k blk keep cm keep_sym keep_refl keep_blk cm_blk keep_eucl E inv Hinv Hreal HinvP Hopp Hconj
           rflag fenv sol Hrf Hfe Hh Hz Hsol).
Qed.
Print Assumptions C07_fock_gauge.

(** Non-vacuity (Series/FockExample.v): over Q, one parameter, H = N + lambda (a + a†) with N
    the number operator diag(0,1,2,...) and a the annihilator in the unnormalised basis
    (entry (i,i+1) = i+1, an infinite matrix with one entry per row); one block, fully
    diagonalising mask, field inverse.  Every wiring hypothesis of the theorems above holds
    for it ([wiring] is the record of Alg/MainCorrect.v that they are used through), and H is
    not trivial. *)
From PV.Series Require Import FockExample.
Example C07_fock_hypotheses_satisfiable :
  wiring (BA := fx_BA) fx_rflag fx_fenv fx_H
  /\ ~ (ent (fx_H (cons 1%nat nil)) O (S O) == 0).
Proof. split. exact fx_wiring. exact (proj2 (proj2 fx_nontrivial)). Qed.

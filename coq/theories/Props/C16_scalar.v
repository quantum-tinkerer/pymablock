(** * C16, clause C16_scalar - the second-quantised Sylvester solver

  Property text (properties.jsonl, id C16): "Each built-in solver returns V with
  H_0^(i) V - V H_0^(j) = Y on the subspace where it is defined: ... and the
  second-quantized solver as an operator identity. ..."  (quantifier: "all number-conserving
  operator-valued H_0 for the second-quantized solver")

  Model: PV.NOF.SolveScalar.solve_scalar (second_quantization.py l. 27-127), tied to the code by
  tools/harness/k_scalar.py.  [hnof ks h] is the number-conserving form with coefficient h(N);
  [denom_ok] says: for every term of Y that acts non-trivially on e_n, the shifted energy
  denominator the code divides by is non-zero at the occupation where it is evaluated.
  [solve_entry] (the matrix entry of solve_sylvester_2nd_quant, which calls [solve_scalar]) is tied
  to the code by the same harness; no theorem is stated about it. *)
Require Import List ZArith QArith Bool.
Require Import PV.NOF.Gauss PV.NOF.Coeff PV.NOF.Fock PV.NOF.FockLemmas PV.NOF.LinComb PV.NOF.Model
  PV.NOF.NofProof PV.NOF.NofProof2 PV.NOF.SolveScalar PV.NOF.ScalarProof PV.NOF.ScalarDiag PV.NOF.C08Lemmas PV.NOF.C16C07Lemmas.
Import ListNotations.
Local Open Scope Z_scope.

(** off-diagonal elements ([diagonal=False]):  H_ii X - X H_jj = Y  on every Fock basis state
    (all occupation numbers) where the shifted denominators do not vanish *)
Theorem C16_scalar : forall ks y hi hj n,
  sig_ok ks = true -> wf_nof ks y -> bok ks n -> denom_ok ks hi hj y n ->
  let x := solve_scalar ks y hi hj false in
  lc_eq (lc_bind (den ks x n) (den ks (hnof ks hi))
         ++ lc_scale (gopp g1) (lc_bind (den ks (hnof ks hj) n) (den ks x)))
        (den ks y n)
  /\ wf_nof ks x.
Proof. exact solve_scalar_offdiag_correct. Qed.
Print Assumptions C16_scalar.

Example C16_scalar_nonvacuous :
  sig_ok ex_ks = true /\ wf_nof ex_ks ex_x /\ bok ex_ks ex_n2 /\ denom_ok ex_ks ex_hi ex_hj ex_x ex_n2 /\
  ~ lc_eq (den ex_ks (solve_scalar ex_ks ex_x ex_hi ex_hj false) ex_n2) [].
Proof.
  split; [exact ex_sig|]. split; [exact ex_wf_x|]. split; [exact ex_bok2|]. split; [exact ex_denom_ok|].
  intros H. specialize (H [4; -2; 1; 0; 1]). vm_compute in H. destruct H as [H _]. discriminate H.
Qed.

(** diagonal elements ([diagonal=True], H_ii = H_jj = H with real coefficients): the code solves only
    the terms of Y with lexicographically negative powers ([yneg y]) and returns X0 - X0†.  Then
    [H, X] = Y_neg + Y_neg†  ([comm ks h x n] = H X e_n - X H e_n), i.e. for a Hermitian Y all of Y
    except its zero-shift term (which no solution can produce: [H, X] has none).  [denom_ok_adj] is
    the non-vanishing of the same denominators at the occupations met by the adjoint terms. *)
Theorem C16_scalar_diagonal : forall ks y h n,
  sig_ok ks = true -> wf_nof ks y -> bok ks n -> creal h ->
  denom_ok ks h h (yneg y) n -> denom_ok_adj ks h (yneg y) n ->
  let x := solve_scalar ks y h h true in
  lc_eq (comm ks h x n) (den ks (yneg y) n ++ den ks (adj (yneg y)) n).
Proof. exact solve_scalar_diag_correct. Qed.
Print Assumptions C16_scalar_diagonal.

Example C16_scalar_diagonal_nonvacuous :
  creal ex_hi /\ denom_ok ex_ks ex_hi ex_hi (yneg ex_x) ex_n2 /\ denom_ok_adj ex_ks ex_hi (yneg ex_x) ex_n2 /\
  ~ lc_eq (den ex_ks (yneg ex_x) ex_n2) [].
Proof.
  split; [exact ex_creal|]. split; [|split].
  - intros t [Ht|[]]; subst t; cbn [fst]. right. intros H. vm_compute in H. destruct H as [H _]. discriminate H.
  - intros t [Ht|[]]; subst t; cbn [fst]. left. vm_compute. split; reflexivity.
  - intros H. specialize (H [4; -2; 1; 0; 1]). vm_compute in H. destruct H as [H _]. discriminate H.
Qed.

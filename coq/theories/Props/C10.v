(** C10 - Results independent of evaluation order/history; returned values not mutated.

    "The value of any element of H_tilde, U or U† is the same whatever elements of any of the
    series (single, sliced, repeated, interleaved between several computations built from the
    same input objects) were requested before it, and equals the value from a fresh
    computation. Values already handed to the caller and the contents of the caller's input
    arrays, dictionaries and series elements are never modified by later evaluations."

    In the model values are immutable, so the clause about in-place modification of NumPy
    buffers is NOT covered by a theorem: it is enforced by the harness k_schedules (every
    input array and every returned array is made read-only and deep-copied, and compared at
    the end).  What is proved: history independence of every returned value (a slice request
    is the sequence of its element requests), and that the evaluator never pops or changes
    an evaluated element of an input series. *)
From Coq Require Import String List ZArith Bool Arith.
From PV.DSL Require Import Syntax Values Target Compile Interp Exec Laws Sound CompileProps Main Regular Examples PropsLemmas.
From PV.Gen Require Import Algorithms_gen.
Import ListNotations.
Open Scope string_scope.

(** Two arbitrary request schedules on two computations built from the same program and
    inputs (with any fault plans inside the world): an element that both return has the same
    value, the value of the direct interpretation.  A fresh computation is the special case
    rs2 = [request]. *)
Theorem C10_history :
  forall (V : Type) (O : vops V) (eqv : V -> V -> Prop), vlaws O eqv ->
  forall (alg : algorithm) (W : xworld V) (sfn : string -> list V -> index -> V),
  world_ok O eqv alg W sfn ->
  forall fuel1 fuel2 c1 c2 rs1 rs2 os1 os2 s1 s2 i1 i2 tb1 tb2 name ix v1 v2,
    run_all O alg (compile alg) W fuel1 (init_state alg W c1) rs1 = (os1, s1) ->
    run_all O alg (compile alg) W fuel2 (init_state alg W c2) rs2 = (os2, s2) ->
    Forall (fun o => o <> OutOfFuel) os1 -> Forall (fun o => o <> OutOfFuel) os2 ->
    nth_error rs1 i1 = Some (tb1, name, ix) -> nth_error os1 i1 = Some (Ok v1) ->
    nth_error rs2 i2 = Some (tb2, name, ix) -> nth_error os2 i2 = Some (Ok v2) ->
    forall f w, interp O alg (SW O W sfn) f (KN name) ix = Some w ->
      eqv (den O v1) w /\ eqv (den O v2) w.
Proof.
  intros V O eqv L alg W sfn WO fuel1 fuel2 c1 c2 rs1 rs2 os1 os2 s1 s2 i1 i2 tb1 tb2 name ix v1 v2
         E1 E2 N1 N2 R1 O1 R2 O2 f w Ef.
  split.
  - exact (schedule_value L WO _ _ _ _ E1 N1 R1 O1 f Ef).
  - exact (schedule_value L WO _ _ _ _ E2 N2 R2 O2 f Ef).
Qed.
Print Assumptions C10_history.

Example C10_history_example :
  let W := z_world no_faults in
  let run2 := run_all z_ops nonhermitian_alg (compile nonhermitian_alg) W 60 (init_state nonhermitian_alg W 0) in
  nth_error (fst (run2 [(TTab, "U", (0, 1, [2])); (TTab, "X", (0, 1, [1])); (TTab, "H_tilde", (1, 1, [2]))])) 2
  = nth_error (fst (run2 [(TTab, "H_tilde", (1, 1, [2]))])) 0.
Proof. vm_compute. reflexivity. Qed.

(** The generated code never deletes an element of an input series, and no request changes
    or removes an evaluated input element (physical non-mutation of the arrays: harness). *)
Theorem C10_inputs_untouched :
  forall (alg : algorithm) (inputs : list string),
  (forall x, In x inputs -> has_at x = false) ->
  (forall name body s tr,
     In (name, body) (compile alg) ->
     (In (TS (TDel s tr)) body \/ exists t b, In (TIf t b) body /\ In (TDel s tr) b) ->
     kind_of alg inputs s <> KInput)
  /\
  (forall (V : Type) (O : vops V) (eqv : V -> V -> Prop), vlaws O eqv ->
   forall (W : xworld V) (sfn : string -> list V -> index -> V),
   xw_inputs W = inputs -> world_ok O eqv alg W sfn ->
   forall fuel s tb name ix r s' x ix' v,
     reachable_inv O eqv alg W sfn s ->
     run O alg (compile alg) W fuel s (tb, name, ix) = (r, s') -> r <> OutOfFuel ->
     kind_of alg (xw_inputs W) x = KInput ->
     st_lookup s (TTab, KN x, ix') = Some (Done v) -> st_lookup s' (TTab, KN x, ix') = Some (Done v)).
Proof.
  intros alg inputs Hp. split.
  - intros name body s tr. now apply compile_never_deletes_inputs.
  - intros V O eqv L W sfn _ WO fuel s tb name ix r s' x ix' v I E NO.
    destruct (request_sound L WO _ _ _ _ I E NO) as (_ & _ & (_ & _ & P) & _). exact (P x ix' v).
Qed.
Print Assumptions C10_inputs_untouched.

Example C10_inputs_untouched_example :
  regular main_alg ["H"] = true /\ (forall x, In x ["H"] -> has_at x = false).
Proof. split; [vm_compute; reflexivity | intros x [<-|[]]; reflexivity]. Qed.

(* Property C04 - "Truncated effective Hamiltonian has the exact spectrum to requested order"

   For every Hermitian input and every truncation order N, the characteristic polynomial
   of the sum of lambda^n H_tilde_n over |n| <= N agrees with that of H(lambda) in all
   coefficients of total order <= N, so the eigenvalues of the effective block
   Hamiltonians agree with the exact eigenvalues of H(lambda) up to O(lambda^(N+1)).  For
   a fully diagonalized block without degeneracies the diagonal of H_tilde is the
   Rayleigh-Schrodinger eigenvalue series.

   NOT FORMALISED (recorded in the trusted base, DESIGN.md section 8): the premises of
   [C04_charpoly_trunc] - Uinv * U == 1 and Uinv * H * U == H_tilde modulo x^(N+1),
   entry-wise, for matrices whose entries are polynomials in the formal parameter - are the
   conclusions of properties C01/C02, which are proved in another development (stdlib
   Ncring, "power series whose coefficients are matrices").  The identification of a
   series of matrices with a matrix of series, which carries C01/C02 over to the premises
   used here, is not formalised.  It is exercised on the implementation by the tie
   tools/harness/k_charpoly.py (the premises are checked inside Coq on the U, U†, H_tilde
   returned by the implementation) and by the oracle tools/oracles/o_charpoly.py.

   Several perturbation parameters ("total order <= N"): all statements are over an
   arbitrary commutative ring F of coefficients; the multi-parameter clause is the instance
   F = K[c_1..c_k] with lambda_j := c_j * x (see the header of Spectrum/CharPoly.v).  No
   hypothesis narrower than the property is used, hence no _partial suffix.

   Rayleigh-Schrodinger clause: the RS eigenvalue series of a level E_i that is
   non-degenerate in H_0 is characterised as the formal power series root e(x) of
   char_poly H(x) with e(0) = E_i ([C04_rs_unique]: there is at most one modulo x^(N+1),
   for every N; [C04_rs_diag_block]: the diagonal entry of a fully diagonalised block is
   one).  That the textbook RS recursion computes this root is tested by the oracle, not
   proved. *)

From mathcomp Require Import ssreflect ssrfun ssrbool eqtype ssrnat seq fintype bigop.
From mathcomp Require Import ssralg zmodp poly matrix mxpoly ssrint.
From PV Require Import Spectrum.CharPoly Spectrum.CharPolyEx.
From PV Require Import Spectrum.CharPolyExec Spectrum.CharPolyExecCorrect.
Import GRing.Theory.
Local Open Scope ring_scope.

(* exact similarity, any commutative ring *)
Theorem C04_charpoly_similar (F : comRingType) (n : nat) (U Ui H : 'M[F]_n) :
  Ui *m U = 1%:M -> char_poly (Ui *m H *m U) = char_poly H.
Proof. exact: charpoly_similar. Qed.
Print Assumptions C04_charpoly_similar.

Example C04_charpoly_similar_ex :
  (exUi *m exU = 1%:M /\ exU <> 1%:M)
  /\ char_poly (exUi *m exH *m exU) = char_poly exH.
Proof.
by split; [exact: ex_similar_hyp | apply: C04_charpoly_similar; case: ex_similar_hyp].
Qed.

(* similarity modulo an arbitrary ring congruence (= modulo an ideal) *)
Theorem C04_charpoly_cong (R : comRingType) (E : ring_cong R) (n : nat)
    (U Ui H Ht : 'M[R]_n) :
  (forall i j, E ((Ui *m U) i j) ((1%:M : 'M_n) i j)) ->
  (forall i j, E ((Ui *m H *m U) i j) (Ht i j)) ->
  forall k, E (char_poly Ht)`_k (char_poly H)`_k.
Proof. exact: charpoly_cong. Qed.
Print Assumptions C04_charpoly_cong.

(* the C04 statement: one formal parameter x, everything modulo x^(N+1);
   eqN N p q := forall i <= N, p`_i = q`_i *)
Theorem C04_charpoly_trunc (F : comRingType) (N n : nat) (U Ui H Ht : 'M[{poly F}]_n) :
  (forall i j, eqN N ((Ui *m U) i j) ((1%:M : 'M_n) i j)) ->
  (forall i j, eqN N ((Ui *m H *m U) i j) (Ht i j)) ->
  forall k, eqN N (char_poly Ht)`_k (char_poly H)`_k.
Proof. exact: charpoly_trunc. Qed.
Print Assumptions C04_charpoly_trunc.

Theorem C04_charpoly_trunc_coef (F : comRingType) (N n : nat)
    (U Ui H Ht : 'M[{poly F}]_n) :
  (forall i j m, (m <= N)%N ->
     ((Ui *m U) i j)`_m = ((1%:M : 'M[{poly F}]_n) i j)`_m) ->
  (forall i j m, (m <= N)%N -> ((Ui *m H *m U) i j)`_m = (Ht i j)`_m) ->
  forall k m, (m <= N)%N -> (char_poly Ht)`_k`_m = (char_poly H)`_k`_m.
Proof. by move=> h1 h2 k m; apply: (@charpoly_trunc F N n U Ui H Ht). Qed.
Print Assumptions C04_charpoly_trunc_coef.

(* the congruence is divisibility of the difference by 'X^(N+1) *)
Theorem C04_eqN_divisibility (F : comRingType) (N : nat) (p q : {poly F}) :
  eqN N p q <-> exists r, p = q + r * 'X^N.+1.
Proof. exact: eqNP. Qed.
Print Assumptions C04_eqN_divisibility.

(* first-order Schrieffer-Wolff of [[0,x],[x,1]] over {poly int}, N = 1: the premises hold,
   and only modulo x^2 *)
Example C04_charpoly_trunc_ex :
  [/\ forall i j, eqN 1 ((swUi *m swU) i j) ((1%:M : 'M_2) i j),
      forall i j, eqN 1 ((swUi *m swH *m swU) i j) (swHt i j),
      swUi *m swU <> 1%:M
    & forall k, eqN 1 (char_poly swHt)`_k (char_poly swH)`_k].
Proof.
split; [exact: sw_unitary | exact: sw_similar | exact: sw_not_exact |].
exact: (C04_charpoly_trunc _ _ _ _ _ _ _ sw_unitary sw_similar).
Qed.

(* block-diagonal matrices: two blocks, and any sequence of blocks *)
Theorem C04_blockdiag (R : comRingType) (n1 n2 : nat) (A : 'M[R]_n1) (B : 'M[R]_n2) :
  char_poly (block_mx A 0 0 B) = char_poly A * char_poly B.
Proof. exact: charpoly_blockdiag. Qed.
Print Assumptions C04_blockdiag.

Theorem C04_blockdiag_seq (R : comRingType) (s : seq (sqmx R)) :
  char_poly (bd_mx s) = \prod_(b <- s) char_poly (tagged b).
Proof.
elim: s => [|b s IH] /=; first by rewrite big_nil /char_poly det_mx00.
by rewrite big_cons charpoly_blockdiag IH.
Qed.
Print Assumptions C04_blockdiag_seq.

Example C04_blockdiag_ex :
  char_poly (block_mx exH 0 0 exU) = char_poly exH * char_poly exU
  /\ char_poly (bd_mx [:: Tagged _ exH; Tagged _ exU; Tagged _ exUi])
     = char_poly exH * (char_poly exU * (char_poly exUi * 1)).
Proof.
by split; [exact: C04_blockdiag | rewrite C04_blockdiag_seq !big_cons big_nil].
Qed.

(* Rayleigh-Schroedinger clause.  poly_rel (eqN_cong F N) p q below is coefficient-wise
   congruence modulo x^(N+1) of polynomials (in the eigenvalue variable) with coefficients
   in {poly F}. *)
Theorem C04_rs_roots (F : idomainType) (N n : nat) (d : 'I_n -> {poly F})
    (p : {poly {poly F}}) (i : 'I_n) :
  poly_rel (eqN_cong F N) p (\prod_j ('X - (d j)%:P)) -> eqN N p.[d i] 0.
Proof. by rewrite -[\prod_j _]mulr1 => /(rs_split i)[]. Qed.
Print Assumptions C04_rs_roots.

Theorem C04_rs_unique (F : idomainType) (N n : nat) (d : 'I_n -> {poly F})
    (p : {poly {poly F}}) (i : 'I_n) (e : {poly F}) :
  poly_rel (eqN_cong F N) p (\prod_j ('X - (d j)%:P)) ->
  (forall j, j != i -> (d j)`_0 != (d i)`_0) ->
  eqN N p.[e] 0 -> e`_0 = (d i)`_0 -> eqN N e (d i).
Proof. exact: rs_unique. Qed.
Print Assumptions C04_rs_unique.

Example C04_rs_unique_ex :
  [/\ poly_rel (eqN_cong _ 1) rsp (\prod_j ('X - (rsd j)%:P)),
      forall j : 'I_2, j != 0 -> (rsd j)`_0 != (rsd 0)`_0,
      eqN 1 rsp.[rse] 0, rse`_0 = (rsd 0)`_0 & rse <> rsd 0]
  /\ eqN 1 rse (rsd 0).
Proof.
have h : poly_rel (eqN_cong _ 1) rsp (\prod_j ('X - (rsd j)%:P)) by move=> k m _.
split; last exact: (C04_rs_unique _ _ _ _ _ _ _ h rs_ex_distinct rs_ex_root rs_ex_e0).
by split; [| exact: rs_ex_distinct | exact: rs_ex_root | exact: rs_ex_e0
          | exact: rs_ex_nontrivial].
Qed.

(* one simple factor split off: the general form of uniqueness *)
Theorem C04_rs_unique_factor (F : idomainType) (N : nat) (p q : {poly {poly F}})
    (d e : {poly F}) :
  poly_rel (eqN_cong F N) p (('X - d%:P) * q) ->
  eqN N p.[e] 0 -> (q.[e])`_0 != 0 -> eqN N e d.
Proof. exact: rs_unique_factor. Qed.
Print Assumptions C04_rs_unique_factor.

(* End to end: if H is similar modulo x^(N+1) to diag(d) (+) B - a fully diagonalised
   block beside an arbitrary rest - then each d_i is a root of char_poly H modulo
   x^(N+1), and the only one with constant term d_i(0) when that level is non-degenerate
   at order 0. *)
Theorem C04_rs_diag_block (F : idomainType) (N n1 n2 : nat)
    (U Ui H : 'M[{poly F}]_(n1 + n2)) (d : 'rV[{poly F}]_n1) (B : 'M[{poly F}]_n2) :
  (forall i j, eqN N ((Ui *m U) i j) ((1%:M : 'M_(n1 + n2)) i j)) ->
  (forall i j, eqN N ((Ui *m H *m U) i j) ((block_mx (diag_mx d) 0 0 B) i j)) ->
  forall i : 'I_n1,
    eqN N (char_poly H).[d 0 i] 0
    /\ forall e, eqN N (char_poly H).[e] 0 -> e`_0 = (d 0 i)`_0 ->
         (forall j, j != i -> (d 0 j)`_0 != (d 0 i)`_0) ->
         ((char_poly B).[e])`_0 != 0 ->
         eqN N e (d 0 i).
Proof.
move=> hU hH i; apply: (@rs_split _ N n1 (d 0)).
have := @charpoly_cong _ (eqN_cong F N) _ _ _ _ _ hU hH.
rewrite charpoly_blockdiag charpoly_diag.
exact: (@rc_sym _ (poly_cong _)).
Qed.
Print Assumptions C04_rs_diag_block.

Example C04_rs_diag_block_ex :
  (forall i j, eqN 1 ((swUi *m swU) i j) ((1%:M : 'M_(1 + 1)) i j))
  /\ (forall i j, eqN 1 ((swUi *m swH *m swU) i j)
        ((block_mx (diag_mx (0 : 'rV_1)) 0 0 ((1 : {poly int})%:M : 'M_1)) i j)).
Proof. by split; [exact: sw_unitary | rewrite -swHt_block; exact: sw_similar]. Qed.

(* Tie lemmas (not clauses of the property): the list-based executable definitions of
   Spectrum/CharPolyExec.v, which tools/harness/k_charpoly.py evaluates on the
   implementation's output, are correct with respect to MathComp when run with the
   operations [ROps F] of any comRingType F: [charpoly] computes [char_poly], and the
   premise checks imply the premises of [C04_charpoly_trunc] for the matrices [MX n _] of
   polynomials denoted by the lists.  The tie runs the same Gallina terms with the
   operations [Qops] of stdlib Q; that these form such a ring is not proved (see the head
   of Spectrum/CharPolyExec.v). *)
Theorem C04_tie_charpoly_correct (F : comRingType) (n : nat) (M : list (list (list F))) :
  wf n M ->
  Poly (map (fun l => Poly l) (charpoly (poly_ops (ROps F)) n M)) = char_poly (MX n M).
Proof.
move=> wfM; rewrite MX_mxl -(charpoly_hom (poly_ops_hom (ROps_hom F)) wfM) /phiP.
by rewrite (eq_map (@phi2E F)).
Qed.
Print Assumptions C04_tie_charpoly_correct.

Theorem C04_tie_premises_sound (F : comRingType) (N n : nat)
    (U Ui H Ht : list (list (list F))) :
  wf n U -> wf n Ui -> wf n H ->
  g_prem_unitary (ROps F) N n U Ui = true ->
  g_prem_similar (ROps F) N U Ui H Ht = true ->
  (forall i j, eqN N ((MX n Ui *m MX n U) i j) ((1%:M : 'M_n) i j))
  /\ (forall i j, eqN N ((MX n Ui *m MX n H *m MX n U) i j) (MX n Ht i j)).
Proof. exact: exec_premises_sound. Qed.
Print Assumptions C04_tie_premises_sound.

Example C04_tie_ex :
  let U  : list (list (list int)) := [:: [:: [:: 1]; [:: 0; 1]]; [:: [:: 0; -1]; [:: 1]]] in
  let Ui : list (list (list int)) := [:: [:: [:: 1]; [:: 0; -1]]; [:: [:: 0; 1]; [:: 1]]] in
  let H  : list (list (list int)) := [:: [:: [::]; [:: 0; 1]]; [:: [:: 0; 1]; [:: 1]]] in
  let Ht : list (list (list int)) := [:: [:: [::]; [::]]; [:: [::]; [:: 1]]] in
  [/\ wf 2 U, wf 2 Ui & wf 2 H]
  /\ [/\ g_prem_unitary (ROps _) 1 2 U Ui = true, g_prem_similar (ROps _) 1 U Ui H Ht = true
        & g_prem_unitary (ROps _) 2 2 U Ui = false].
Proof. by split; split; vm_compute. Qed.

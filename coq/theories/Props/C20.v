(* C20: "When the unperturbed Hamiltonian is not block diagonal, coupled blocks (or elements
   selected for elimination) share an unperturbed energy, supplied eigenvectors are not
   (bi)orthonormal, a Hermitian-mode mask is asymmetric, a Hermitian-mode symbolic input is not
   Hermitian, or mutually exclusive options are combined, block_diagonalize raises a
   ValueError/TypeError/NotImplementedError no later than the first evaluation that would need
   the ill-defined quantity. For every accepted well-posed numeric input all returned elements
   are finite."

   Model: Front/Validate.v.  [validate c] is the first definition-time test that fires (tests
   in their order of execution), [on_first_use c u] the lazily executed tests, [life c sched]
   the whole life of a call under a schedule of uses per order.

   Every rejection theorem holds for ANY call record having the defect, whatever the other
   fields say.  The conclusion allows one exception class outside the property's list:
   UnboundLocalError, which the code can only raise for a custom solve_sylvester
   combined with a bare one-element all-False array as fully_diagonalize on a single block
   ([diagonal] is unbound); it is kept visible as the second disjunct.

   Class definitions follow the code: "H_0 not block diagonal" = a scanned zeroth-order block
   that is a numeric array not allclose to zero or a sympy object that is decidably non-zero
   (a block sympy cannot decide only warns: [BUndecided]); "symbolic input not Hermitian" = a
   sympy-expression input one of whose Taylor coefficients has is_hermitian False (dict inputs
   and numeric terms are not tested by the code: hermitian=True is a promise there). *)

Require Import List Bool Arith.
Require Import PV.Front.Validate PV.Front.ValidateProofs.
Require PV.Front.GaussQc PV.Front.SylvDiag PV.Front.SylvDiagProofs.
Import ListNotations.

Theorem C20_rejects_h0_offdiag :
  forall c, defect_h0_offdiag c ->
  exists e, validate c = Reject e AtDefinition /\
            (listed e \/ (e = UnboundLocalError /\ custom c = true)).
Proof.
  intros c [i [j [Hi [Hj [Hs Hb]]]]]. eapply (reject_at c 23); [reflexivity|].
  apply existsb_exists. exists (i, j). split; [apply in_all_pairs_iff; split; assumption|].
  cbn [fst snd]. rewrite Hs, Hb. reflexivity.
Qed.
Print Assumptions C20_rejects_h0_offdiag.

(* coupled blocks share an unperturbed energy: rejected at definition for another reason, or
   accepted at definition and rejected with ValueError at the first use of that pair *)
Theorem C20_rejects_shared_energy :
  forall c i j, diag_pair c i j = true -> i <> j -> c_pair_shares c i j = true ->
  (exists e, validate c = Reject e AtDefinition /\ listed e) \/
  (validate c = Accept /\ on_first_use c (UsePair i j) = Reject ValueError AtFirstUse).
Proof.
  intros c i j Hd Hij Hs. pose proof (diag_pair_not_custom _ _ _ Hd) as Hc.
  destruct (accept_or_rejected c) as [Ha|[e [Hv [Hl|[_ Hc']]]]].
  - right. split; [exact Ha|]. unfold on_first_use.
    rewrite (custom_false_legacy _ Hc), Hd, Hs. apply Nat.eqb_neq in Hij. rewrite Hij. reflexivity.
  - left. exists e. split; assumption.
  - congruence.
Qed.
Print Assumptions C20_rejects_shared_energy.

Theorem C20_rejects_mask_equal :
  forall c, defect_mask_equal c ->
  exists e, validate c = Reject e AtDefinition /\
            (listed e \/ (e = UnboundLocalError /\ custom c = true)).
Proof.
  intros c [Hq [m [Hin Hm]]]. eapply (reject_at c 30); [reflexivity|].
  rewrite Hq. apply existsb_exists. exists m. split; assumption.
Qed.
Print Assumptions C20_rejects_mask_equal.

Theorem C20_rejects_biorth :
  forall c, defect_biorth c ->
  exists e, validate c = Reject e AtDefinition /\
            (listed e \/ (e = UnboundLocalError /\ custom c = true)).
Proof.
  intros c [ev [He [Hk Ho]]]. eapply (reject_at c 10); [reflexivity|].
  rewrite (evb_some _ _ _ He), Ho. destruct (ev_kind ev); [reflexivity|reflexivity|contradiction].
Qed.
Print Assumptions C20_rejects_biorth.

(* all subspaces orthonormal within themselves ([ev_overlap_within] arbitrary, e.g. Yes) but
   vectors of two DIFFERENT subspaces overlap: _check_biorthonormality compares the stacked
   overlap matrix with the identity, so the call is rejected at definition *)
Theorem C20_rejects_cross_overlap :
  forall c, defect_cross_overlap c ->
  exists e, validate c = Reject e AtDefinition /\
            (listed e \/ (e = UnboundLocalError /\ custom c = true)).
Proof.
  intros c [ev [He [Hk Ho]]]. apply C20_rejects_biorth. exists ev. repeat split; try assumption.
  unfold ev_overlap. rewrite Ho. destruct (ev_overlap_within ev); reflexivity.
Qed.
Print Assumptions C20_rejects_cross_overlap.

Theorem C20_rejects_mask_asym :
  forall c, defect_mask_asym c ->
  exists e, validate c = Reject e AtDefinition /\
            (listed e \/ (e = UnboundLocalError /\ custom c = true)).
Proof.
  intros c [Hh [Hq [m [Hin Hm]]]]. eapply (reject_at c 29); [reflexivity|].
  rewrite Hq. apply existsb_exists. exists m. split; [exact Hin|].
  rewrite Hh, Hm. apply orb_true_r.
Qed.
Print Assumptions C20_rejects_mask_asym.

Theorem C20_rejects_nonhermitian_term :
  forall c n, c_format c = FSympyExpr -> c_hermitian c = true -> c_term_herm c n = No ->
  (exists e, validate c = Reject e AtDefinition /\
             (listed e \/ (e = UnboundLocalError /\ custom c = true))) \/
  (validate c = Accept /\ on_first_use c (UseTerm n) = Reject ValueError AtFirstUse).
Proof.
  intros c n Hf Hh Ht. destruct (accept_or_rejected c) as [Ha|Hr]; [right|left; exact Hr].
  split; [exact Ha|]. unfold on_first_use. rewrite (proj2 (fmt_is_iff _ _) Hf), Hh, Ht. reflexivity.
Qed.
Print Assumptions C20_rejects_nonhermitian_term.

Theorem C20_rejects_nonhermitian_term0 :
  forall c, c_format c = FSympyExpr -> c_hermitian c = true ->
  c_term_herm c (zero_order c) = No ->
  exists e, validate c = Reject e AtDefinition /\
            (listed e \/ (e = UnboundLocalError /\ custom c = true)).
Proof.
  intros c Hf Hh Ht. eapply (reject_at c 6); [reflexivity|].
  rewrite (proj2 (fmt_is_iff _ _) Hf), Hh, Ht. reflexivity.
Qed.
Print Assumptions C20_rejects_nonhermitian_term0.

Theorem C20_rejects_exclusive :
  forall c, defect_exclusive c ->
  exists e, validate c = Reject e AtDefinition /\
            (listed e \/ (e = UnboundLocalError /\ custom c = true)).
Proof.
  intros c [Hc Hf|Hv Hi|ev He Hh Hp|Hb Hs|Ha Hh|Hi Hh Hc Hd|t m Hf Hn|Hi Hk|Hc Hn Hl].
  - eapply (reject_at c 1); [reflexivity|]. rewrite Hc, Hf. reflexivity.
  - eapply (reject_at c 17); [reflexivity|]. rewrite Hv, Hi. reflexivity.
  - eapply (reject_at c 7); [reflexivity|]. rewrite (evb_some _ _ _ He), Hh, Hp. reflexivity.
  - eapply (reject_at c 18); [reflexivity|]. rewrite Hb. destruct Hs as [-> | ->]; [reflexivity|apply orb_true_r].
  - eapply (reject_at c 27); [reflexivity|]. rewrite Ha, Hh. reflexivity.
  - eapply (reject_at c 13); [reflexivity|]. rewrite Hi, Hh, Hc, Hd. reflexivity.
  - eapply (reject_at c 20); [reflexivity|]. rewrite Hf. apply Nat.eqb_neq in Hn. rewrite Hn. reflexivity.
  - eapply (reject_at c 26); [reflexivity|]. rewrite Hi. apply existsb_exists.
    exists (c_nblocks c - 1). split; [exact Hk|apply Nat.eqb_refl].
  - eapply (reject_at c 21); [reflexivity|]. rewrite Hn, Hl, Hc. reflexivity.
Qed.
Print Assumptions C20_rejects_exclusive.

(* Further rejection classes of the validation code covered by the model (beyond the property's
   list): unsupported container type (TypeError); perturbative symbol absent from a sympy
   expression; non-commutative symbols / non-monomial keys of a monomial-key dict; non-square
   block series; ragged nested block lists (zeroth order: at definition, later orders: at their
   first evaluation, C20_rejects_ragged_term); H_0 blocks that are not operators; all-zero
   diagonal of H_0; a mask that is not an ndarray. *)
Theorem C20_rejects_container :
  forall c, defect_container c ->
  exists e, validate c = Reject e AtDefinition /\
            (listed e \/ (e = UnboundLocalError /\ custom c = true)).
Proof.
  intros c [Hf|Hf Hs|Hf Hk|Hf Hk|Hb Hs|Hb Hr|Ho|Hz|m Hq Hin Hm].
  - eapply (reject_at c 2); [reflexivity|]. apply fmt_is_iff, Hf.
  - eapply (reject_at c 3); [reflexivity|]. rewrite (proj2 (fmt_is_iff _ _) Hf), Hs. reflexivity.
  - eapply (reject_at c 4); [reflexivity|]. rewrite (proj2 (fmt_is_iff _ _) Hf), Hk. reflexivity.
  - eapply (reject_at c 5); [reflexivity|]. rewrite (proj2 (fmt_is_iff _ _) Hf), Hk. reflexivity.
  - eapply (reject_at c 19); [reflexivity|]. rewrite Hb, Hs. reflexivity.
  - eapply (reject_at c 22); [reflexivity|]. rewrite Hb, Hr. reflexivity.
  - eapply (reject_at c 25); [reflexivity|]. exact Ho.
  - eapply (reject_at c 24); [reflexivity|].
    apply forallb_forall. intros i Hi. apply in_seq in Hi. exact (Hz i (proj2 Hi)).
  - eapply (reject_at c 29); [reflexivity|]. rewrite Hq. apply existsb_exists.
    exists m. split; [exact Hin|]. rewrite Hm. reflexivity.
Qed.
Print Assumptions C20_rejects_container.

(* malformed (right, left) entries (length, shapes) and the implicit-mode restrictions: input
   already separated into blocks, symbolic H_0, ambient dimension mismatch (ValueError), subspace
   vectors that are not numpy arrays (TypeError).  (Non-Hermitian implicit KPM and an implicit
   block in fully_diagonalize are in C20_rejects_exclusive.) *)
Theorem C20_rejects_vectors :
  forall c ev, c_eigvecs c = Some ev -> defect_vectors c ev ->
  exists e, validate c = Reject e AtDefinition /\
            (listed e \/ (e = UnboundLocalError /\ custom c = true)).
Proof.
  intros c ev He [H|H|Hc H|Hc H|Hc H|Hc Hcu H]; pose proof (implicit_some _ _ He) as Hi.
  - eapply (reject_at c 8); [reflexivity|]. rewrite (evb_some _ _ _ He), H. reflexivity.
  - eapply (reject_at c 9); [reflexivity|]. rewrite (evb_some _ _ _ He), H. reflexivity.
  - eapply (reject_at c 11); [reflexivity|]. rewrite Hi, Hc, H. reflexivity.
  - eapply (reject_at c 12); [reflexivity|]. rewrite Hi, Hc, H. reflexivity.
  - eapply (reject_at c 14); [reflexivity|]. rewrite Hi, Hc, (evb_some _ _ _ He), H. reflexivity.
  - eapply (reject_at c 15); [reflexivity|]. rewrite Hi, Hc, Hcu, (evb_some _ _ _ He), H. reflexivity.
Qed.
Print Assumptions C20_rejects_vectors.

Theorem C20_rejects_ragged_term :
  forall c n, c_preblocked c = true -> c_ragged c n = true ->
  (exists e, validate c = Reject e AtDefinition /\
             (listed e \/ (e = UnboundLocalError /\ custom c = true))) \/
  (validate c = Accept /\ exists e, on_first_use c (UseTerm n) = Reject e AtFirstUse /\ e = ValueError).
Proof.
  intros c n Hb Hr. destruct (accept_or_rejected c) as [Ha|Hj]; [right|left; exact Hj].
  split; [exact Ha|]. unfold on_first_use. rewrite Hb, Hr. cbn [andb].
  destruct (fmt_is c FSympyExpr && c_hermitian c && tri_is_no (c_term_herm c n)); eauto.
Qed.
Print Assumptions C20_rejects_ragged_term.

(* dead code: the NotImplementedError of the implicit KPM path for (right, left) pairs is always
   preceded by the Hermitian-pairs ValueError or the non-Hermitian-KPM NotImplementedError *)
Theorem C20_kpm_pairs_shadowed :
  forall c,
  (implicit c && negb (custom c) && negb (c_direct_solver c) && evb c ev_has_pair)%bool = true ->
  evb c (fun ev => (c_hermitian c && ev_has_pair ev)%bool) = true \/
  (implicit c && negb (c_hermitian c) && negb (custom c) && negb (c_direct_solver c))%bool = true.
Proof.
  intros c H. apply andb_prop in H. destruct H as [H Hp]. apply andb_prop in H. destruct H as [H Hd].
  apply andb_prop in H. destruct H as [Hi Hc].
  destruct (c_hermitian c).
  - left. unfold evb in *. destruct (c_eigvecs c); [exact Hp|discriminate].
  - right. rewrite Hi, Hc, Hd. reflexivity.
Qed.
Print Assumptions C20_kpm_pairs_shadowed.

Theorem C20_rejects_solver_fd_exact :
  forall c, custom c = true -> fd_truth (c_fd c) = Some true ->
  validate c = Reject NotImplementedError AtDefinition.
Proof.
  intros c Hc Hf. unfold validate, checks. cbn [find fst]. rewrite Hc, Hf. reflexivity.
Qed.
Print Assumptions C20_rejects_solver_fd_exact.

(* "no later than the first evaluation that would need the ill-defined quantity": if a use u
   that is rejected belongs to the uses triggered at order n, the life of the call ends in a
   rejection at an order scheduled no later than n *)
Theorem C20_no_later :
  forall c pre n us post u e s,
  validate c = Accept -> In u us -> on_first_use c u = Reject e s ->
  exists e' n', life c (pre ++ (n, us) :: post) = (Reject e' AtFirstUse, Some n') /\
                In n' (map fst pre ++ [n]).
Proof.
  intros c pre n us post u e s Hv Hin Hu. unfold life. rewrite Hv.
  assert (Hus : first_lazy c us <> Accept).
  { rewrite first_lazy_accept. intro H. rewrite (H u Hin) in Hu. discriminate. }
  induction pre as [|[m vs] pre IH]; cbn [app run_schedule map fst].
  - destruct (first_lazy c us) as [|e' s'] eqn:E; [contradiction|].
    destruct (first_lazy_reject _ _ _ _ E) as [_ ->]. exists e', n. split; [reflexivity|left; reflexivity].
  - destruct (first_lazy c vs) as [|e' s'] eqn:E.
    + destruct IH as [e' [n' [H1 H2]]]. exists e', n'. split; [exact H1|right; exact H2].
    + destruct (first_lazy_reject _ _ _ _ E) as [_ ->]. exists e', m. split; [reflexivity|left; reflexivity].
Qed.
Print Assumptions C20_no_later.

Theorem C20_accepts_wellposed :
  forall c sched, Wellposed c ->
  (forall n us u, In (n, us) sched -> In u us -> Wellposed_lazy c u) ->
  validate c = Accept /\ life c sched = (Accept, None).
Proof.
  intros c sched W L. split; [apply accepts_wellposed, W|apply accepts_wellposed_life; assumption].
Qed.
Print Assumptions C20_accepts_wellposed.

(* with C16_diagonal_nodiv: for an accepted call that installs the diagonal solver (explicit
   numeric/symbolic matrices) or the direct solver (explicit part), the closure never divides
   by a quantity within tolerance, for any eigenvalue data and any sequence of requests - all
   model values lie in the field, i.e. are finite *)
Theorem C20_finite :
  forall (c : call) (F : GaussQc.Fld) (E : list (SylvDiag.eigs F))
         (reqs : list (SylvDiag.rhs F * (nat * nat))),
  validate c = Accept ->
  closure_without_vecs_implicit (solver_of c) = true ->
  ~ In SylvDiag.ODivTol (fst (SylvDiag.run F E None [] reqs)).
Proof.
  intros c F E reqs _ _. apply SylvDiagProofs.run_nodiv; [apply SylvDiagProofs.Inv_nil|reflexivity].
Qed.
Print Assumptions C20_finite.

(* a well-posed call: tuple-key dict, Hermitian, subspace_indices, three blocks, a symmetric
   mask on block 1 that eliminates no degenerate pair *)
Definition good_mask : mask := mkMask true true false.
Definition wp_call : call :=
  mkCall FDictTuple 2 false KeysOk true None true (FdDict [(1, good_mask)]) false true None true
         false 3 (fun _ _ => BZero) (fun i => Nat.eqb i 2) false (fun _ _ => false) (fun _ => Unknown)
         false (fun _ => false).

Example C20_wellposed_ex : Wellposed wp_call /\ validate wp_call = Accept.
Proof.
  split; [|reflexivity].
  constructor; cbn; try discriminate; try tauto; try congruence.
  - exists 0. split; [auto with arith|reflexivity].
  - intros _ m [<-|[]]. cbn. auto.
Qed.

(* the same call with one defect each *)
Definition with_off (c : call) : call :=
  mkCall (c_format c) (c_nparams c) (c_symbols_missing c) (c_keys c) (c_hermitian c) (c_solver_arity c)
         (c_direct_solver c) (c_fd c) (c_preblocked c) (c_blocks_square c) (c_eigvecs c) (c_indices c)
         (c_h0_symbolic c) (c_nblocks c)
         (fun i j => if (Nat.eqb i 1 && Nat.eqb j 2)%bool then BNonzero else BZero)
         (c_h0_diag_zero c) (c_second_quant c) (c_pair_shares c) (c_term_herm c)
         (c_invalid_operator c) (c_ragged c).
Definition with_fd (c : call) (f : fdform) : call :=
  mkCall (c_format c) (c_nparams c) (c_symbols_missing c) (c_keys c) (c_hermitian c) (c_solver_arity c)
         (c_direct_solver c) f (c_preblocked c) (c_blocks_square c) (c_eigvecs c) (c_indices c)
         (c_h0_symbolic c) (c_nblocks c) (c_h0_off c)
         (c_h0_diag_zero c) (c_second_quant c) (c_pair_shares c) (c_term_herm c)
         (c_invalid_operator c) (c_ragged c).
Definition with_shares (c : call) : call :=
  mkCall (c_format c) (c_nparams c) (c_symbols_missing c) (c_keys c) (c_hermitian c) (c_solver_arity c)
         (c_direct_solver c) (c_fd c) (c_preblocked c) (c_blocks_square c) (c_eigvecs c) (c_indices c)
         (c_h0_symbolic c) (c_nblocks c) (c_h0_off c)
         (c_h0_diag_zero c) (c_second_quant c) (fun i j => (Nat.eqb i 0 && Nat.eqb j 2)%bool) (c_term_herm c)
         (c_invalid_operator c) (c_ragged c).

(* eigenvector designation, every subspace orthonormal within itself, two subspaces overlapping *)
Definition with_vecs (c : call) (ev : eigvecs) : call :=
  mkCall (c_format c) (c_nparams c) (c_symbols_missing c) (c_keys c) (c_hermitian c) (c_solver_arity c)
         (c_direct_solver c) (c_fd c) (c_preblocked c) (c_blocks_square c) (Some ev) false
         (c_h0_symbolic c) (c_nblocks c) (c_h0_off c)
         (c_h0_diag_zero c) (c_second_quant c) (c_pair_shares c) (c_term_herm c)
         (c_invalid_operator c) (c_ragged c).
Definition cross_vecs : eigvecs := mkEigvecs false true true VecNumpy Yes No true true true.
Definition fine_vecs : eigvecs := mkEigvecs false true true VecNumpy Yes Yes true true true.

Example C20_cross_overlap_ex :
  defect_cross_overlap (with_vecs wp_call cross_vecs) /\
  validate (with_vecs wp_call cross_vecs) = Reject ValueError AtDefinition /\
  validate (with_vecs wp_call fine_vecs) = Accept.
Proof.
  repeat split; try reflexivity. exists cross_vecs. repeat split; try reflexivity. discriminate.
Qed.

Example C20_rejects_ex :
  defect_h0_offdiag (with_off wp_call) /\
  validate (with_off wp_call) = Reject ValueError AtDefinition /\
  defect_mask_asym (with_fd wp_call (FdDict [(1, mkMask true false false)])) /\
  validate (with_fd wp_call (FdDict [(1, mkMask true false false)])) = Reject ValueError AtDefinition /\
  defect_mask_equal (with_fd wp_call (FdDict [(1, mkMask true true true)])) /\
  validate (with_fd wp_call (FdDict [(1, mkMask true true true)])) = Reject ValueError AtDefinition /\
  life (with_shares wp_call) [(1, [UsePair 0 1]); (2, [UsePair 0 2; UsePair 1 2])]
    = (Reject ValueError AtFirstUse, Some 2).
Proof.
  repeat split; try reflexivity.
  - exists 1, 2. cbn. repeat split; auto with arith.
  - exists (mkMask true false false). split; [left; reflexivity|reflexivity].
  - exists (mkMask true true true). split; [left; reflexivity|reflexivity].
Qed.

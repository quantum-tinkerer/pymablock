(** * C07, mask laws of apply_mask_to_operator (NOF-dependent piece of C07)

  Property text (properties.jsonl, id C07): "... each order of the operator-valued H_tilde and U
  returned by block_diagonalize has the same matrix elements ... including operator-valued
  elimination masks and matrix-valued Hamiltonians. ..."  The generic theorems C01-C03 need the
  selection map to be additive and idempotent, to split every operator into a kept and an
  eliminated part, and to commute with the adjoint (for masks closed under negation of powers) and
  with multiplication by functions of number operators.

  Model: PV.NOF.Mask.apply_mask (one matrix element of apply_mask_to_operator =
  NumberOrderedForm.filter_terms with the keys of the mask element as conditions; condition entries
  are integers or symbolic powers k + n / k - n, n a positive integer symbol), tied to the code by
  tools/harness/k_nof.tie_mask. *)
Require Import List ZArith QArith Bool.
Require Import PV.NOF.Gauss PV.NOF.Coeff PV.NOF.Fock PV.NOF.FockLemmas PV.NOF.LinComb PV.NOF.Model
  PV.NOF.NofProof PV.NOF.Mask PV.NOF.C08Lemmas PV.NOF.C16C07Lemmas.
Import ListNotations.
Local Open Scope Z_scope.

Theorem C07_mask_additive : forall x y conds keep,
  apply_mask (add x y) conds keep = add (apply_mask x conds keep) (apply_mask y conds keep).
Proof. exact mask_additive. Qed.
Print Assumptions C07_mask_additive.

Theorem C07_mask_idempotent : forall x conds keep,
  apply_mask (apply_mask x conds keep) conds keep = apply_mask x conds keep.
Proof. exact mask_idempotent. Qed.
Print Assumptions C07_mask_idempotent.

(** keep=True and keep=False parts sum to the operator (as Fock-space operators, and term by term) *)
Theorem C07_mask_partition : forall ks x conds n,
  lc_eq (den ks (apply_mask x conds true) n ++ den ks (apply_mask x conds false) n) (den ks x n).
Proof. exact mask_partition. Qed.
Print Assumptions C07_mask_partition.
Theorem C07_mask_partition_terms : forall x conds t,
  In t x <-> In t (apply_mask x conds true) \/ In t (apply_mask x conds false).
Proof. exact mask_partition_keys. Qed.
Print Assumptions C07_mask_partition_terms.

Theorem C07_mask_adjoint : forall x conds keep,
  (forall p, matches conds (map Z.opp p) = matches conds p) ->
  apply_mask (adj x) conds keep = adj (apply_mask x conds keep).
Proof. exact mask_adjoint. Qed.
Print Assumptions C07_mask_adjoint.

(** selection commutes with multiplication by a function of number operators ([mulexpr]) *)
Theorem C07_mask_number : forall ks x e conds keep,
  NoDup (map fst x) ->
  apply_mask (mulexpr ks x e) conds keep = mulexpr ks (apply_mask x conds keep) e.
Proof. exact mask_mulexpr. Qed.
Print Assumptions C07_mask_number.

Example C07_mask_nonvacuous :
  (forall p, matches ex_conds (map Z.opp p) = matches ex_conds p) /\
  apply_mask ex_x ex_conds true <> [] /\ apply_mask ex_x ex_conds false <> [].
Proof.
  split; [apply matches_closed, ex_conds_closed|]. split; vm_compute; discriminate.
Qed.

(* C17 - Complement projector equals the matrix 1 - R L^dagger under every operator
   operation.

   "For all right/left vector sets, applying the projector from the left or right to
   vectors and matrices, taking its transpose, adjoint or conjugate, and composing it
   with other linear operators (including adjoint and right-multiplication of the
   composites) gives the same results as the dense matrix 1 - R L^dagger.  It is
   idempotent when L^dagger R = 1 and reports a consistent shape and dtype."

   Model: LinAlg/Projector.v (MathComp, any commutative ring R with an involutive ring
   morphism conj), LinAlg/Heap.v (object graph of the cached links, generic in the
   array type), LinAlg/ProjectorExec.v + ProjectorZ.v (executable list model run by the
   correspondence harness), LinAlg/ProjectorRefine.v (the executable model computes the
   MathComp model).  Vectors are the case m = 1 of n x m matrices. *)
From Coq Require Import ZArith.
From mathcomp Require Import ssreflect ssrfun ssrbool eqtype ssrnat seq fintype bigop.
From mathcomp Require Import ssralg zmodp matrix ssrint.
From PV Require Import LinAlg.Heap LinAlg.Projector LinAlg.ProjectorExec
  LinAlg.ProjectorRefine LinAlg.ProjectorZ LinAlg.Greens.
Set Implicit Arguments. Unset Strict Implicit. Unset Printing Implicit Defensive.
Import GRing.Theory.
Local Open Scope ring_scope.
Delimit Scope Z_scope with ZZ.

(* P @ v, P.matvec(v), P.matmat(v): _apply computes (1 - R L^H) v *)
Theorem C17_matvec (R : comRingType) (conj : {rmorphism R -> R}) n k
    (d : 'M[R]_(n,k) * 'M[R]_(n,k)) m (v : 'M[R]_(n,m)) :
  apply conj d v = den conj d *m v.
Proof. exact: apply_den. Qed.
Print Assumptions C17_matvec.

(* P.rmatvec(v), P.rmatmat(v): _apply_left computes (1 - R L^H)^H v *)
Theorem C17_rmatvec (R : comRingType) (conj : {rmorphism R -> R}) n k
    (d : 'M[R]_(n,k) * 'M[R]_(n,k)) m (v : 'M[R]_(n,m)) :
  involutive conj ->
  apply_left conj d v = adjm conj (den conj d) *m v.
Proof. by move=> cK; apply: apply_left_den. Qed.
Print Assumptions C17_rmatvec.

(* data built by _adjoint / conjugate / _transpose denote the transformed matrix *)
Theorem C17_adjoint (R : comRingType) (conj : {rmorphism R -> R}) n k
    (d : 'M[R]_(n,k) * 'M[R]_(n,k)) : involutive conj ->
  den conj (gact (@vconj R conj n k) FH d) = adjm conj (den conj d).
Proof. by move=> cK; rewrite (den_gact cK FH). Qed.
Print Assumptions C17_adjoint.

Theorem C17_conjugate (R : comRingType) (conj : {rmorphism R -> R}) n k
    (d : 'M[R]_(n,k) * 'M[R]_(n,k)) : involutive conj ->
  den conj (gact (@vconj R conj n k) FC d) = conjm conj (den conj d).
Proof. by move=> cK; rewrite (den_gact cK FC). Qed.
Print Assumptions C17_conjugate.

Theorem C17_transpose (R : comRingType) (conj : {rmorphism R -> R}) n k
    (d : 'M[R]_(n,k) * 'M[R]_(n,k)) : involutive conj ->
  den conj (gact (@vconj R conj n k) FT d) = (den conj d)^T.
Proof. by move=> cK; rewrite (den_gact cK FT). Qed.
Print Assumptions C17_transpose.

(* After any sequence of .T / .H / .conjugate() starting from any object of any heap
   satisfying the invariant (e.g. a freshly constructed projector), the object
   reached denotes the corresponding transform of the original dense matrix, the
   invariant is kept and all previously existing objects denote what they did. *)
Theorem C17_links (R : comRingType) (conj : {rmorphism R -> R}) n k
    (h : heap (matrix_eqType R n k)) (a : nat) (w : seq op) :
  involutive conj -> wf (@vconj R conj n k) h -> (a < next h)%N ->
  let r := run (@vconj R conj n k) h a w in
  [/\ wf (@vconj R conj n k) r.1, (r.2 < next r.1)%N,
      forall x, (x < next h)%N -> den_at conj r.1 x = den_at conj h x
    & den_at conj r.1 r.2 = foldl (@tr_op R conj n) (den_at conj h a) w].
Proof.
move=> cK W lt_a; have [W' lt' _ keep D] := run_ok (vconjK cK (k := k)) w W lt_a.
split=> //; rewrite /den_at; first by move=> x /keep[->].
by rewrite D den_word.
Qed.
Print Assumptions C17_links.

(* the constructor establishes the invariant *)
Theorem C17_links_init (V : eqType) (vconj : V -> V) (h : heap V) vs ls :
  involutive vconj -> wf vconj h -> wf vconj (alloc h vs ls).1.
Proof. by move=> vK; apply: wf_alloc. Qed.
Print Assumptions C17_links_init.

(* object identity (Python `is`): .H.H and .conjugate().conjugate() return the
   original object; stated for any array type, hence also for the executable model *)
Theorem C17_links_HH (V : eqType) (vconj : V -> V) (h : heap V) a :
  involutive vconj -> wf vconj h -> (a < next h)%N ->
  let r := adjoint h a in adjoint r.1 r.2 = (r.1, a).
Proof. by move=> vK; apply: (opf_twice vK (f := FH)). Qed.
Print Assumptions C17_links_HH.

Theorem C17_links_CC (V : eqType) (vconj : V -> V) (h : heap V) a :
  involutive vconj -> wf vconj h -> (a < next h)%N ->
  let r := conjugate vconj h a in conjugate vconj r.1 r.2 = (r.1, a).
Proof. by move=> vK; apply: (opf_twice vK (f := FC)). Qed.
Print Assumptions C17_links_CC.

(* .T.T returns the original object when the transpose was not cached before the
   first .T, or when the object is Hermitian (partial: see the next two statements) *)
Theorem C17_links_TT_partial (V : eqType) (vconj : V -> V) (h : heap V) a :
  involutive vconj -> wf vconj h -> (a < next h)%N ->
  lnk (cell h a) FT = None \/ herm (cell h a) ->
  let r := transpose vconj h a in transpose vconj r.1 r.2 = (r.1, a).
Proof.
move=> vK W lt_a C /=; apply: (opf_cached vconj (f := FT)); case: C => [E|ha].
  by rewrite /transpose E [(_, _).1]/= [(_, _).2]/= !setlE !eqxx.
have [R L] := transpose_ok vK W lt_a; case: (R) => W' lt' le keep _.
have lt_a' := leq_trans lt_a le; have [_ ha'] := keep a lt_a.
have [_ eTC] := wf_self W' lt_a' (etrans ha' ha).
have [_ _ Lb] := wf_sym (f := FC) W' lt_a' isT (etrans (esym eTC) L).
have hb : herm (cell (transpose vconj h a).1 (transpose vconj h a).2).
  by rewrite (reach_herm R) gact_herm // -(wf_herm W lt_a).
by have [_ ->] := wf_self W' lt' hb.
Qed.
Print Assumptions C17_links_TT_partial.

(* in general .T.T returns an object holding the same data (so the same matrix) *)
Theorem C17_links_TT_data (V : eqType) (vconj : V -> V) (h : heap V) a :
  involutive vconj -> wf vconj h -> (a < next h)%N ->
  let r := transpose vconj h a in
  let r2 := transpose vconj r.1 r.2 in dat (cell r2.1 r2.2) = dat (cell h a).
Proof.
move=> vK W lt_a /=; have [[W' lt' _ _ D] _] := transpose_ok vK W lt_a.
by have [[_ _ _ _ ->] _] := transpose_ok vK W' lt'; rewrite D gactK.
Qed.
Print Assumptions C17_links_TT_data.

(* ... but not always the same object: a cached transpose link of a non-Hermitian
   projector can be re-pointed by a later .T of another object holding the same data.
   Witness (replayed on /repo by k_projector): R = (1, 2i, 0), L = (1, 0, i),
   x = P.conjugate().H.T.T.H.conjugate().T.conjugate().H ; x.T.T is not x. *)
Definition C17_TT_R : zmat := [:: [:: (1,0)%ZZ]; [:: (0,2)%ZZ]; [:: (0,0)%ZZ]].
Definition C17_TT_L : zmat := [:: [:: (1,0)%ZZ]; [:: (0,0)%ZZ]; [:: (0,1)%ZZ]].
Definition C17_TT_w : seq op := [:: OpC; OpH; OpT; OpT; OpH; OpC; OpT; OpC; OpH].
Lemma C17_TT_witness :
  let r := zrun C17_TT_R (Some C17_TT_L) C17_TT_w in
  let r1 := transpose zconj r.1 r.2 in
  ((transpose zconj r1.1 r1.2).2 == r.2) = false.
Proof. by vm_compute. Qed.
Theorem C17_links_TT_identity_refuted :
  exists (R L : zmat) (w : seq op),
    let r := zrun R (Some L) w in
    let r1 := transpose zconj r.1 r.2 in
    (transpose zconj r1.1 r1.2).2 <> r.2.
Proof.
exists C17_TT_R, C17_TT_L, C17_TT_w; move=> r r1; apply/eqP.
exact: (negbT C17_TT_witness).
Qed.
Print Assumptions C17_links_TT_identity_refuted.

Theorem C17_idempotent (R : comRingType) (conj : {rmorphism R -> R}) n k
    (d : 'M[R]_(n,k) * 'M[R]_(n,k)) :
  adjm conj d.2 *m d.1 = 1%:M -> den conj d *m den conj d = den conj d.
Proof. exact: PkPk. Qed.
Print Assumptions C17_idempotent.

(* an object whose Hermitian flag is set denotes a Hermitian matrix *)
Theorem C17_hermitian_flag (R : comRingType) (conj : {rmorphism R -> R}) n k
    (h : heap (matrix_eqType R n k)) a :
  involutive conj -> wf (@vconj R conj n k) h -> (a < next h)%N ->
  herm (cell h a) -> adjm conj (den_at conj h a) = den_at conj h a.
Proof. by move=> cK W lt_a /(wf_herm_eq W lt_a) e; apply: (@den_herm _ _ cK _ _ (dat _) e). Qed.
Print Assumptions C17_hermitian_flag.

(* P A P, (P A P).H (generic wrapper and the product SciPy builds from the adjoint
   objects), (P A P).T and x @ (P A P) equal the dense results; derived from the
   LinearOperator contract of SciPy (trusted base) and C17_matvec, C17_rmatvec, C17_adjoint *)
Theorem C17_composites (R : comRingType) (conj : {rmorphism R -> R}) n k
    (d : 'M[R]_(n,k) * 'M[R]_(n,k)) (A : 'M[R]_n) :
  involutive conj ->
  let P := of_projector conj d in
  let PH := of_projector conj (gact (@vconj R conj n k) FH d) in
  let PAP := prod_op (prod_op P (of_dense conj A)) P in
  let M := den conj d *m A *m den conj d in
  [/\ denotes conj PAP M,
      denotes conj (adj_op PAP) (adjm conj M),
      denotes conj (prod_op PH (prod_op (of_dense conj (adjm conj A)) PH)) (adjm conj M),
      denotes conj (tr_lop conj PAP) M^T
    & forall p (x : 'M[R]_(p,n)), rdot (tr_lop conj PAP) x = x *m M].
Proof. by move=> cK; apply: composites. Qed.
Print Assumptions C17_composites.

(* shape is (n, n); dtype is the join of the dtypes of the two stored arrays and is
   the same for the adjoint, conjugate and transpose objects *)
Theorem C17_shape_dtype (f : fld) (vdt ldt : dtype) (hm : bool) (vshape : nat * nat) :
  (proj_shape vshape).1 = (proj_shape vshape).2 /\
  (proj_shape vshape).1 = vshape.1 /\
  let d := transform_dtypes f vdt ldt hm in
  proj_dtype d.1 d.2 hm = proj_dtype vdt ldt hm.
Proof.
by split=> //; split=> //; case: f; case: hm; rewrite /proj_dtype /= ?join_idem // join_comm.
Qed.
Print Assumptions C17_shape_dtype.

(* the executable model evaluated by the harness computes the MathComp model *)
Theorem C17_exec_refines (R : comRingType) (conj : {rmorphism R -> R}) n k m
    (Rv Lv v : seq (seq R)) :
  [/\ mxl n m (lapply 0 +%R (fun x y => x - y) *%R conj n k m Rv Lv v) =
        apply conj (mxl n k Rv, mxl n k Lv) (mxl n m v),
      mxl n m (lapply_left 0 +%R (fun x y => x - y) *%R conj n k m Rv Lv v) =
        apply_left conj (mxl n k Rv, mxl n k Lv) (mxl n m v)
    & mxl n n (lden 0 1 +%R (fun x y => x - y) *%R conj n k Rv Lv) =
        den conj (mxl n k Rv, mxl n k Lv)].
Proof.
by split; rewrite /lapply /lapply_left /lden !mxl_sub !mxl_mul !mxl_ctr ?mxl_id.
Qed.
Print Assumptions C17_exec_refines.

(* an involutive ring morphism and a non-trivial biorthogonal pair over int *)
Example C17_ex_conj : involutive (idfun : int -> int). Proof. by []. Qed.
Example C17_ex_biorth :
  adjm [rmorphism of idfun] (const_mx 1 : 'M[int]_(1,1)) *m (const_mx 1 : 'M[int]_(1,1)) = 1%:M.
Proof. by apply/matrixP=> i j; rewrite !mxE big_ord1 !mxE mulr1 !ord1. Qed.
(* a heap satisfying the invariant with a live non-Hermitian object in it *)
Example C17_ex_heap :
  let h := (alloc (empty (0 : 'M[int]_(2,1))) (const_mx 1) (Some (const_mx 2))).1 in
  wf (@vconj _ [rmorphism of idfun] 2 1) h /\ (0 < next h)%N /\ herm (cell h 0) = false.
Proof.
move=> h; split; first by apply: wf_alloc; apply: wf_empty.
split; first by [].
rewrite /h /alloc /= /init_obj /=.
by apply/negbTE/eqP => /matrixP /(_ ord0 ord0); rewrite !mxE.
Qed.
(* the executable instance: a word on a complex non-Hermitian projector *)
Example C17_ex_exec :
  zword_apply 3 1 1 C17_TT_R (Some C17_TT_L) [:: OpT; OpH] [:: [:: (1,1)%ZZ]; [:: (2,0)%ZZ]; [:: (3,-1)%ZZ]]
  = [:: [:: (-1, -3)%ZZ]; [:: (-6, 4)%ZZ]; [:: (3, -1)%ZZ]].
Proof. by vm_compute. Qed.

(* Props/C19.v

   C19  "BlockSeries indexing follows numpy semantics with exactly-once evaluation"

   For every index expression made of integers, lists and forward slices, indexing a
   BlockSeries returns what the same expression returns on the dense array of its
   element values, with absent (zero) elements masked; finite-dimension-only indices
   give a view with the same elements.  Each element is evaluated at most once while
   cached, infinite or negative order requests raise IndexError, and self-referential
   definitions raise RuntimeError instead of recursing forever.

   Models: PySeries/Cache.v (element cache, PENDING, except arms, pop, __contains__),
   PySeries/Index.v (np_index: SPECIFICATION of NumPy indexing, tied to NumPy by
   k_npindex), PySeries/GetItem.v (BlockSeries.__getitem__, views), tied to
   /repo/pymablock/series.py by k_getitem.
   Empty lists on an order dimension are outside the documented subset (TypeError).
   Non-vacuity: Cache.ex_run / ex_eval_respects, PySeries/C19Examples.v.
*)

Require Import List ZArith Arith Bool Lia.
Import ListNotations.
Require Import PV.PySeries.Sentinel PV.PySeries.Cache PV.PySeries.Index PV.PySeries.GetItem
        PV.PySeries.IndexProofs PV.PySeries.ViewProofs.

(* NumPy semantics.  A successful request series[item] (after the view branch) with
   result r: for EVERY extent ext' of a dense array that is at least the trial extent
   in the order dimensions, np_index applied to that array shape yields the same
   result shape and positions, every selected position was evaluated through the
   element cache (in np.where order, each once), and r consists of exactly these
   values (a scalar iff all indices are integers). *)
Theorem C19_numpy :
  forall (X : Type) (xdefault : X) (g : bcallback X) (hd : bshead) (s : sid)
         (item : list ix) (w w' : bworld X) (r : bsres X),
    bs_getitem_full xdefault g hd s item w = (Ok r, w') ->
    exists ext evald,
      extents (skipn (length (fshape hd)) item) = IOk ext /\
      forall ext', Forall2 le ext ext' ->
        exists shp poss,
          np_index (fshape hd ++ ext') item = IOk (shp, poss) /\
          eval_positions g s (sort_uniq poss) w = (Ok evald, w') /\
          (forall p, In p poss -> exists v, lookup_eval evald p = Some v) /\
          r = (if np_scalar (fshape hd ++ ext') item
               then RScalar (hd_default xdefault (map (value_at xdefault evald) poss))
               else RArray shp (map (value_at xdefault evald) poss)).
Proof.
  intros X xdefault g hd s item w w' r H.
  destruct (bs_getitem_full_ok _ _ _ _ _ _ H) as (B & A & ext & E).
  rewrite (bs_getitem_full_pass _ _ _ _ _ _ B A E) in H.
  destruct (np_index (fshape hd ++ ext) item) as [[shp poss]|] eqn:N; [|discriminate].
  destruct (eval_positions g s (sort_uniq poss) w) as [[evald|x|] w2] eqn:P; try discriminate.
  injection H as <- <-. exists ext, evald. split; [exact E|]. intros ext' Le.
  destruct (@np_index_extent (fshape hd) item ext ext') as [E1 E2]; auto; [lia|].
  exists shp, poss. rewrite E1, E2. repeat split; auto.
  intros p Hp. apply lookup_eval_in. rewrite (eval_positions_keys _ _ _ _ P).
  now apply in_sort_uniq.
Qed.
Print Assumptions C19_numpy.

(* Dense-array form with the mask: D is any dense array (of any sufficient extent)
   holding the element values; the result is D[item] and exactly the entries that are
   the sentinel zero are masked. *)
Theorem C19_numpy_dense :
  forall (X : Type) (xzero : X -> bool) (xdefault : X) (g : bcallback X) (hd : bshead) (s : sid)
         (item : list ix) (w w' : bworld X) (shp : list nat) (vals : list (bval X)),
    bs_getitem_full xdefault g hd s item w = (Ok (RArray shp vals), w') ->
    exists ext evald,
      extents (skipn (length (fshape hd)) item) = IOk ext /\
      forall ext' (D : index -> bval X),
        Forall2 le ext ext' ->
        (forall p v, lookup_eval evald p = Some v -> D p = v) ->
        exists poss,
          np_index (fshape hd ++ ext') item = IOk (shp, poss) /\
          vals = map D poss /\
          result_mask xzero (RArray shp vals) = map (fun p => bzero xzero (D p)) poss.
Proof.
  intros X xzero xdefault g hd s item w w' shp vals H.
  destruct (C19_numpy X xdefault g hd s item w w' (RArray shp vals) H) as (ext & evald & E & Hall).
  exists ext, evald. split; [exact E|]. intros ext' D Le HD.
  destruct (Hall ext' Le) as (shp' & poss & N & _ & Hin & R).
  destruct (np_scalar (fshape hd ++ ext') item); [discriminate|]. injection R as <- ->.
  exists poss. split; [exact N|].
  assert (map (value_at xdefault evald) poss = map D poss) as ->.
  { apply map_ext_in. intros p Hp. destruct (Hin p Hp) as (v & Hv).
    unfold value_at. rewrite Hv. symmetry. now apply HD. }
  split; [reflexivity|]. cbn. now rewrite map_map.
Qed.
Print Assumptions C19_numpy_dense.

(* The EVALUATED SET.  A request that passes the checks makes element requests (calls of the
   element cache, hence possibly of eval) for exactly the positions NumPy selects - for paired
   lists on several axes the pairs, NOT the Cartesian box of the per-axis selections -, each
   once (NoDup), in np.where (sorted) order, stopping at the first exception; the positions
   may be computed on a dense array of any sufficient extent.  In particular an element
   outside the selected set is never requested, so an eval that would raise there cannot
   make the request fail, and nothing outside the set gets cached by the request itself.
   (C19_numpy states the same list for successful requests only.) *)
Theorem C19_evaluated_set :
  forall (X : Type) (xdefault : X) (g : bcallback X) (hd : bshead) (s : sid) (item : list ix)
         (w : bworld X) (ext ext' shp : list nat) (poss : list (list nat)),
    existsb order_bad (skipn (length (fshape hd)) item) = false ->
    length item = length (fshape hd) + bninf hd ->
    extents (skipn (length (fshape hd)) item) = IOk ext ->
    Forall2 le ext ext' ->
    np_index (fshape hd ++ ext') item = IOk (shp, poss) ->
    bs_getitem_full xdefault g hd s item w =
      match eval_positions g s (sort_uniq poss) w with
      | (Ok evald, w') =>
          (Ok (if np_scalar (fshape hd ++ ext') item
               then RScalar (hd_default xdefault (map (value_at xdefault evald) poss))
               else RArray shp (map (value_at xdefault evald) poss)), w')
      | (Raise x, w') => (Raise x, w')
      | (OutOfFuel, w') => (OutOfFuel, w')
      end /\
    NoDup (sort_uniq poss) /\
    (forall p, In p (sort_uniq poss) <-> In p poss) /\
    (* the cache is asked for a prefix of that list, all of it iff no exception occurs *)
    (exists rest, sort_uniq poss = requested g s (sort_uniq poss) w ++ rest) /\
    (forall l w', eval_positions g s (sort_uniq poss) w = (Ok l, w') ->
                  requested g s (sort_uniq poss) w = sort_uniq poss).
Proof.
  intros X xdefault g hd s item w ext ext' shp poss B A E Le N. split.
  - destruct (@np_index_extent (fshape hd) item ext ext') as [E1 E2]; auto; [lia|].
    now rewrite (bs_getitem_full_pass _ _ _ _ _ _ B A E), <- E1, <- E2, N.
  - split; [apply sort_uniq_NoDup|]. split; [intros; apply in_sort_uniq|].
    split; [apply requested_prefix|]. intros. eapply requested_all; eauto.
Qed.
Print Assumptions C19_evaluated_set.

(* The independence of the extent by itself. *)
Theorem C19_extent_independent :
  forall (fs : list nat) (item : list ix) (ext ext' : list nat),
    length fs <= length item ->
    existsb order_bad (skipn (length fs) item) = false ->
    extents (skipn (length fs) item) = IOk ext ->
    Forall2 le ext ext' ->
    np_index (fs ++ ext') item = np_index (fs ++ ext) item /\
    np_scalar (fs ++ ext') item = np_scalar (fs ++ ext) item.
Proof. intros. eapply np_index_extent; eauto. Qed.
Print Assumptions C19_extent_independent.

(* IndexError: a slice without stop, a negative slice start or stop, a negative integer
   or list entry on an order dimension (order_bad, characterised below), or a wrong
   number of indices: IndexError, nothing evaluated, nothing changed. *)
Theorem C19_indexerror :
  forall (X : Type) (xdefault : X) (g : bcallback X) (hd : bshead) (s : sid)
         (item : list ix) (w : bworld X),
    (exists o, In o (skipn (length (fshape hd)) item) /\ order_bad o = true) \/
    length item <> length (fshape hd) + bninf hd ->
    bs_getitem_full xdefault g hd s item w = (Raise IndexError, w).
Proof.
  intros X xdefault g hd s item w [(o & Ho & B)|A]; unfold bs_getitem_full.
  - assert (existsb order_bad (skipn (length (fshape hd)) item) = true) as ->; auto.
    apply existsb_exists. eauto.
  - destruct (existsb order_bad (skipn (length (fshape hd)) item)); auto.
    apply Nat.eqb_neq in A. now rewrite A.
Qed.
Print Assumptions C19_indexerror.

Theorem C19_indexerror_classes :
  forall o : ix,
    order_bad o = true <->
    (exists start step, o = ISlice start None step) \/
    (exists st stop step, o = ISlice (Some st) stop step /\ (st < 0)%Z) \/
    (exists start sp step, o = ISlice start (Some sp) step /\ (sp < 0)%Z) \/
    (exists z, o = IInt z /\ (z < 0)%Z) \/
    (exists l z, o = IList l /\ In z l /\ (z < 0)%Z).
Proof. exact order_bad_spec. Qed.
Print Assumptions C19_indexerror_classes.

(* Views, all-integer item: created without evaluation; its element idx is exactly one
   element request (normalised item ++ idx) on the original - same value or exception,
   same effect on the caches. *)
Theorem C19_view :
  forall (X : Type) (xzero : X -> bool) (xdefault : X),
    (forall fuel (descs : list (bdesc X)) s (zs : list Z) (w : bworld X),
        length zs = length (fshape (bhead_at descs s)) -> 0 < bninf (bhead_at descs s) ->
        bs_request xzero xdefault fuel descs (QGet s (map IInt zs)) w =
        (OView (length descs) [],
         descs ++ [BViewInt (mkBS [] (bninf (bhead_at descs s))) s zs], w)) /\
    (forall (descs : list (bdesc X)) v h p (zs : list Z) fpos (g : bcallback X) (idx : index)
            (w : bworld X),
        nth_error descs v = Some (BViewInt h p zs) ->
        length zs = length (fshape (bhead_at descs p)) ->
        length idx = bninf (bhead_at descs p) ->
        Forall2 (fun dz n => norm_int (fst dz) (snd dz) = Some n)
                (combine (fshape (bhead_at descs p)) zs) fpos ->
        bs_eval xdefault descs v g idx w = g p (fpos ++ idx) w).
Proof.
  intros X xzero xdefault. split.
  - intros fuel descs s zs w L N. unfold bs_request.
    rewrite map_length, L, Nat.eqb_refl. apply Nat.ltb_lt in N. rewrite N. cbn [andb].
    assert (forallb is_int (map IInt zs) = true) as -> by (clear; induction zs; cbn; auto).
    assert (flat_map (fun i => match i with IInt z => [z] | _ => [] end) (map IInt zs) = zs) as ->
        by (clear; induction zs; cbn; auto; now f_equal).
    reflexivity.
  - intros descs v h p zs fpos g idx w D L1 L2 F. unfold bs_eval. rewrite D.
    rewrite (getitem_all_ints xdefault g (bhead_at descs p) p zs idx w L1 L2 F).
    now destruct (g p (fpos ++ idx) w) as [[x|e|] w'].
Qed.
Print Assumptions C19_view.

(* Views, item with lists / slices (code as repaired by 8db8abe): the view has the shape
   of np.empty(shape)[item]; with (vshape, poss) = np_index shape item, the hidden packed
   series holds at orders o the array, of shape vshape, of the elements (poss[k] ++ o) of
   the original (evaluated in np.where order through the cache), and the element
   (f ++ o) of the view is entry offset(f) of that array: numpy semantics on the finite
   dimensions at every order. *)
Theorem C19_view_lists_slices :
  forall (X : Type) (xzero : X -> bool) (xdefault : X),
    (forall fuel (descs : list (bdesc X)) s item vshape poss (w : bworld X),
        length item = length (fshape (bhead_at descs s)) -> 0 < bninf (bhead_at descs s) ->
        forallb is_int item = false ->
        np_index (fshape (bhead_at descs s)) item = IOk (vshape, poss) ->
        bs_request xzero xdefault fuel descs (QGet s item) w =
        (OView (S (length descs)) vshape,
         descs ++ [BPacked (mkBS [] (bninf (bhead_at descs s))) s item;
                   BViewArr (mkBS vshape (bninf (bhead_at descs s))) (length descs)], w)) /\
    (forall (descs : list (bdesc X)) q h p item vshape poss (g : bcallback X) (oidx : index)
            (w : bworld X),
        nth_error descs q = Some (BPacked h p item) ->
        length item = length (fshape (bhead_at descs p)) ->
        length oidx = bninf (bhead_at descs p) -> 0 < bninf (bhead_at descs p) ->
        np_index (fshape (bhead_at descs p)) item = IOk (vshape, poss) ->
        bs_eval xdefault descs q g oidx w =
        match eval_positions g p (sort_uniq (map (fun f => f ++ oidx) poss)) w with
        | (Ok evald, w') =>
            match elems_of (map (value_at xdefault evald) (map (fun f => f ++ oidx) poss)) with
            | Some xs => (Ok (BArr vshape xs), w')
            | None => (Raise (Other TypeError), w')
            end
        | (Raise x, w') => (Raise x, w')
        | (OutOfFuel, w') => (OutOfFuel, w')
        end) /\
    (forall (descs : list (bdesc X)) v h q (g : bcallback X) (fidx oidx : index) (w : bworld X),
        nth_error descs v = Some (BViewArr h q) ->
        length oidx = bninf h ->
        bs_eval xdefault descs v g (fidx ++ oidx) w =
        match g q oidx w with
        | (Ok (BArr shp xs), w') => (Ok (BElem (nth (offset shp fidx 0) xs xdefault)), w')
        | (Ok (BElem _), w') => (Raise (Other TypeError), w')
        | (Raise x, w') => (Raise x, w')
        | (OutOfFuel, w') => (OutOfFuel, w')
        end).
Proof.
  intros X xzero xdefault. split; [|split].
  - intros fuel descs s item vshape poss w L N I E. unfold bs_request.
    rewrite L, Nat.eqb_refl. apply Nat.ltb_lt in N. now rewrite N, I, E.
  - intros descs q h p item vshape poss g oidx w D L1 L2 Npos N. unfold bs_eval. rewrite D.
    rewrite (bs_getitem_full_orders xdefault g _ p _ _ w slice_code L1 L2), (np_index_tail _ _ oidx L1 N).
    destruct (eval_positions g p _ w) as [[evald|x|] w']; auto.
    assert (np_scalar (fshape (bhead_at descs p) ++ map (fun n => n + 1) oidx)
                      (item ++ map order_slice oidx) = false) as ->.
    { unfold np_scalar. rewrite forallb_app.
      destruct oidx as [|o r]; [cbn in L2; lia|]. cbn. now rewrite !andb_false_r. }
    destruct (elems_of _); auto.
    rewrite app_length, repeat_length, Nat.add_sub, firstn_app, Nat.sub_diag, firstn_all.
    cbn. now rewrite app_nil_r.
  - intros descs v h q g fidx oidx w D L. unfold bs_eval. rewrite D.
    rewrite app_length, <- L, Nat.add_sub.
    rewrite skipn_app, skipn_all, Nat.sub_diag, firstn_app, Nat.sub_diag, firstn_all. cbn.
    now rewrite app_nil_r.
Qed.
Print Assumptions C19_view_lists_slices.

(* Exactly-once.  (1) A cached element is returned with no effect at all: no eval call
   (the event log is part of the world).  (2) eval is called only for an absent key, with
   the key marked PENDING.  (3) For every eval that acts on the caches only through element
   requests and pop (eval_respects), e.g. all evals of the BlockSeries model, any script of
   user requests (indexing, `in`, pop) from a world with an empty log keeps: for every
   element, #eval calls <= #removals of its key (pop or exception clean-up) + 1. *)
Theorem C19_once :
  (forall (V E : Type) (eval : evalT V E) fuel s i (w : world V) v,
      wlookup w s i = Some (Done v) -> getitem eval (S fuel) s i w = (Ok v, w)) /\
  (forall (V E : Type) (eval : evalT V E) fuel s i (w : world V),
      wlookup w s i = None ->
      let w1 := log_event (EvEval s i) (set_entry s i Pending w) in
      wlookup w1 s i = Some Pending /\
      getitem eval (S fuel) s i w =
      match eval s (getitem eval fuel) i w1 with
      | (Ok v, w2) => (Ok v, set_entry s i (Done v) w2)
      | (Raise x, w2) => (Raise x, drop_entry s i w2)
      | (OutOfFuel, w2) => (OutOfFuel, drop_entry s i w2)
      end) /\
  (forall (V E : Type) (eval : evalT V E) (pops : bool),
      eval_respects pops eval ->
      forall fuel s i (w : world V), wf_world w -> once_inv w ->
        wf_world (snd (getitem eval fuel s i w)) /\ once_inv (snd (getitem eval fuel s i w))) /\
  (forall (X : Type) (xzero : X -> bool) (xdefault : X) fuel qs descs (w : bworld X),
      wf_world w -> once_inv w ->
      let '(_, _, w') := bs_script xzero xdefault fuel descs qs w in
      forall s i, n_evals s i w' <= n_removals s i w' + 1).
Proof.
  split; [|split; [|split]].
  - intros. now apply getitem_hit.
  - intros V E eval fuel s i w L w1. split; [|now apply getitem_miss].
    unfold w1. now rewrite wlookup_start, same_key_refl.
  - intros. eapply getitem_once; eauto.
  - intros X xzero xdefault fuel qs descs w W I.
    pose proof (@bs_script_once X xzero xdefault fuel qs descs w (conj W I)) as H.
    destruct (bs_script xzero xdefault fuel descs qs w) as [[os d] w']. apply H.
Qed.
Print Assumptions C19_once.

(* Recursion.  A request for an element whose evaluation is in progress raises
   RuntimeError at once (no fuel is consumed by the loop); an eval that requests its own
   element therefore yields RuntimeError (re-raised by the `except RuntimeError` arm) and
   its key does not stay behind. *)
Theorem C19_recursion :
  (forall (V E : Type) (eval : evalT V E) fuel s i (w : world V),
      wlookup w s i = Some Pending -> getitem eval (S fuel) s i w = (Raise RuntimeError, w)) /\
  (forall (V E : Type) (eval : evalT V E) fuel s i (w : world V),
      wf_world w -> wlookup w s i = None ->
      (forall g w1, eval s g i w1 = g s i w1) ->
      fst (getitem eval (S (S fuel)) s i w) = Raise RuntimeError /\
      wlookup (snd (getitem eval (S (S fuel)) s i w)) s i = None).
Proof.
  split.
  - intros. now apply getitem_pending.
  - intros V E eval fuel s i w W L Hself.
    rewrite getitem_miss, Hself, getitem_pending by (auto; now rewrite wlookup_start, same_key_refl).
    split; [reflexivity|]. cbn [snd]. rewrite wlookup_drop by now apply wf_start.
    now rewrite same_key_refl.
Qed.
Print Assumptions C19_recursion.

(* Clean-up after exceptions.  For evals acting only through element requests: whatever a
   request returns (value, any exception class, out of fuel), the set of PENDING keys is
   as before and all evaluated entries present before are unchanged; if it did not return
   a value, the requested key itself is as before (no PENDING marker left). *)
Theorem C19_exn_cleanup :
  (forall (V E : Type) (eval : evalT V E),
      eval_respects false eval ->
      forall fuel s i (w : world V),
        wf_world w ->
        let w' := snd (getitem eval fuel s i w) in
        wf_world w' /\
        (forall s' i', wlookup w' s' i' = Some Pending <-> wlookup w s' i' = Some Pending) /\
        (forall s' i' v, wlookup w s' i' = Some (Done v) -> wlookup w' s' i' = Some (Done v))) /\
  (forall (V E : Type) (eval : evalT V E) fuel s i (w : world V),
      wf_world w -> eval_respects false eval ->
      (forall v, fst (getitem eval fuel s i w) <> Ok v) ->
      wlookup (snd (getitem eval fuel s i w)) s i = wlookup w s i) /\
  (forall (X : Type) (xdefault : X) (descs : list (bdesc X)),
      eval_respects false (bs_eval xdefault descs)).
Proof.
  split; [|split].
  - intros V E eval He fuel s i w W. exact (getitem_frame He fuel s i W).
  - intros V E eval fuel s i w W He N. destruct fuel as [|f]; [reflexivity|].
    destruct (wlookup w s i) as [[|v]|] eqn:L.
    + now rewrite getitem_pending.
    + now rewrite (getitem_hit eval f s i w L).
    + rewrite getitem_miss in * by auto.
      destruct (He _ (@frame_refl V) (@frame_trans V) (fun H => False_ind _ (diff_false_true H))
                   (getitem eval f) (getitem_frame He f) s i _ (wf_start s i W)) as [W2 _].
      destruct (eval s (getitem eval f) i _) as [[v|x|] w2]; cbn in *.
      * destruct (N v eq_refl).
      * rewrite wlookup_drop, same_key_refl; auto.
      * rewrite wlookup_drop, same_key_refl; auto.
  - intros. apply bs_eval_respects.
Qed.
Print Assumptions C19_exn_cleanup.

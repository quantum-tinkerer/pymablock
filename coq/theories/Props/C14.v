(* C14: "A given Hamiltonian series yields the same H_tilde, U and U† whether it is passed as a
   list, a dict with order tuples or monomial keys, a sympy matrix with symbols (analytic
   dependence Taylor-expanded), nested block lists or a BlockSeries, with dense, sparse or
   symbolic values, and whether the blocks are designated by subspace_indices or by the
   corresponding eigenvector matrices. Passing any unitary (or biorthogonal) eigenbasis of H_0
   is equivalent to rotating the Hamiltonian into that basis first, and
   operator_to_BlockSeries returns exactly the blocks L_i† A R_j."

   Models: Front/Normalize.v (containers: _list_to_dict, _dict_to_BlockSeries,
   _symbolic_keys_to_tuples, _sympy_to_BlockSeries, _unpack_blocks, passthrough),
   Front/Project.v (operator_to_BlockSeries, _subspaces_from_indices).  block_diagonalize
   consumes only the normalised series, so inputs with the same normal form give the same
   H_tilde, U, U† (determinism; tied by k_formats).  Dense / sparse / symbolic values are one
   model: their equivalence is the correspondence of the three implementations with it.
   "Passing an eigenbasis = rotating first" is Props/C15.v, C15_degenerate_rotation (an instance
   of the transport theorems of Alg/Equivariance.v); here: C14_projection.

   Partial: C14_taylor_partial covers POLYNOMIAL dependence on the symbols; for non-polynomial
   analytic dependence the code relies on sympy's diff, which is not modelled. *)

Require Import List Bool Arith ZArith Sorted.
Require Import PV.Front.Normalize PV.Front.NormalizeProofs PV.Front.NormalizeInst.
Require Import PV.Front.GaussQc PV.Front.SylvDiagProofs PV.Front.Project.
Import ListNotations.

(* All container formats that denote the same family {order -> matrix} normalise to the same
   series: same coefficient at every order, absent = zero.  [den] says what each container
   denotes (list: h_0 at order 0 and h_i at the i-th unit order; tuple-key dict: its items;
   monomial-key dict: the value stored under prod_s s^(n_s), symbols in name order; polynomial
   sympy matrix: its coefficient function; BlockSeries: itself). *)
Theorem C14_formats :
  forall (W : Vals) (c1 c2 : container W) s1 s2,
  to_scalar_series W c1 = Ok s1 -> to_scalar_series W c2 = Ok s2 ->
  (forall n, den W c1 n = den W c2 n) ->
  forall n, coeff_of W (s1 n) = coeff_of W (s2 n).
Proof.
  intros W c1 c2 s1 s2 H1 H2 Hd n. rewrite (nf_den W _ _ _ H1), (nf_den W _ _ _ H2). apply Hd.
Qed.
Print Assumptions C14_formats.

Theorem C14_normal_form :
  forall (W : Vals) (c : container W) s n,
  to_scalar_series W c = Ok s -> coeff_of W (s n) = den W c n.
Proof. exact nf_den. Qed.
Print Assumptions C14_normal_form.

(* _list_to_dict: [h_0; h_1; ..; h_k] has h_0 at order (0,..,0), h_i at the unit order e_i and
   nothing else *)
Theorem C14_list_orders :
  forall (W : Vals) h0 ps d,
  list_to_dict W (h0 :: ps) = Some d ->
  lookup W d (repeat 0 (length ps)) = Some h0 /\
  (forall i, i < length ps -> lookup W d (unit_vec (length ps) i) = nth_error ps i) /\
  (forall n, n <> repeat 0 (length ps) ->
             (forall i, i < length ps -> n <> unit_vec (length ps) i) -> lookup W d n = None).
Proof.
  intros W h0 ps d H. split; [|split].
  - rewrite (lookup_list_to_dict W _ _ _ _ H), order_eqb_refl. reflexivity.
  - intros i Hi. rewrite (lookup_list_to_dict W _ _ _ _ H), unit_index_unit by exact Hi.
    rewrite order_eqb_false; [reflexivity|]. intro E. symmetry in E. exact (unit_vec_not_zero _ _ Hi E).
  - intros n Hz Hu. rewrite (lookup_list_to_dict W _ _ _ _ H), order_eqb_false by congruence.
    destruct (unit_index (length ps) n) as [i|] eqn:Ei; [|reflexivity].
    destruct (unit_index_some _ _ _ Ei) as [Hi E]. destruct (Hu i Hi). symmetry. exact E.
Qed.
Print Assumptions C14_list_orders.

(* _symbolic_keys_to_tuples: the symbol tuple is strictly increasing in the name order and
   consists exactly of the symbols occurring in the keys *)
Theorem C14_symbols_sorted :
  forall keys : list monomial,
  StronglySorted lt (symbols_of keys) /\
  forall s, In s (symbols_of keys) <-> exists m p, In m keys /\ In (s, p) m.
Proof. intro keys. split; [apply symbols_of_sorted|apply symbols_of_in]. Qed.
Print Assumptions C14_symbols_sorted.

(* _sympy_to_BlockSeries, polynomial dependence: the derivative / factorial chain evaluated at
   zero is the Taylor coefficient, and the element is that coefficient times the monomial *)
Theorem C14_taylor_partial :
  forall (W : Vals) (P : poly W) n,
  taylor W P n = P n /\
  sympy_to_series W P n = if vzerob W (P n) then None else Some (EV n (P n)).
Proof. intros W P n. split; [apply taylor_coeff|apply sympy_to_series_spec]. Qed.
Print Assumptions C14_taylor_partial.

(* An explicit [symbols] list of a sympy Matrix / Expr input is used in the USER'S order, whatever
   the names: index i of an order tuple counts the i-th symbol of the list (the name-sorted order
   of C14_symbols_sorted concerns monomial-key dicts only).  Element n is the coefficient of
   prod_i given_i ^ n_i times that monomial. *)
Theorem C14_explicit_symbols :
  forall (W : Vals) (given free_order : list nat) (Q : npoly W) n,
  given <> [] -> NoDup given ->
  resolve_symbols given free_order = given /\
  sympy_named_series W given free_order Q n =
    (if vzerob W (Q (powers_of given n)) then None else Some (EV n (Q (powers_of given n)))) /\
  forall i, i < length given -> powers_of given n (nth i given 0) = nth i n 0.
Proof.
  intros W given free_order Q n Hne Hnd.
  assert (Hr : resolve_symbols given free_order = given) by (destruct given; [congruence|reflexivity]).
  split; [exact Hr|split].
  - unfold sympy_named_series. rewrite Hr. apply sympy_to_series_spec.
  - intros i Hi. apply powers_of_nth; assumption.
Qed.
Print Assumptions C14_explicit_symbols.

(* symbols=None (all free symbols perturbative): the order is the iteration order of a Python set,
   a fact of the call ([free_order]); index i counts the i-th symbol of that order.  (A single
   Symbol passed as [symbols] is the one-element list of C14_explicit_symbols.) *)
Theorem C14_default_symbols :
  forall (W : Vals) (free_order : list nat) (Q : npoly W) n,
  NoDup free_order ->
  sympy_named_series W [] free_order Q n =
    (if vzerob W (Q (powers_of free_order n)) then None else Some (EV n (Q (powers_of free_order n)))) /\
  forall i, i < length free_order -> powers_of free_order n (nth i free_order 0) = nth i n 0.
Proof.
  intros W free_order Q n Hnd. split; [apply sympy_to_series_spec|].
  intros i Hi. apply powers_of_nth; assumption.
Qed.
Print Assumptions C14_default_symbols.

(* _unpack_blocks: element (i, j, n) is grid_n[i][j]; absent orders stay absent *)
Theorem C14_blocks :
  forall (W : Vals) (s : order -> option (grid W)) i j n,
  (forall g row v, s n = Some g -> nth_error g i = Some row -> nth_error row j = Some v ->
                   vz W (unpack_blocks W s i j n) = v) /\
  (s n = None -> unpack_blocks W s i j n = None).
Proof.
  intros W s i j n. split.
  - intros g row v. apply unpack_blocks_spec.
  - apply unpack_blocks_absent.
Qed.
Print Assumptions C14_blocks.

(* operator_to_BlockSeries: element (i, j, n) is L_i† A_n R_j (entry formula with genuine sums),
   the sentinel zero when A_n is absent *)
Theorem C14_projection :
  forall (F : Fld) (S : setup F) (M : fmat F) i j a b,
  a < s_size F S i -> b < s_size F S j ->
  oget F (direct F S (Some M) i j) a b =
  fsum F (s_N F S) (fun l =>
    kmul F (fsum F (s_N F S) (fun k => kmul F (kconj F (s_L F S i k a)) (M k l))) (s_R F S j l b)).
Proof.
  intros F S M i j a b Ha Hb.
  rewrite (op_eval_direct F S (Some M) M i j a b eq_refl Ha Hb). apply project_entry.
Qed.
Print Assumptions C14_projection.

(* with subspace_indices it is the sub-matrix rows(i) x cols(j) *)
Theorem C14_projection_indices :
  forall (F : Fld) (sub : list nat) (M : fmat F) i j a b,
  a < length (positions sub i) -> b < length (positions sub j) ->
  oget F (direct F (setup_of_indices F sub) (Some M) i j) a b =
  M (nth a (positions sub i) (length sub)) (nth b (positions sub j) (length sub)).
Proof.
  intros F sub M i j a b Ha Hb. rewrite (op_eval_direct F _ _ M) by (auto; assumption).
  cbn [setup_of_indices s_N s_L s_R]. apply project_indices; apply positions_lt; assumption.
Qed.
Print Assumptions C14_projection_indices.

(* hermitian=True: for i > j the code returns Dagger of element (j, i); for a Hermitian A_n and a
   single basis per block this agrees with the direct projection *)
Theorem C14_hermitian_fill :
  forall (F : Fld) (S : setup F) (M : fmat F) i j a b,
  (forall b, s_L F S b = s_R F S b) ->
  (forall k l, k < s_N F S -> l < s_N F S -> M l k = kconj F (M k l)) ->
  j < i -> a < s_size F S i -> b < s_size F S j ->
  oget F (op_eval F S true (Some M) i j) a b = oget F (direct F S (Some M) i j) a b.
Proof.
  intros F S M i j a b HLR HA Hji Ha Hb. unfold op_eval.
  apply Nat.ltb_lt in Hji. rewrite Hji. cbn [andb direct].
  rewrite oget_adj_convert, oget_convert, !HLR by assumption. apply fadj_project, HA.
Qed.
Print Assumptions C14_hermitian_fill.

(* 3 + 5 x y^2 + 7 x^2 : the chain returns the coefficients; the list [3; 4; 9], the dict and
   the monomial-key dict {1: 3, y: 9, x: 4} (x < y in name order) denote the same family *)
Example C14_taylor_ex :
  let P : poly ZVals := fun e => if order_eqb e [0; 0] then 3%Z else if order_eqb e [1; 2] then 5%Z
                                 else if order_eqb e [2; 0] then 7%Z else 0%Z in
  taylor ZVals P [1; 2] = 5%Z /\ taylor ZVals P [2; 0] = 7%Z /\ taylor ZVals P [1; 1] = 0%Z.
Proof. vm_compute. auto. Qed.

(* 3 + 5 x y^2 with symbols = [y; x] (ranks: x = 0, y = 1): index (2, 1) is y^2 x *)
Example C14_explicit_symbols_ex :
  let Q : npoly ZVals := fun pw => if (pw 0 =? 1) && (pw 1 =? 2) then 5%Z
                                   else if (pw 0 =? 0) && (pw 1 =? 0) then 3%Z else 0%Z in
  sympy_named_series ZVals [1; 0] [0; 1] Q [2; 1] = Some (@EV ZVals [2; 1] 5%Z) /\
  sympy_named_series ZVals [1; 0] [0; 1] Q [1; 2] = None /\
  sympy_named_series ZVals [] [0; 1] Q [1; 2] = Some (@EV ZVals [1; 2] 5%Z).
Proof.
  (* not vm_compute: it would normalise the proof fields of [ZVals] inside [@EV ZVals] *)
  intro Q. repeat split; reflexivity.
Qed.

Example C14_formats_ex :
  let cl : container ZVals := @CList ZVals ([3%Z; 4%Z; 9%Z] : list (V ZVals)) in
  let cd : container ZVals := @CDict ZVals ([([0; 1], 9%Z); ([0; 0], 3%Z); ([1; 0], 4%Z)] : fam ZVals) in
  let cm : container ZVals := @CMono ZVals ([([], 3%Z); ([(1, 1)], 9%Z); ([(0, 1)], 4%Z)] : list (monomial * V ZVals)) in
  forall n, In n [[0; 0]; [1; 0]; [0; 1]; [1; 1]] ->
  den ZVals cl n = den ZVals cd n /\ den ZVals cd n = den ZVals cm n.
Proof. intros cl cd cm n H. cbn in H. destruct H as [<-|[<-|[<-|[<-|[]]]]]; vm_compute; auto. Qed.

Definition Fx : Fld := GF (qc 0 1) eq_refl.
Example C14_projection_ex :
  let sub := [0; 1; 0] in
  let M : fmat Fx := fun k l => gz (Z.of_nat (10 * k + l)) in
  keqb Fx (oget Fx (direct Fx (setup_of_indices Fx sub) (Some M) 0 1) 1 0) (gz 21) = true /\
  keqb Fx (oget Fx (direct Fx (setup_of_indices Fx sub) (Some M) 0 0) 1 0) (gz 20) = true.
Proof. vm_compute. auto. Qed.

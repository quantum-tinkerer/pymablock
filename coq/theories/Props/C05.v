(** C05 - Non-Hermitian: U_inv inverts U, U_inv H U = H_tilde, eliminated part zero.

    In [nonhermitian_alg] the output series named "U†" holds U_inv (the name is that of
    algorithms.py), so [sol "U†"] below is the inverse, not an adjoint.
    For every [BlockAlg] and every solution of the GENERATED program [nonhermitian_alg]
    (translated from /repo/pymablock/algorithms.py on every run), for symmetric and asymmetric
    masks alike ([Sel] is arbitrary):
    - [C05_inverse_l], [C05_inverse_r]: U_inv U = U U_inv = 1 as Cauchy products;
    - [C05_gauge]: U - U_inv has no kept element;
    - [C05_kept_partial], [C05_eliminated_partial]: the similarity statements, under the EXTRA
      hypothesis (last premise) that every kept matrix element connects equal unperturbed
      energies, [H_0, S x] = 0.  This hypothesis is narrower than the property: for inputs
      with a kept element connecting different energies the property is FALSE on the unchanged
      code (the X_S line of the algorithm omits [H_0, U'_S]) - known finding
      C05-kept-distinct-energies, replayed on the implementation by the check.
    The clause "on Hermitian input the outputs coincide with the Hermitian mode" is
    [C05_hermitian_coincide_partial] (same extra hypothesis), and checked by the oracle. *)
Require Import Ncring String List Morphisms.
From PV.Base Require Import Classes AlgLemmas.
From PV.DSL Require Import Syntax Sem.
From PV.Gen Require Import Algorithms_gen.
From PV.Alg Require Import NonHerm.
Open Scope string_scope.

Theorem C05_inverse_l :
  forall (T : Type) (r0 r1 : T) (add mul sub : T -> T -> T) (opp : T -> T) (req : T -> T -> Prop)
         (Ro : @Ring_ops T r0 r1 add mul sub opp req) (Rg : @Ring T r0 r1 add mul sub opp req Ro)
         (BA : BlockAlg T) (gflag : string -> bool) (rflag : string -> T -> T) (fenv : string -> list T -> T)
         (sol : string -> T),
    solution gflag rflag fenv sol nonhermitian_alg ->
    Proper (_==_ ==> _==_) (nsylv fenv) ->
    (forall k y, ord k y -> ord k (nsylv fenv y)) ->
    sol "U†" * sol "U" == 1.
Proof. intros. eapply nh_inverse_l; eassumption. Qed.
Print Assumptions C05_inverse_l.

Theorem C05_inverse_r :
  forall (T : Type) (r0 r1 : T) (add mul sub : T -> T -> T) (opp : T -> T) (req : T -> T -> Prop)
         (Ro : @Ring_ops T r0 r1 add mul sub opp req) (Rg : @Ring T r0 r1 add mul sub opp req Ro)
         (BA : BlockAlg T) (gflag : string -> bool) (rflag : string -> T -> T) (fenv : string -> list T -> T)
         (sol : string -> T),
    solution gflag rflag fenv sol nonhermitian_alg ->
    Proper (_==_ ==> _==_) (nsylv fenv) ->
    (forall k y, ord k y -> ord k (nsylv fenv y)) ->
    sol "U" * sol "U†" == 1.
Proof. intros. eapply nh_inverse_r; eassumption. Qed.
Print Assumptions C05_inverse_r.

Theorem C05_gauge :
  forall (T : Type) (r0 r1 : T) (add mul sub : T -> T -> T) (opp : T -> T) (req : T -> T -> Prop)
         (Ro : @Ring_ops T r0 r1 add mul sub opp req) (Rg : @Ring T r0 r1 add mul sub opp req Ro)
         (BA : BlockAlg T) (gflag : string -> bool) (rflag : string -> T -> T) (fenv : string -> list T -> T)
         (sol : string -> T),
    solution gflag rflag fenv sol nonhermitian_alg ->
    Proper (_==_ ==> _==_) (nsylv fenv) ->
    (forall k y, ord k y -> ord k (nsylv fenv y)) ->
    Sel (sol "U" - sol "U†") == 0.
Proof. intros. eapply nh_gauge; eassumption. Qed.
Print Assumptions C05_gauge.

Theorem C05_kept_partial :
  forall (T : Type) (r0 r1 : T) (add mul sub : T -> T -> T) (opp : T -> T) (req : T -> T -> Prop)
         (Ro : @Ring_ops T r0 r1 add mul sub opp req) (Rg : @Ring T r0 r1 add mul sub opp req Ro)
         (BA : BlockAlg T) (gflag : string -> bool) (rflag : string -> T -> T) (fenv : string -> list T -> T)
         (sol : string -> T),
    solution gflag rflag fenv sol nonhermitian_alg ->
    Proper (_==_ ==> _==_) (nsylv fenv) ->
    (forall k y, ord k y -> ord k (nsylv fenv y)) ->
    Sel (Zc (sol "H")) == Zc (sol "H") ->
    (forall x, Sel (comm (Zc (sol "H")) x) == comm (Zc (sol "H")) (Sel x)) ->
    (forall y, Rp (comm (Zc (sol "H")) (nsylv fenv y)) == Rp y) ->
    (forall x, comm (Zc (sol "H")) (Sel x) == 0) ->
    Sel (sol "U†" * sol "H" * sol "U") == sol "H_tilde".
Proof. intros. eapply nh_kept_partial; eassumption. Qed.
Print Assumptions C05_kept_partial.

Theorem C05_eliminated_partial :
  forall (T : Type) (r0 r1 : T) (add mul sub : T -> T -> T) (opp : T -> T) (req : T -> T -> Prop)
         (Ro : @Ring_ops T r0 r1 add mul sub opp req) (Rg : @Ring T r0 r1 add mul sub opp req Ro)
         (BA : BlockAlg T) (gflag : string -> bool) (rflag : string -> T -> T) (fenv : string -> list T -> T)
         (sol : string -> T),
    solution gflag rflag fenv sol nonhermitian_alg ->
    Proper (_==_ ==> _==_) (nsylv fenv) ->
    (forall k y, ord k y -> ord k (nsylv fenv y)) ->
    Sel (Zc (sol "H")) == Zc (sol "H") ->
    (forall x, Sel (comm (Zc (sol "H")) x) == comm (Zc (sol "H")) (Sel x)) ->
    (forall y, Rp (comm (Zc (sol "H")) (nsylv fenv y)) == Rp y) ->
    (forall x, comm (Zc (sol "H")) (Sel x) == 0) ->
    Rp (sol "U†" * sol "H" * sol "U") == 0.
Proof. intros. eapply nh_eliminated_partial; eassumption. Qed.
Print Assumptions C05_eliminated_partial.

(** The similarity clause is FALSE on the faithful model without the extra hypothesis: the
    tables [nh_wit_sols] (3 states, blocks {0,1} | {2}, H_0 = diag(0,1,3), order <= 2) satisfy
    every equation of the semantics of [nonhermitian_alg] ([nh_wit_check], decided by
    vm_compute on the executable reading Alg/SemExec.v) while the kept part of U_inv H U
    differs from H_tilde.  The same input fails on the implementation (known finding). *)
From PV.Alg Require Import NHRefuted.
Theorem C05_similarity_refuted : nh_wit_check = true /\ nh_wit_kept = false.
Proof. exact nh_witness. Qed.
Print Assumptions C05_similarity_refuted.

(** Last clause: on Hermitian input the three outputs coincide with those of the Hermitian mode
    - proved in the domain of validity of the similarity theorems ([H_0, S x] = 0), by
    uniqueness of the similarity transformation with this gauge (Alg/UniqueNH.v). *)
From PV.Alg Require Import MainLift MainCorrect Coincide.
Theorem C05_hermitian_coincide_partial :
  forall (T : Type) (r0 r1 : T) (add mul sub : T -> T -> T) (opp : T -> T) (req : T -> T -> Prop)
         (Ro : @Ring_ops T r0 r1 add mul sub opp req) (Rg : @Ring T r0 r1 add mul sub opp req Ro)
         (BA : BlockAlg T) (gflag : string -> bool) (rflag : string -> T -> T) (fenv : string -> list T -> T)
         (solh soln : string -> T),
    solution (gflag_of false) rflag fenv solh main_alg ->
    solution gflag rflag fenv soln nonhermitian_alg ->
    wiring rflag fenv (solh "H") ->
    soln "H" == solh "H" ->
    (forall x, comm (Zc (solh "H")) (Sel x) == 0) ->
    (forall x, Rp (MainLift.sylv fenv (comm (Zc (solh "H")) (Rp x))) == Rp x) ->
    soln "U" == solh "U" /\ soln "U†" == solh "U†" /\ soln "H_tilde" == solh "H_tilde".
Proof.
  intros. split; [|split].
  - eapply nh_coincides_U; eassumption.
  - eapply nh_coincides_U; eassumption.
  - eapply nh_coincides_Ht; eassumption.
Qed.
Print Assumptions C05_hermitian_coincide_partial.

(** End-to-end form of the tie for the unconditional clauses (Alg/Trunc.v, Alg/TruncTieNH.v): when
    the executable reading accepts the implementation's tables for [nonhermitian_alg] ([check_alg],
    evaluated by vm_compute for every k_semeq case), U_inv U = U U_inv = 1 and the gauge condition
    hold for those tables up to total order N - as a theorem. *)
From PV.Alg Require Import SemExec SemExecSound TruncTieNH.
From PV.Series Require Import Exec.
From PV.Block Require Import QLemmas QInst.
Theorem C05_tie_conclusions :
  forall (D k N : nat) (bl : list nat) (msk : list (list bool)) (cb : list bool) (El : list gq) (tb : bool)
         (sols : list (string * tser gq)),
    check_alg D k N bl msk cb El tb sols nonhermitian_alg = true ->
    let BA := BAi D k bl msk cb in
    let sol := asol D k sols in
    eqN D k N (sol "U†" * sol "U") 1 /\
    eqN D k N (sol "U" * sol "U†") 1 /\
    eqN D k N (Sel (sol "U" - sol "U†")) 0.
Proof. intros. eapply nh_tie_conclusions; eassumption. Qed.
Print Assumptions C05_tie_conclusions.

(** the hypothesis is satisfiable: the witness of [C05_similarity_refuted] passes [check_alg] *)
Example C05_tie_conclusions_applies : nh_wit_check = true.
Proof. exact (proj1 nh_witness). Qed.

(** ... and the similarity clauses inside the class where they hold: [nh_inputs_ok] (a boolean,
    evaluated by vm_compute for the k_semeq cases) says that the mask is reflexive on the basis
    states, eliminated pairs have distinct energies, the loaded H has order-zero part diag(E) and
    every KEPT pair has EQUAL energies (outside this class the property is false on the unchanged
    code: known finding C05-kept-distinct-energies). *)
Theorem C05_tie_similarity_partial :
  forall (D k N : nat) (bl : list nat) (msk : list (list bool)) (cb : list bool) (El : list gq) (tb : bool)
         (sols : list (string * tser gq)),
    check_alg D k N bl msk cb El tb sols nonhermitian_alg = true ->
    nh_inputs_ok D k N bl msk cb El sols = true ->
    let BA := BAi D k bl msk cb in
    let sol := asol D k sols in
    eqN D k N (Sel (sol "U†" * sol "H" * sol "U")) (sol "H_tilde") /\
    eqN D k N (Rp (sol "U†" * sol "H" * sol "U")) 0.
Proof. intros. eapply nh_tie_similarity; eassumption. Qed.
Print Assumptions C05_tie_similarity_partial.

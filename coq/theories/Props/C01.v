(** C01 - Hermitian: U†HU equals H_tilde on kept elements, zero on eliminated ones.

    "For every Hermitian perturbative Hamiltonian accepted by block_diagonalize ... the Cauchy
    product U†·H·U of the returned series equals the returned H_tilde on every matrix element
    that is kept and is zero on every matrix element selected for elimination, at every
    perturbative order ... established from U and H, not read off H_tilde."

    Statements: for EVERY algebra [T] with the laws of [BlockAlg] (instance: multi-index series
    of block matrices with Cauchy product, Series/Inst.v: any number of blocks, block sizes,
    parameters, all orders at once), every valuation [sol] of the series names that satisfies
    the definitions of the GENERATED program [main_alg] (translated from
    /repo/pymablock/algorithms.py on every run), and every scope wired as block_diagonalize
    wires it ([wiring]).  The product  sol "U†" * sol "H" * sol "U"  is the plain triple
    (Cauchy) product; [Sel] selects the kept matrix elements, [Rp x = x - Sel x] the
    eliminated ones.  These are the clauses for two_block_optimized = False (any number of
    blocks, masks, fully_diagonalize); the two-block optimisation is [C01_*_two_block] below.
    Floating-point rounding is not modelled (exact arithmetic); see DESIGN.md. *)
Require Import Ncring String List.
From PV.Base Require Import Classes AlgLemmas.
From PV.DSL Require Import Syntax Sem.
From PV.Gen Require Import Algorithms_gen.
From PV.Alg Require Import MainLift MainCorrect.
Open Scope string_scope.

Theorem C01_kept :
  forall (T : Type) (r0 r1 : T) (add mul sub : T -> T -> T) (opp : T -> T) (req : T -> T -> Prop)
         (Ro : @Ring_ops T r0 r1 add mul sub opp req) (Rg : @Ring T r0 r1 add mul sub opp req Ro)
         (BA : BlockAlg T) (rflag : string -> T -> T) (fenv : string -> list T -> T) (sol : string -> T),
    solution (gflag_of false) rflag fenv sol main_alg ->
    wiring rflag fenv (sol "H") ->
    Sel (sol "U†" * sol "H" * sol "U") == sol "H_tilde".
Proof. intros. eapply kept_general; eassumption. Qed.
Print Assumptions C01_kept.

Theorem C01_eliminated :
  forall (T : Type) (r0 r1 : T) (add mul sub : T -> T -> T) (opp : T -> T) (req : T -> T -> Prop)
         (Ro : @Ring_ops T r0 r1 add mul sub opp req) (Rg : @Ring T r0 r1 add mul sub opp req Ro)
         (BA : BlockAlg T) (rflag : string -> T -> T) (fenv : string -> list T -> T) (sol : string -> T),
    solution (gflag_of false) rflag fenv sol main_alg ->
    wiring rflag fenv (sol "H") ->
    Rp (sol "U†" * sol "H" * sol "U") == 0.
Proof. intros. eapply eliminated_general; eassumption. Qed.
Print Assumptions C01_eliminated.

(** Two-block optimisation (two_block_optimized = True): same conclusions under [wiring_tb]. *)

Theorem C01_kept_two_block :
  forall (T : Type) (r0 r1 : T) (add mul sub : T -> T -> T) (opp : T -> T) (req : T -> T -> Prop)
         (Ro : @Ring_ops T r0 r1 add mul sub opp req) (Rg : @Ring T r0 r1 add mul sub opp req Ro)
         (BA : BlockAlg T) (rflag : string -> T -> T) (fenv : string -> list T -> T) (sol : string -> T),
    solution (gflag_of true) rflag fenv sol main_alg ->
    wiring_tb rflag fenv (sol "H") ->
    Sel (sol "U†" * sol "H" * sol "U") == sol "H_tilde".
Proof. intros. eapply kept_tb; eassumption. Qed.
Print Assumptions C01_kept_two_block.

Theorem C01_eliminated_two_block :
  forall (T : Type) (r0 r1 : T) (add mul sub : T -> T -> T) (opp : T -> T) (req : T -> T -> Prop)
         (Ro : @Ring_ops T r0 r1 add mul sub opp req) (Rg : @Ring T r0 r1 add mul sub opp req Ro)
         (BA : BlockAlg T) (rflag : string -> T -> T) (fenv : string -> list T -> T) (sol : string -> T),
    solution (gflag_of true) rflag fenv sol main_alg ->
    wiring_tb rflag fenv (sol "H") ->
    Rp (sol "U†" * sol "H" * sol "U") == 0.
Proof. intros. eapply eliminated_tb; eassumption. Qed.
Print Assumptions C01_eliminated_two_block.

(** The wiring hypotheses hold for the concrete algebra of multi-index series of block matrices
    with the diagonal solver ([inst_wiring], Alg/MainInst.v), so C01 applies to it: *)
Require Import Morphisms.
From PV.Series Require Import Inst SylvInst.
From PV.Block Require Import Mat Masks.
From PV.Alg Require Import MainInst MainWitness.

Theorem C01_kept_series_instance :
  forall (D k : nat) (R0 : Type) (r0 r1 : R0) (add mul sub : R0 -> R0 -> R0) (opp : R0 -> R0) (req : R0 -> R0 -> Prop)
         (Ro : @Ring_ops R0 r0 r1 add mul sub opp req) (Rg : @Ring R0 r0 r1 add mul sub opp req Ro) (CS : CStar R0)
         (blk : nat -> nat) (keep : nat -> nat -> bool) (cm : nat -> bool)
         (keep_sym : forall p q, keep p q = keep q p) (keep_refl : forall p, keep p p = true)
         (keep_blk : forall p q, keep p q = true -> blk p = blk q) (cm_blk : forall p q, blk p = blk q -> cm p = cm q)
         (keep_eucl : keep_eucl_on D keep cm) (E : nat -> R0) (inv : R0 -> R0),
    (forall p q, (p < D)%nat -> (q < D)%nat -> keep p q = false -> (E p - E q) * inv (E p - E q) == 1) ->
    (forall p, conj (E p) == E p) -> Proper (_==_ ==> _==_) inv ->
    (forall x, inv (- x) == - inv x) -> (forall x, conj (inv x) == inv (conj x)) ->
    let BA := series_BlockAlg D k blk keep cm keep_sym keep_blk cm_blk in
    forall (rflag : string -> T D k R0 -> T D k R0) (fenv : string -> list (T D k R0) -> T D k R0) (sol : string -> T D k R0),
    (forall x, rflag "commuting_blocks" x == Rw x) ->
    (forall y, fenv "solve_sylvester" (cons y nil) == SylvInst.sylv E inv y) ->
    adj (sol "H") == sol "H" -> Zc (sol "H") == SylvInst.H0 D k E ->
    solution (gflag_of false) rflag fenv sol main_alg ->
    Sel (sol "U†" * sol "H" * sol "U") == sol "H_tilde".
Proof.
  intros D k R0 r0 r1 add mul sub opp req Ro Rg CS blk keep cm keep_sym keep_refl keep_blk cm_blk keep_eucl E inv
         Hinv Hreal HinvP Hopp Hconj BA rflag fenv sol Hrf Hfe Hh Hz Hsol.
  apply (@C01_kept (T D k R0) _ _ _ _ _ _ _ _ _ BA rflag fenv sol Hsol).
  exact (@inst_wiring D k R0 _ _ _ _ _ _ _ _ Rg CS blk keep cm keep_sym keep_refl keep_blk cm_blk keep_eucl E inv
           Hinv Hreal HinvP Hopp Hconj rflag fenv Hrf Hfe (sol "H") Hh Hz).
Qed.
Print Assumptions C01_kept_series_instance.

(** Non-vacuity (Alg/MainWitness.v): a concrete valuation satisfying every equation of
    [main_alg] up to total order 2, on which the two conclusions are confirmed by computation. *)
Example C01_hypotheses_satisfiable : main_wit_check = true /\ main_wit_kept = true /\ main_wit_elim = true.
Proof. exact main_witness. Qed.

(** Soundness of the correspondence check k_semeq (Alg/SemExecSound.v): when the executable
    reading accepts the implementation's tables, their denotations satisfy every equation of
    the semantics of the program in the concrete [BlockAlg] of Series/Inst.v, up to total
    order N ([sem_holds_upto] is that conjunction, see its definition). *)
From PV.Alg Require Import SemExec SemExecSound.
From PV.Series Require Import Exec.
From PV.Block Require Import QLemmas QInst.
Theorem C01_tie_sound :
  forall (D k N : nat) (bl : list nat) (msk : list (list bool)) (cb : list bool) (El : list gq) (tb : bool)
         (sols : list (string * tser gq)) (alg : algorithm),
    check_alg D k N bl msk cb El tb sols alg = true -> sem_holds_upto D k N bl msk cb El tb sols alg.
Proof. exact check_alg_sound. Qed.
Print Assumptions C01_tie_sound.

(** End-to-end form of the tie (Alg/Trunc.v, TruncMain.v, TruncTie.v): the truncation of a
    [BlockAlg] at order N+1 is again a [BlockAlg] (given that the half-sum respects the truncated
    equality, [hsum_trunc]); a valuation passing [check_alg] is a solution of
    [main_alg] there; hence the conclusions of C01 (and C02, C03) hold for the implementation's
    tables themselves up to total order N.  Both hypotheses are booleans evaluated by vm_compute
    in the correspondence check k_semeq for every loaded case: [check_alg] (every equation of the
    semantics) and [inputs_ok] (mask reflexive on the D basis states and euclidean, eliminated
    pairs have distinct real energies, the loaded H is Hermitian with order-zero part diag(E)). *)
From PV.Alg Require Import TruncTie.
Theorem C01_tie_conclusions :
  forall (D k N : nat) (bl : list nat) (msk : list (list bool)) (cb : list bool) (El : list gq)
         (sols : list (string * tser gq)),
    check_alg D k N bl msk cb El false sols main_alg = true ->
    inputs_ok D k N bl msk cb El sols = true ->
    let BA := BAi D k bl msk cb in
    let sol := asol D k sols in
    eqN D k N (Sel (sol "U†" * sol "H" * sol "U")) (sol "H_tilde") /\
    eqN D k N (Rp (sol "U†" * sol "H" * sol "U")) 0 /\
    eqN D k N (sol "U†" * sol "U") 1 /\
    eqN D k N (sol "U" * sol "U†") 1 /\
    eqN D k N (adj (sol "U")) (sol "U†") /\
    eqN D k N (adj (sol "H_tilde")) (sol "H_tilde") /\
    eqN D k N (Sel (half ((sol "U" - 1) - adj (sol "U" - 1)))) 0.
Proof. intros. eapply tie_conclusions; eassumption. Qed.
Print Assumptions C01_tie_conclusions.

(** The same for the two-block optimisation (two_block_optimized = True): [tb_ok] says that there
    are at most two block labels, nothing inside them is eliminated and both carry the commuting flag. *)
From PV.Alg Require Import TruncTieTB.
Theorem C01_tie_conclusions_two_block :
  forall (D k N : nat) (bl : list nat) (msk : list (list bool)) (cb : list bool) (El : list gq)
         (sols : list (string * tser gq)),
    check_alg D k N bl msk cb El true sols main_alg = true ->
    inputs_ok D k N bl msk cb El sols = true ->
    tb_ok D bl msk cb = true ->
    let BA := BAi D k bl msk cb in
    let sol := asol D k sols in
    eqN D k N (Sel (sol "U†" * sol "H" * sol "U")) (sol "H_tilde") /\
    eqN D k N (Rp (sol "U†" * sol "H" * sol "U")) 0 /\
    eqN D k N (sol "U†" * sol "U") 1 /\
    eqN D k N (sol "U" * sol "U†") 1 /\
    eqN D k N (adj (sol "U")) (sol "U†") /\
    eqN D k N (adj (sol "H_tilde")) (sol "H_tilde") /\
    eqN D k N (Sel (half ((sol "U" - 1) - adj (sol "U" - 1)))) 0.
Proof. intros. eapply tie_conclusions_tb; eassumption. Qed.
Print Assumptions C01_tie_conclusions_two_block.

Import ListNotations.
Require Import QArith.
Example C01_tie_conclusions_applies :
  check_alg 4 2 2 [0;1;1;2]%nat [[true;false;false;false];[false;true;true;false];[false;true;true;false];[false;false;false;true]]
            [true;true;true] [((0#1),(0#1));((2#1),(0#1));((2#1),(0#1));((5#1),(0#1))]%Q false main_wit_sols main_alg = true /\
  inputs_ok 4 2 2 [0;1;1;2]%nat [[true;false;false;false];[false;true;true;false];[false;true;true;false];[false;false;false;true]]
            [true;true;true] [((0#1),(0#1));((2#1),(0#1));((2#1),(0#1));((5#1),(0#1))]%Q main_wit_sols = true.
Proof. split; vm_compute; reflexivity. Qed.


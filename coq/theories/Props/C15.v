(** C15 - "Relabelling blocks or permuting basis states, rotating the basis inside a degenerate
    level of H_0, complex-conjugating the Hamiltonian, adding a multiple of the identity to H_0,
    or scaling the whole Hamiltonian by a positive constant transforms H_tilde, U and U† in the
    corresponding way (permuted, rotated, conjugated, shifted only at order zero, scaled /
    unchanged). The result for a direct sum of decoupled Hamiltonians is the direct sum of the
    results."

    Statements are about the concrete algebra T D k R0 of k-parameter formal power series of
    D x D matrices over a commutative star ring R0 (Series/Inst.v), for every D, k, block
    labelling [blk], symmetric reflexive kept mask [keep] inside the diagonal blocks (euclidean
    on the blocks flagged [cm], as block_diagonalize wires it), real unperturbed energies [E]
    and solver [inv] inverting the eliminated energy differences.  [sol] / [sol'] are ANY
    valuations satisfying all equations of the generated Hermitian program [main_alg]
    (translated from /repo/pymablock/algorithms.py on every run) for the original / the
    transformed input; the conclusion relates all three outputs at all orders at once.
    Proof pattern: the symmetry is an [LAHom] (Alg/Equivariance.v) between the two instances, it
    maps the least-action transformation of H to one of the transformed H, and the
    least-action transformation is unique (Alg/Unique.v).  Shift, scale and direct sum are not
    homomorphisms and are proved directly from the least-action conditions + uniqueness.

    Assumed, as everywhere: exact arithmetic; the transformed problem is wired like the
    original one, i.e. no tolerance comparison of block_diagonalize flips (shift: only energy
    differences enter the solver; scale: [inv'] inverts the scaled differences - for the real
    code this is where positivity / not-too-small s matters). *)
Require Import Ncring String List Morphisms.
From PV.Base Require Import Classes AlgLemmas.
From PV.DSL Require Import Syntax Sem.
From PV.Gen Require Import Algorithms_gen.
From PV.Alg Require Import MainLift MainCorrect Unique Equivariance.
From PV.Series Require Import Inst SylvInst SymBase SymIdx SymConj SymPerm SymShift SymRot SymSum SymExamples SymWitness ExecExample.
From PV.Block Require Import Mat Masks QInst.
From PV.Alg Require Import MainWitness.
Open Scope string_scope.

(** complex conjugation: (cconj x) n p q = conj (x n p q) *)
Theorem C15_conjugation :
  forall (D k : nat) (R0 : Type) (r0 r1 : R0) (add mul sub : R0 -> R0 -> R0) (opp : R0 -> R0) (req : R0 -> R0 -> Prop)
         (Ro : @Ring_ops R0 r0 r1 add mul sub opp req) (Rg : @Ring R0 r0 r1 add mul sub opp req Ro) (CS : CStar R0)
         (blk : nat -> nat) (keep : nat -> nat -> bool) (cm : nat -> bool)
         (keep_sym : forall p q, keep p q = keep q p) (keep_refl : forall p, keep p p = true)
         (keep_blk : forall p q, keep p q = true -> blk p = blk q) (cm_blk : forall p q, blk p = blk q -> cm p = cm q)
         (keep_eucl : keep_eucl_on D keep cm) (E : nat -> R0) (inv : R0 -> R0),
    (forall p q, (p < D)%nat -> (q < D)%nat -> keep p q = false -> (E p - E q) * inv (E p - E q) == 1) ->
    (forall p, conj (E p) == E p) -> Proper (_==_ ==> _==_) inv ->
    (forall x, inv (- x) == - inv x) -> (forall x, conj (inv x) == inv (conj x)) ->
    let BA := series_BlockAlg D k blk keep cm keep_sym keep_blk cm_blk in
    forall (rflag rflag' : string -> T D k R0 -> T D k R0) (fenv fenv' : string -> list (T D k R0) -> T D k R0)
           (sol sol' : string -> T D k R0),
    (forall x, rflag "commuting_blocks" x == Rw x) ->
    (forall y, fenv "solve_sylvester" (cons y nil) == SylvInst.sylv E inv y) ->
    (forall x, rflag' "commuting_blocks" x == Rw x) ->
    (forall y, fenv' "solve_sylvester" (cons y nil) == SylvInst.sylv E inv y) ->
    solution (gflag_of false) rflag fenv sol main_alg ->
    solution (gflag_of false) rflag' fenv' sol' main_alg ->
    adj (sol "H") == sol "H" -> Zc (sol "H") == SylvInst.H0 D k E ->
    sol' "H" == cconj D k (sol "H") ->
    sol' "U" == cconj D k (sol "U") /\ sol' "U†" == cconj D k (sol "U†")
    /\ sol' "H_tilde" == cconj D k (sol "H_tilde").
Proof.
  intros D k R0 r0 r1 add mul sub opp req Ro Rg CS blk keep cm keep_sym keep_refl keep_blk cm_blk keep_eucl E inv
         Hinv Hreal HinvP Hopp Hconj BA rflag rflag' fenv fenv' sol sol' Hrf Hfe Hrf' Hfe' Hsol Hsol' Hh Hz Hin.
  exact (inst_transport D k blk keep cm keep_sym keep_refl keep_blk cm_blk keep_eucl E inv Hinv Hreal HinvP Hopp Hconj
           D k blk keep cm keep_sym keep_refl keep_blk cm_blk keep_eucl E inv Hinv Hreal HinvP Hopp Hconj
           (cconj D k) (cconj_LAHom D k blk keep cm keep_sym keep_blk cm_blk) (cconj_Zc D k blk keep cm keep_sym keep_blk cm_blk) (cconj_H0 D k E Hreal)
           rflag fenv rflag' fenv' Hrf Hfe Hrf' Hfe' sol sol' Hsol Hsol' Hh Hz Hin).
Qed.
Print Assumptions C15_conjugation.

Example C15_conjugation_applies :
  LAHom (BA := ex_BA) (BA' := ex_BA) (cconj 3 2).
Proof. exact (cconj_LAHom 3 2 ex_blk ex_keep ex_cm ex_keep_sym ex_keep_blk ex_cm_blk). Qed.

(** permutation of the basis states by a bijection pi of {0..D-1}: (sperm x) n p q = x n (pi p) (pi q);
    the transformed problem has the transported kept mask keep (pi p) (pi q), energies E (pi p) and ANY
    block labelling blk' / row flag cm' compatible with that mask *)
Theorem C15_basis_perm_general :
  forall (D k : nat) (R0 : Type) (r0 r1 : R0) (add mul sub : R0 -> R0 -> R0) (opp : R0 -> R0) (req : R0 -> R0 -> Prop)
         (Ro : @Ring_ops R0 r0 r1 add mul sub opp req) (Rg : @Ring R0 r0 r1 add mul sub opp req Ro) (CS : CStar R0)
         (blk : nat -> nat) (keep : nat -> nat -> bool) (cm : nat -> bool)
         (keep_sym : forall p q, keep p q = keep q p) (keep_refl : forall p, keep p p = true)
         (keep_blk : forall p q, keep p q = true -> blk p = blk q) (cm_blk : forall p q, blk p = blk q -> cm p = cm q)
         (keep_eucl : keep_eucl_on D keep cm) (E : nat -> R0) (inv : R0 -> R0),
    (forall p q, (p < D)%nat -> (q < D)%nat -> keep p q = false -> (E p - E q) * inv (E p - E q) == 1) ->
    (forall p, conj (E p) == E p) -> Proper (_==_ ==> _==_) inv ->
    (forall x, inv (- x) == - inv x) -> (forall x, conj (inv x) == inv (conj x)) ->
    forall (pi pinv : nat -> nat),
    (forall p, (p < D)%nat -> (pi p < D)%nat) -> (forall p, (p < D)%nat -> (pinv p < D)%nat) ->
    (forall p, (p < D)%nat -> pinv (pi p) = p) -> (forall p, (p < D)%nat -> pi (pinv p) = p) ->
    forall (blk' : nat -> nat) (cm' : nat -> bool)
           (keep_blk' : forall p q, keep_pi keep pi p q = true -> blk' p = blk' q)
           (cm_blk' : forall p q, blk' p = blk' q -> cm' p = cm' q),
    keep_eucl_on D (keep_pi keep pi) cm' ->
    let BAs := series_BlockAlg D k blk keep cm keep_sym keep_blk cm_blk in
    let BAt := series_BlockAlg D k blk' (keep_pi keep pi) cm' (keep_pi_sym keep keep_sym pi) keep_blk' cm_blk' in
    forall (rflag rflag' : string -> T D k R0 -> T D k R0) (fenv fenv' : string -> list (T D k R0) -> T D k R0)
           (sol sol' : string -> T D k R0),
    (forall x, rflag "commuting_blocks" x == Rw (BlockAlg := BAs) x) ->
    (forall y, fenv "solve_sylvester" (cons y nil) == SylvInst.sylv E inv y) ->
    (forall x, rflag' "commuting_blocks" x == Rw (BlockAlg := BAt) x) ->
    (forall y, fenv' "solve_sylvester" (cons y nil) == SylvInst.sylv (E_pi pi E) inv y) ->
    solution (BA := BAs) (gflag_of false) rflag fenv sol main_alg ->
    solution (BA := BAt) (gflag_of false) rflag' fenv' sol' main_alg ->
    adj (BlockAlg := BAs) (sol "H") == sol "H" -> Zc (BlockAlg := BAs) (sol "H") == SylvInst.H0 D k E ->
    sol' "H" == sperm D k pi (sol "H") ->
    sol' "U" == sperm D k pi (sol "U") /\ sol' "U†" == sperm D k pi (sol "U†")
    /\ sol' "H_tilde" == sperm D k pi (sol "H_tilde").
Proof.
  intros D k R0 r0 r1 add mul sub opp req Ro Rg CS blk keep cm keep_sym keep_refl keep_blk cm_blk keep_eucl E inv
         Hinv Hreal HinvP Hopp Hconj pi pinv pi_lt pinv_lt pinv_pi pi_pinv blk' cm' keep_blk' cm_blk' keep_eucl' BAs BAt rflag rflag' fenv fenv' sol sol' Hrf Hfe Hrf' Hfe' Hsol Hsol' Hh Hz Hin.
  exact (inst_transport D k blk keep cm keep_sym keep_refl keep_blk cm_blk keep_eucl E inv Hinv Hreal HinvP Hopp Hconj
           D k blk' (keep_pi keep pi) cm' (keep_pi_sym keep keep_sym pi) (keep_pi_refl keep keep_refl pi) keep_blk' cm_blk' keep_eucl'
           (E_pi pi E) inv (inv_spec_pi D keep pi pi_lt E inv Hinv) (fun p => Hreal (pi p)) HinvP Hopp Hconj
           (sperm D k pi) (sperm_LAHom D k blk keep cm keep_sym keep_blk cm_blk pi pinv pi_lt pinv_lt pinv_pi pi_pinv blk' cm' keep_blk' cm_blk')
           (sperm_Zc D k blk keep cm keep_sym keep_blk cm_blk pi blk' cm' keep_blk' cm_blk') (sperm_H0 D k pi pinv pinv_pi E)
           rflag fenv rflag' fenv' Hrf Hfe Hrf' Hfe' sol sol' Hsol Hsol' Hh Hz Hin).
Qed.
Print Assumptions C15_basis_perm_general.

(** the same blocks in the permuted basis: blk' = blk o pi, cm' = cm o pi *)
Theorem C15_basis_perm :
  forall (D k : nat) (R0 : Type) (r0 r1 : R0) (add mul sub : R0 -> R0 -> R0) (opp : R0 -> R0) (req : R0 -> R0 -> Prop)
         (Ro : @Ring_ops R0 r0 r1 add mul sub opp req) (Rg : @Ring R0 r0 r1 add mul sub opp req Ro) (CS : CStar R0)
         (blk : nat -> nat) (keep : nat -> nat -> bool) (cm : nat -> bool)
         (keep_sym : forall p q, keep p q = keep q p) (keep_refl : forall p, keep p p = true)
         (keep_blk : forall p q, keep p q = true -> blk p = blk q) (cm_blk : forall p q, blk p = blk q -> cm p = cm q)
         (keep_eucl : keep_eucl_on D keep cm) (E : nat -> R0) (inv : R0 -> R0),
    (forall p q, (p < D)%nat -> (q < D)%nat -> keep p q = false -> (E p - E q) * inv (E p - E q) == 1) ->
    (forall p, conj (E p) == E p) -> Proper (_==_ ==> _==_) inv ->
    (forall x, inv (- x) == - inv x) -> (forall x, conj (inv x) == inv (conj x)) ->
    forall (pi pinv : nat -> nat) (pi_lt : forall p, (p < D)%nat -> (pi p < D)%nat),
    (forall p, (p < D)%nat -> (pinv p < D)%nat) ->
    (forall p, (p < D)%nat -> pinv (pi p) = p) -> (forall p, (p < D)%nat -> pi (pinv p) = p) ->
    let BAs := series_BlockAlg D k blk keep cm keep_sym keep_blk cm_blk in
    let BAt := series_BlockAlg D k (fun p => blk (pi p)) (keep_pi keep pi) (fun p => cm (pi p)) (keep_pi_sym keep keep_sym pi)
                               (basis_keep_blk blk keep keep_blk pi) (basis_cm_blk blk cm cm_blk pi) in
    forall (rflag rflag' : string -> T D k R0 -> T D k R0) (fenv fenv' : string -> list (T D k R0) -> T D k R0)
           (sol sol' : string -> T D k R0),
    (forall x, rflag "commuting_blocks" x == Rw (BlockAlg := BAs) x) ->
    (forall y, fenv "solve_sylvester" (cons y nil) == SylvInst.sylv E inv y) ->
    (forall x, rflag' "commuting_blocks" x == Rw (BlockAlg := BAt) x) ->
    (forall y, fenv' "solve_sylvester" (cons y nil) == SylvInst.sylv (E_pi pi E) inv y) ->
    solution (BA := BAs) (gflag_of false) rflag fenv sol main_alg ->
    solution (BA := BAt) (gflag_of false) rflag' fenv' sol' main_alg ->
    adj (BlockAlg := BAs) (sol "H") == sol "H" -> Zc (BlockAlg := BAs) (sol "H") == SylvInst.H0 D k E ->
    sol' "H" == sperm D k pi (sol "H") ->
    sol' "U" == sperm D k pi (sol "U") /\ sol' "U†" == sperm D k pi (sol "U†")
    /\ sol' "H_tilde" == sperm D k pi (sol "H_tilde").
Proof.
  intros D k R0 r0 r1 add mul sub opp req Ro Rg CS blk keep cm keep_sym keep_refl keep_blk cm_blk keep_eucl E inv
         Hinv Hreal HinvP Hopp Hconj pi pinv pi_lt pinv_lt pinv_pi pi_pinv BAs BAt rflag rflag' fenv fenv' sol sol' Hrf Hfe Hrf' Hfe' Hsol Hsol' Hh Hz Hin.
  exact (inst_transport D k blk keep cm keep_sym keep_refl keep_blk cm_blk keep_eucl E inv Hinv Hreal HinvP Hopp Hconj
           D k (fun p => blk (pi p)) (keep_pi keep pi) (fun p => cm (pi p)) (keep_pi_sym keep keep_sym pi) (keep_pi_refl keep keep_refl pi) (basis_keep_blk blk keep keep_blk pi) (basis_cm_blk blk cm cm_blk pi) (basis_keep_eucl D keep cm keep_eucl pi pi_lt)
           (E_pi pi E) inv (inv_spec_pi D keep pi pi_lt E inv Hinv) (fun p => Hreal (pi p)) HinvP Hopp Hconj
           (sperm D k pi) (sperm_LAHom D k blk keep cm keep_sym keep_blk cm_blk pi pinv pi_lt pinv_lt pinv_pi pi_pinv (fun p => blk (pi p)) (fun p => cm (pi p)) (basis_keep_blk blk keep keep_blk pi) (basis_cm_blk blk cm cm_blk pi))
           (sperm_Zc D k blk keep cm keep_sym keep_blk cm_blk pi (fun p => blk (pi p)) (fun p => cm (pi p)) (basis_keep_blk blk keep keep_blk pi) (basis_cm_blk blk cm cm_blk pi)) (sperm_H0 D k pi pinv pinv_pi E)
           rflag fenv rflag' fenv' Hrf Hfe Hrf' Hfe' sol sol' Hsol Hsol' Hh Hz Hin).
Qed.
Print Assumptions C15_basis_perm.

Example C15_basis_perm_applies :
  LAHom (BA := ex_BA)
        (BA' := series_BlockAlg 3 2 (fun p => ex_blk (ex_pi p)) (keep_pi ex_keep ex_pi) (fun p => ex_cm (ex_pi p))
                  (keep_pi_sym ex_keep ex_keep_sym ex_pi) (basis_keep_blk ex_blk ex_keep ex_keep_blk ex_pi)
                  (basis_cm_blk ex_blk ex_cm ex_cm_blk ex_pi))
        (sperm 3 2 ex_pi).
Proof.
  exact (sperm_LAHom 3 2 ex_blk ex_keep ex_cm ex_keep_sym ex_keep_blk ex_cm_blk ex_pi ex_pi ex_pi_lt ex_pi_lt
           ex_pi_pi ex_pi_pi _ _ _ _).
Qed.

(** relabelling of the blocks by an injective map sigma of the labels (basis unchanged): all three
    outputs are literally the same series *)
Theorem C15_relabel :
  forall (D k : nat) (R0 : Type) (r0 r1 : R0) (add mul sub : R0 -> R0 -> R0) (opp : R0 -> R0) (req : R0 -> R0 -> Prop)
         (Ro : @Ring_ops R0 r0 r1 add mul sub opp req) (Rg : @Ring R0 r0 r1 add mul sub opp req Ro) (CS : CStar R0)
         (blk : nat -> nat) (keep : nat -> nat -> bool) (cm : nat -> bool)
         (keep_sym : forall p q, keep p q = keep q p) (keep_refl : forall p, keep p p = true)
         (keep_blk : forall p q, keep p q = true -> blk p = blk q) (cm_blk : forall p q, blk p = blk q -> cm p = cm q)
         (keep_eucl : keep_eucl_on D keep cm) (E : nat -> R0) (inv : R0 -> R0),
    (forall p q, (p < D)%nat -> (q < D)%nat -> keep p q = false -> (E p - E q) * inv (E p - E q) == 1) ->
    (forall p, conj (E p) == E p) -> Proper (_==_ ==> _==_) inv ->
    (forall x, inv (- x) == - inv x) -> (forall x, conj (inv x) == inv (conj x)) ->
    forall (sigma : nat -> nat) (sigma_inj : forall a b, sigma a = sigma b -> a = b),
    let BAs := series_BlockAlg D k blk keep cm keep_sym keep_blk cm_blk in
    let BAt := series_BlockAlg D k (fun p => sigma (blk p)) (keep_pi keep (fun p => p)) cm (keep_pi_sym keep keep_sym (fun p => p))
                               (relabel_keep_blk blk keep keep_blk sigma) (relabel_cm_blk blk cm cm_blk sigma sigma_inj) in
    forall (rflag rflag' : string -> T D k R0 -> T D k R0) (fenv fenv' : string -> list (T D k R0) -> T D k R0)
           (sol sol' : string -> T D k R0),
    (forall x, rflag "commuting_blocks" x == Rw (BlockAlg := BAs) x) ->
    (forall y, fenv "solve_sylvester" (cons y nil) == SylvInst.sylv E inv y) ->
    (forall x, rflag' "commuting_blocks" x == Rw (BlockAlg := BAt) x) ->
    (forall y, fenv' "solve_sylvester" (cons y nil) == SylvInst.sylv E inv y) ->
    solution (BA := BAs) (gflag_of false) rflag fenv sol main_alg ->
    solution (BA := BAt) (gflag_of false) rflag' fenv' sol' main_alg ->
    adj (BlockAlg := BAs) (sol "H") == sol "H" -> Zc (BlockAlg := BAs) (sol "H") == SylvInst.H0 D k E ->
    sol' "H" == sol "H" ->
    sol' "U" == sol "U" /\ sol' "U†" == sol "U†" /\ sol' "H_tilde" == sol "H_tilde".
Proof.
  intros D k R0 r0 r1 add mul sub opp req Ro Rg CS blk keep cm keep_sym keep_refl keep_blk cm_blk keep_eucl E inv
         Hinv Hreal HinvP Hopp Hconj sigma sigma_inj BAs BAt rflag rflag' fenv fenv' sol sol' Hrf Hfe Hrf' Hfe' Hsol Hsol' Hh Hz Hin.
  exact (inst_transport D k blk keep cm keep_sym keep_refl keep_blk cm_blk keep_eucl E inv Hinv Hreal HinvP Hopp Hconj
           D k (fun p => sigma (blk p)) (keep_pi keep (fun p => p)) cm (keep_pi_sym keep keep_sym (fun p => p)) (keep_pi_refl keep keep_refl (fun p => p)) (relabel_keep_blk blk keep keep_blk sigma) (relabel_cm_blk blk cm cm_blk sigma sigma_inj) (relabel_keep_eucl D keep cm keep_eucl)
           (E_pi (fun p => p) E) inv (inv_spec_pi D keep (fun p => p) (fun p H => H) E inv Hinv) (fun p => Hreal ((fun p => p) p)) HinvP Hopp Hconj
           (sperm D k (fun p => p)) (sperm_LAHom D k blk keep cm keep_sym keep_blk cm_blk (fun p => p) (fun p => p) (fun p H => H) (fun p H => H) (fun p _ => eq_refl) (fun p _ => eq_refl) (fun p => sigma (blk p)) cm (relabel_keep_blk blk keep keep_blk sigma) (relabel_cm_blk blk cm cm_blk sigma sigma_inj))
           (sperm_Zc D k blk keep cm keep_sym keep_blk cm_blk (fun p => p) (fun p => sigma (blk p)) cm (relabel_keep_blk blk keep keep_blk sigma) (relabel_cm_blk blk cm cm_blk sigma sigma_inj)) (sperm_H0 D k (fun p => p) (fun p => p) (fun p _ => eq_refl) E)
           rflag fenv rflag' fenv' Hrf Hfe Hrf' Hfe' sol sol' Hsol Hsol' Hh Hz Hin).
Qed.
Print Assumptions C15_relabel.

Example C15_relabel_applies :
  (forall a b : nat, S a = S b -> a = b) /\ keep_eucl_on 3 (keep_pi ex_keep (fun p => p)) ex_cm.
Proof. split. intros a b H; injection H; auto. exact (relabel_keep_eucl 3 ex_keep ex_cm ex_eucl). Qed.

(** shift of H_0 by c * 1 (c real, central): the energies become E + c, the same solver applies;
    U and U† are unchanged, H_tilde changes by c * 1 at order zero only
    ([cst D k c] is the series whose only coefficient, at order zero, is c times the identity) *)
Theorem C15_shift :
  forall (D k : nat) (R0 : Type) (r0 r1 : R0) (add mul sub : R0 -> R0 -> R0) (opp : R0 -> R0) (req : R0 -> R0 -> Prop)
         (Ro : @Ring_ops R0 r0 r1 add mul sub opp req) (Rg : @Ring R0 r0 r1 add mul sub opp req Ro) (CS : CStar R0)
         (blk : nat -> nat) (keep : nat -> nat -> bool) (cm : nat -> bool)
         (keep_sym : forall p q, keep p q = keep q p) (keep_refl : forall p, keep p p = true)
         (keep_blk : forall p q, keep p q = true -> blk p = blk q) (cm_blk : forall p q, blk p = blk q -> cm p = cm q)
         (keep_eucl : keep_eucl_on D keep cm) (E : nat -> R0) (inv : R0 -> R0),
    (forall p q, (p < D)%nat -> (q < D)%nat -> keep p q = false -> (E p - E q) * inv (E p - E q) == 1) ->
    (forall p, conj (E p) == E p) -> Proper (_==_ ==> _==_) inv ->
    (forall x, inv (- x) == - inv x) -> (forall x, conj (inv x) == inv (conj x)) ->
    forall c : R0, conj c == c ->
    let BA := series_BlockAlg D k blk keep cm keep_sym keep_blk cm_blk in
    forall (rflag rflag' : string -> T D k R0 -> T D k R0) (fenv fenv' : string -> list (T D k R0) -> T D k R0)
           (sol sol' : string -> T D k R0),
    (forall x, rflag "commuting_blocks" x == Rw x) ->
    (forall y, fenv "solve_sylvester" (cons y nil) == SylvInst.sylv E inv y) ->
    (forall x, rflag' "commuting_blocks" x == Rw x) ->
    (forall y, fenv' "solve_sylvester" (cons y nil) == SylvInst.sylv (fun p => E p + c) inv y) ->
    solution (gflag_of false) rflag fenv sol main_alg ->
    solution (gflag_of false) rflag' fenv' sol' main_alg ->
    adj (sol "H") == sol "H" -> Zc (sol "H") == SylvInst.H0 D k E ->
    sol' "H" == sol "H" + cst D k c ->
    sol' "U" == sol "U" /\ sol' "U†" == sol "U†" /\ sol' "H_tilde" == sol "H_tilde" + cst D k c.
Proof.
  intros D k R0 r0 r1 add mul sub opp req Ro Rg CS blk keep cm keep_sym keep_refl keep_blk cm_blk keep_eucl E inv
         Hinv Hreal HinvP Hopp Hconj c c_real BA rflag rflag' fenv fenv' sol sol' Hrf Hfe Hrf' Hfe' Hsol Hsol' Hh Hz Hin.
  exact (shift_covariant D k blk keep cm keep_sym keep_refl keep_blk cm_blk keep_eucl E inv Hinv
           rflag rflag' fenv fenv' Hfe sol sol' Hz Hreal HinvP Hopp Hconj Hrf Hrf' Hsol Hsol' Hh c c_real Hfe' Hin).
Qed.
Print Assumptions C15_shift.

(** scaling of the whole Hamiltonian by a real central scalar s (for the code: positive): the
    energies become s * E and [inv'] is any solver inverting the scaled eliminated differences;
    U and U† are unchanged, H_tilde is scaled *)
Theorem C15_scale :
  forall (D k : nat) (R0 : Type) (r0 r1 : R0) (add mul sub : R0 -> R0 -> R0) (opp : R0 -> R0) (req : R0 -> R0 -> Prop)
         (Ro : @Ring_ops R0 r0 r1 add mul sub opp req) (Rg : @Ring R0 r0 r1 add mul sub opp req Ro) (CS : CStar R0)
         (blk : nat -> nat) (keep : nat -> nat -> bool) (cm : nat -> bool)
         (keep_sym : forall p q, keep p q = keep q p) (keep_refl : forall p, keep p p = true)
         (keep_blk : forall p q, keep p q = true -> blk p = blk q) (cm_blk : forall p q, blk p = blk q -> cm p = cm q)
         (keep_eucl : keep_eucl_on D keep cm) (E : nat -> R0) (inv : R0 -> R0),
    (forall p q, (p < D)%nat -> (q < D)%nat -> keep p q = false -> (E p - E q) * inv (E p - E q) == 1) ->
    (forall p, conj (E p) == E p) -> Proper (_==_ ==> _==_) inv ->
    (forall x, inv (- x) == - inv x) -> (forall x, conj (inv x) == inv (conj x)) ->
    forall (s : R0) (inv' : R0 -> R0), conj s == s ->
    (forall p q, (p < D)%nat -> (q < D)%nat -> keep p q = false -> (s * E p - s * E q) * inv' (s * E p - s * E q) == 1) ->
    Proper (_==_ ==> _==_) inv' -> (forall x, inv' (- x) == - inv' x) -> (forall x, conj (inv' x) == inv' (conj x)) ->
    let BA := series_BlockAlg D k blk keep cm keep_sym keep_blk cm_blk in
    forall (rflag rflag' : string -> T D k R0 -> T D k R0) (fenv fenv' : string -> list (T D k R0) -> T D k R0)
           (sol sol' : string -> T D k R0),
    (forall x, rflag "commuting_blocks" x == Rw x) ->
    (forall y, fenv "solve_sylvester" (cons y nil) == SylvInst.sylv E inv y) ->
    (forall x, rflag' "commuting_blocks" x == Rw x) ->
    (forall y, fenv' "solve_sylvester" (cons y nil) == SylvInst.sylv (fun p => s * E p) inv' y) ->
    solution (gflag_of false) rflag fenv sol main_alg ->
    solution (gflag_of false) rflag' fenv' sol' main_alg ->
    adj (sol "H") == sol "H" -> Zc (sol "H") == SylvInst.H0 D k E ->
    sol' "H" == cst D k s * sol "H" ->
    sol' "U" == sol "U" /\ sol' "U†" == sol "U†" /\ sol' "H_tilde" == cst D k s * sol "H_tilde".
Proof.
  intros D k R0 r0 r1 add mul sub opp req Ro Rg CS blk keep cm keep_sym keep_refl keep_blk cm_blk keep_eucl E inv
         Hinv Hreal HinvP Hopp Hconj s inv' s_real Hinv' HinvP' Hopp' Hconj' BA rflag rflag' fenv fenv' sol sol' Hrf Hfe Hrf' Hfe' Hsol Hsol' Hh Hz Hin.
  exact (hscale_covariant D k blk keep cm keep_sym keep_refl keep_blk cm_blk keep_eucl E inv Hinv
           rflag rflag' fenv fenv' Hfe sol sol' Hz Hreal HinvP Hopp Hconj Hrf Hrf' Hsol Hsol' Hh s inv' s_real Hinv' HinvP' Hopp' Hconj' Hfe' Hin).
Qed.
Print Assumptions C15_scale.


(** rotation inside degenerate levels (also the eigenbasis-change clause of C14): R is unitary,
    commutes with the kept mask and with H_0 = diag(E); (rot R x) n = R† * x n * R *)
Theorem C15_degenerate_rotation :
  forall (D k : nat) (R0 : Type) (r0 r1 : R0) (add mul sub : R0 -> R0 -> R0) (opp : R0 -> R0) (req : R0 -> R0 -> Prop)
         (Ro : @Ring_ops R0 r0 r1 add mul sub opp req) (Rg : @Ring R0 r0 r1 add mul sub opp req Ro) (CS : CStar R0)
         (blk : nat -> nat) (keep : nat -> nat -> bool) (cm : nat -> bool)
         (keep_sym : forall p q, keep p q = keep q p) (keep_refl : forall p, keep p p = true)
         (keep_blk : forall p q, keep p q = true -> blk p = blk q) (cm_blk : forall p q, blk p = blk q -> cm p = cm q)
         (keep_eucl : keep_eucl_on D keep cm) (E : nat -> R0) (inv : R0 -> R0),
    (forall p q, (p < D)%nat -> (q < D)%nat -> keep p q = false -> (E p - E q) * inv (E p - E q) == 1) ->
    (forall p, conj (E p) == E p) -> Proper (_==_ ==> _==_) inv ->
    (forall x, inv (- x) == - inv x) -> (forall x, conj (inv x) == inv (conj x)) ->
    forall R : mat D R0,
    madj R * R == 1 -> R * madj R == 1 ->
    (forall y : mat D R0, mmask keep (madj R * y * R) == madj R * mmask keep y * R) ->
    madj R * mdiag D E * R == mdiag D E ->
    let BA := series_BlockAlg D k blk keep cm keep_sym keep_blk cm_blk in
    forall (rflag rflag' : string -> T D k R0 -> T D k R0) (fenv fenv' : string -> list (T D k R0) -> T D k R0)
           (sol sol' : string -> T D k R0),
    (forall x, rflag "commuting_blocks" x == Rw x) ->
    (forall y, fenv "solve_sylvester" (cons y nil) == SylvInst.sylv E inv y) ->
    (forall x, rflag' "commuting_blocks" x == Rw x) ->
    (forall y, fenv' "solve_sylvester" (cons y nil) == SylvInst.sylv E inv y) ->
    solution (gflag_of false) rflag fenv sol main_alg ->
    solution (gflag_of false) rflag' fenv' sol' main_alg ->
    adj (sol "H") == sol "H" -> Zc (sol "H") == SylvInst.H0 D k E ->
    sol' "H" == rot D k R (sol "H") ->
    sol' "U" == rot D k R (sol "U") /\ sol' "U†" == rot D k R (sol "U†")
    /\ sol' "H_tilde" == rot D k R (sol "H_tilde").
Proof.
  intros D k R0 r0 r1 add mul sub opp req Ro Rg CS blk keep cm keep_sym keep_refl keep_blk cm_blk keep_eucl E inv
         Hinv Hreal HinvP Hopp Hconj R RdR RRd Rmask RH0 BA rflag rflag' fenv fenv' sol sol' Hrf Hfe Hrf' Hfe' Hsol Hsol' Hh Hz Hin.
  exact (inst_transport D k blk keep cm keep_sym keep_refl keep_blk cm_blk keep_eucl E inv Hinv Hreal HinvP Hopp Hconj
           D k blk keep cm keep_sym keep_refl keep_blk cm_blk keep_eucl E inv Hinv Hreal HinvP Hopp Hconj
           (rot D k R) (rot_LAHom D k blk keep cm keep_sym keep_blk cm_blk R RdR RRd Rmask) (rot_Zc D k blk keep cm keep_sym keep_blk cm_blk R) (rot_H0 D k R E RH0)
           rflag fenv rflag' fenv' Hrf Hfe Hrf' Hfe' sol sol' Hsol Hsol' Hh Hz Hin).
Qed.
Print Assumptions C15_degenerate_rotation.

(** the mask hypothesis holds when R vanishes outside a support m and states connected by m have
    equal rows of the kept mask (e.g. R mixes only states p, q of one degenerate level whose
    rows/columns in the mask coincide) *)
Theorem C15_rotation_mask_condition :
  forall (D : nat) (R0 : Type) (r0 r1 : R0) (add mul sub : R0 -> R0 -> R0) (opp : R0 -> R0) (req : R0 -> R0 -> Prop)
         (Ro : @Ring_ops R0 r0 r1 add mul sub opp req) (Rg : @Ring R0 r0 r1 add mul sub opp req Ro) (CS : CStar R0)
         (keep : nat -> nat -> bool) (keep_sym : forall p q, keep p q = keep q p) (R : mat D R0) (m : nat -> nat -> bool),
    (forall a p, (a < D)%nat -> (p < D)%nat -> m a p = false -> R a p == 0) ->
    (forall a p r, (a < D)%nat -> (p < D)%nat -> (r < D)%nat -> m a p = true -> keep a r = keep p r) ->
    forall y : mat D R0, mmask keep (madj R * y * R) == madj R * mmask keep y * R.
Proof. intros. eapply mask_compatible; eassumption. Qed.
Print Assumptions C15_rotation_mask_condition.

Example C15_rotation_applies :
  (* the swap of the states 0 and 1 of the block {0,1} *)
  let R : mat 3 QArith_base.Q := fun a p => if Nat.eqb a (ex_sw p) then QArith_base.Qmake 1 1 else QArith_base.Qmake 0 1 in
  forall y : mat 3 QArith_base.Q, mmask ex_keep (madj R * y * R) == madj R * mmask ex_keep y * R.
Proof.
  intros R. apply (mask_compatible 3 ex_keep ex_keep_sym R (fun a p => Nat.eqb a (ex_sw p))).
  - intros a p _ _ H. unfold R. rewrite H. reflexivity.
  - exact ex_sw_rows.
Qed.

(** direct sum of two decoupled problems with D1 and D2 states (same parameters): the block sum
    (osum x1 x2) n = x1 n (+) x2 n;  kept mask keep1 (+) keep2, energies E1 (+) E2, block labels
    2 * blk1 and 2 * blk2 + 1, and a solver that inverts every eliminated difference of the sum,
    in particular E1 p - E2 q ("disjoint energy pools") *)
Theorem C15_direct_sum :
  forall (D1 D2 k : nat) (R0 : Type) (r0 r1 : R0) (add mul sub : R0 -> R0 -> R0) (opp : R0 -> R0) (req : R0 -> R0 -> Prop)
         (Ro : @Ring_ops R0 r0 r1 add mul sub opp req) (Rg : @Ring R0 r0 r1 add mul sub opp req Ro) (CS : CStar R0)
         (blk1 blk2 : nat -> nat) (keep1 keep2 : nat -> nat -> bool) (cm1 cm2 : nat -> bool)
         (keep_sym1 : forall p q, keep1 p q = keep1 q p) (keep_sym2 : forall p q, keep2 p q = keep2 q p)
         (keep_refl1 : forall p, keep1 p p = true) (keep_refl2 : forall p, keep2 p p = true)
         (keep_blk1 : forall p q, keep1 p q = true -> blk1 p = blk1 q) (keep_blk2 : forall p q, keep2 p q = true -> blk2 p = blk2 q)
         (cm_blk1 : forall p q, blk1 p = blk1 q -> cm1 p = cm1 q) (cm_blk2 : forall p q, blk2 p = blk2 q -> cm2 p = cm2 q)
         (E1 E2 : nat -> R0) (inv : R0 -> R0),
    (forall p, conj (E1 p) == E1 p) -> (forall p, conj (E2 p) == E2 p) ->
    keep_eucl_on D1 keep1 cm1 -> keep_eucl_on D2 keep2 cm2 ->
    (forall p q, (p < D1 + D2)%nat -> (q < D1 + D2)%nat -> keepS D1 keep1 keep2 p q = false ->
                 (ES D1 E1 E2 p - ES D1 E1 E2 q) * inv (ES D1 E1 E2 p - ES D1 E1 E2 q) == 1) ->
    Proper (_==_ ==> _==_) inv -> (forall x, inv (- x) == - inv x) -> (forall x, conj (inv x) == inv (conj x)) ->
    let B1 := series_BlockAlg D1 k blk1 keep1 cm1 keep_sym1 keep_blk1 cm_blk1 in
    let B2 := series_BlockAlg D2 k blk2 keep2 cm2 keep_sym2 keep_blk2 cm_blk2 in
    let BS := series_BlockAlg (D1 + D2) k (blkS D1 blk1 blk2) (keepS D1 keep1 keep2) (cmS D1 cm1 cm2)
                (keepS_sym D1 keep1 keep2 keep_sym1 keep_sym2) (keepS_blk D1 blk1 blk2 keep1 keep2 keep_blk1 keep_blk2)
                (cmS_blk D1 blk1 blk2 cm1 cm2 cm_blk1 cm_blk2) in
    forall (rflag1 : string -> T D1 k R0 -> T D1 k R0) (fenv1 : string -> list (T D1 k R0) -> T D1 k R0)
           (rflag2 : string -> T D2 k R0 -> T D2 k R0) (fenv2 : string -> list (T D2 k R0) -> T D2 k R0)
           (rflagS : string -> T (D1 + D2) k R0 -> T (D1 + D2) k R0) (fenvS : string -> list (T (D1 + D2) k R0) -> T (D1 + D2) k R0),
    (forall x, rflag1 "commuting_blocks" x == Rw (BlockAlg := B1) x) ->
    (forall x, rflag2 "commuting_blocks" x == Rw (BlockAlg := B2) x) ->
    (forall x, rflagS "commuting_blocks" x == Rw (BlockAlg := BS) x) ->
    (forall y, fenv1 "solve_sylvester" (cons y nil) == SylvInst.sylv E1 inv y) ->
    (forall y, fenv2 "solve_sylvester" (cons y nil) == SylvInst.sylv E2 inv y) ->
    (forall y, fenvS "solve_sylvester" (cons y nil) == SylvInst.sylv (ES D1 E1 E2) inv y) ->
    forall (sol1 : string -> T D1 k R0) (sol2 : string -> T D2 k R0) (solS : string -> T (D1 + D2) k R0),
    solution (BA := B1) (gflag_of false) rflag1 fenv1 sol1 main_alg ->
    solution (BA := B2) (gflag_of false) rflag2 fenv2 sol2 main_alg ->
    solution (BA := BS) (gflag_of false) rflagS fenvS solS main_alg ->
    adj (BlockAlg := B1) (sol1 "H") == sol1 "H" -> adj (BlockAlg := B2) (sol2 "H") == sol2 "H" ->
    Zc (BlockAlg := B1) (sol1 "H") == SylvInst.H0 D1 k E1 -> Zc (BlockAlg := B2) (sol2 "H") == SylvInst.H0 D2 k E2 ->
    solS "H" == osum D1 D2 k (sol1 "H") (sol2 "H") ->
    solS "U" == osum D1 D2 k (sol1 "U") (sol2 "U") /\ solS "U†" == osum D1 D2 k (sol1 "U†") (sol2 "U†")
    /\ solS "H_tilde" == osum D1 D2 k (sol1 "H_tilde") (sol2 "H_tilde").
Proof.
  intros D1 D2 k R0 r0 r1 add mul sub opp req Ro Rg CS blk1 blk2 keep1 keep2 cm1 cm2 keep_sym1 keep_sym2 keep_refl1 keep_refl2
         keep_blk1 keep_blk2 cm_blk1 cm_blk2 E1 E2 inv Er1 Er2 ke1 ke2 HinvS HinvP Hopp Hconj B1 B2 BS
         rflag1 fenv1 rflag2 fenv2 rflagS fenvS Hr1 Hr2 HrS Hf1 Hf2 HfS sol1 sol2 solS Hs1 Hs2 HsS Hh1 Hh2 Hz1 Hz2 Hin.
  exact (direct_sum_outputs D1 D2 k blk1 blk2 keep1 keep2 cm1 cm2 keep_sym1 keep_sym2 keep_refl1 keep_refl2
           keep_blk1 keep_blk2 cm_blk1 cm_blk2 E1 E2 inv HinvS rflag1 fenv1 rflag2 fenv2 rflagS fenvS Hf1 Hf2 HfS
           sol1 sol2 solS Hz1 Hz2 Hin Er1 Er2 ke1 ke2 HinvP Hopp Hconj Hr1 Hr2 HrS Hs1 Hs2 HsS Hh1 Hh2).
Qed.
Print Assumptions C15_direct_sum.

(** the block sum of least-action transformations is a least-action transformation of the sum
    (the algebraic core of the direct-sum clause, no solver involved) *)
Theorem C15_direct_sum_least_action :
  forall (D1 D2 k : nat) (R0 : Type) (r0 r1 : R0) (add mul sub : R0 -> R0 -> R0) (opp : R0 -> R0) (req : R0 -> R0 -> Prop)
         (Ro : @Ring_ops R0 r0 r1 add mul sub opp req) (Rg : @Ring R0 r0 r1 add mul sub opp req Ro) (CS : CStar R0)
         (blk1 blk2 : nat -> nat) (keep1 keep2 : nat -> nat -> bool) (cm1 cm2 : nat -> bool)
         (keep_sym1 : forall p q, keep1 p q = keep1 q p) (keep_sym2 : forall p q, keep2 p q = keep2 q p)
         (keep_blk1 : forall p q, keep1 p q = true -> blk1 p = blk1 q) (keep_blk2 : forall p q, keep2 p q = true -> blk2 p = blk2 q)
         (cm_blk1 : forall p q, blk1 p = blk1 q -> cm1 p = cm1 q) (cm_blk2 : forall p q, blk2 p = blk2 q -> cm2 p = cm2 q)
         (H1 U1 : T D1 k R0) (H2 U2 : T D2 k R0),
    least_action (BA := series_BlockAlg D1 k blk1 keep1 cm1 keep_sym1 keep_blk1 cm_blk1) H1 U1 ->
    least_action (BA := series_BlockAlg D2 k blk2 keep2 cm2 keep_sym2 keep_blk2 cm_blk2) H2 U2 ->
    least_action (BA := series_BlockAlg (D1 + D2) k (blkS D1 blk1 blk2) (keepS D1 keep1 keep2) (cmS D1 cm1 cm2)
                          (keepS_sym D1 keep1 keep2 keep_sym1 keep_sym2) (keepS_blk D1 blk1 blk2 keep1 keep2 keep_blk1 keep_blk2)
                          (cmS_blk D1 blk1 blk2 cm1 cm2 cm_blk1 cm_blk2))
                 (osum D1 D2 k H1 H2) (osum D1 D2 k U1 U2).
Proof.
  intros. apply (least_action_transport2 _ (osum_Hom2 D1 D2 k blk1 blk2 keep1 keep2 cm1 cm2 keep_sym1 keep_sym2
                                              keep_blk1 keep_blk2 cm_blk1 cm_blk2)); assumption.
Qed.
Print Assumptions C15_direct_sum_least_action.

Example C15_direct_sum_applies :
  keep_eucl_on (3 + 3) (keepS 3 ex_keep ex_keep) (cmS 3 ex_cm ex_cm)
  /\ keepS 3 ex_keep ex_keep 0 4 = false /\ keepS 3 ex_keep ex_keep 3 4 = true.
Proof.
  split. exact (keepS_eucl 3 3 ex_keep ex_keep ex_cm ex_cm ex_eucl ex_eucl). split; reflexivity.
Qed.

(** the structural hypotheses of all statements above hold for the example instance
    (3 states, blocks {0,1} | {2}, energies 0, 1, 2 over Q, solver = field inverse) *)
Example C15_instance_hypotheses :
  (forall p q, (p < 3)%nat -> (q < 3)%nat -> ex_keep p q = false ->
               (ex_E p - ex_E q) * ex_inv (ex_E p - ex_E q) == 1)
  /\ (forall p, conj (ex_E p) == ex_E p) /\ Proper (_==_ ==> _==_) ex_inv
  /\ (forall x, ex_inv (- x) == - ex_inv x) /\ (forall x, conj (ex_inv x) == ex_inv (conj x))
  /\ keep_eucl_on 3 ex_keep ex_cm.
Proof.
  exact (Logic.conj ex_inv_spec (Logic.conj ex_E_real (Logic.conj ex_inv_P (Logic.conj ex_inv_opp
           (Logic.conj ex_inv_conj ex_eucl))))).
Qed.

(** computational confirmation on the implementation's values (Alg/MainWitness.v): the entry-wise
    conjugated tables of all series again satisfy every equation of [main_alg], and differ from
    the original ones *)
Example C15_witness :
  wit_check (smap (fun _ => QLemmas.gq_conj) main_wit_sols) = true
  /\ negb (Exec.teqb 4 2 2 (SemExec.tsol (smap (fun _ => QLemmas.gq_conj) main_wit_sols) "U") (SemExec.tsol main_wit_sols "U")) = true.
Proof. exact (Logic.conj wit_conj wit_changed). Qed.

(** * Non-Hermitian mode (hermitian=False, program [nonhermitian_alg])

    The covariance relations for ANY solutions of the generated non-Hermitian program.  Named _partial
    because of one extra hypothesis on both sides: kept matrix elements connect equal unperturbed
    energies ([kept_equal]; the hypothesis for the transformed problem follows from it in every case
    below).  Outside this class the non-Hermitian program does not satisfy its own defining
    conditions (known finding C05-kept-distinct-energies) and uniqueness cannot be applied; the
    oracle tests the relations there as well.  Not assumed: real energies, Hermitian input, a
    unitary rotation (R only has to be invertible), real shift / scale.  [U†] names the third
    output (U_inv).  Conjugation maps the problem for H to the problem for conj H, whose
    unperturbed energies are conj E. *)
From PV.Alg Require Import UniqueNH NonHerm.
From PV.Series Require Import SymNHInst.

(** entry-wise conjugation: energies conj E, same solver (assumed compatible with conj) *)
Theorem C15_conjugation_nh_partial :
  forall (D k : nat) (R0 : Type) (r0 r1 : R0) (add mul sub : R0 -> R0 -> R0) (opp : R0 -> R0) (req : R0 -> R0 -> Prop)
         (Ro : @Ring_ops R0 r0 r1 add mul sub opp req) (Rg : @Ring R0 r0 r1 add mul sub opp req Ro) (CS : CStar R0)
         (blk : nat -> nat) (keep : nat -> nat -> bool) (cm : nat -> bool)
         (keep_sym : forall p q, keep p q = keep q p) (keep_refl : forall p, keep p p = true)
         (keep_blk : forall p q, keep p q = true -> blk p = blk q) (cm_blk : forall p q, blk p = blk q -> cm p = cm q)
         (E : nat -> R0) (inv : R0 -> R0)
         (inv_spec : forall p q, (p < D)%nat -> (q < D)%nat -> keep p q = false -> (E p - E q) * inv (E p - E q) == 1)
         (kept_equal : forall p q, (p < D)%nat -> (q < D)%nat -> keep p q = true -> E p == E q)
         (inv_P : Proper (_==_ ==> _==_) inv) (inv_conj : forall x, conj (inv x) == inv (conj x)),
    let BAs := series_BlockAlg D k blk keep cm keep_sym keep_blk cm_blk in
    let BAt := series_BlockAlg D k blk keep cm keep_sym keep_blk cm_blk in
    forall (gflag gflag' : string -> bool)
           (rflag : string -> T D k R0 -> T D k R0) (fenv : string -> list (T D k R0) -> T D k R0)
           (rflag' : string -> T D k R0 -> T D k R0) (fenv' : string -> list (T D k R0) -> T D k R0)
           (sol : string -> T D k R0) (sol' : string -> T D k R0),
    (forall y, fenv "solve_sylvester" (cons y nil) == SylvInst.sylv E inv y) ->
    (forall y, fenv' "solve_sylvester" (cons y nil) == SylvInst.sylv (E_conj E) inv y) ->
    solution (BA := BAs) gflag rflag fenv sol nonhermitian_alg ->
    solution (BA := BAt) gflag' rflag' fenv' sol' nonhermitian_alg ->
    Zc (BlockAlg := BAs) (sol "H") == SylvInst.H0 D k E ->
    sol' "H" == cconj D k (sol "H") ->
    sol' "U" == cconj D k (sol "U") /\ sol' "U†" == cconj D k (sol "U†")
    /\ sol' "H_tilde" == cconj D k (sol "H_tilde").
Proof.
  intros D k R0 r0 r1 add mul sub opp req Ro Rg CS blk keep cm keep_sym keep_refl keep_blk cm_blk E inv inv_spec kept_equal inv_P inv_conj BAs BAt gflag gflag' rflag fenv rflag' fenv' sol sol' Hfe Hfe' Hsol Hsol' Hz Hin.
  exact (inst_transport_nh D k blk keep cm keep_sym keep_refl keep_blk cm_blk E inv inv_spec kept_equal
           D k blk keep cm keep_sym keep_refl keep_blk cm_blk (E_conj E) inv
           (inv_spec_conj D keep E inv inv_spec inv_P inv_conj) (kept_equal_conj D keep E kept_equal)
           (cconj D k) (LAHom_SGHom _ (cconj_LAHom D k blk keep cm keep_sym keep_blk cm_blk)) (cconj_Zc D k blk keep cm keep_sym keep_blk cm_blk) (cconj_H0_nh D k E)
           gflag gflag' rflag fenv rflag' fenv' Hfe Hfe' sol sol' Hsol Hsol' Hz Hin).
Qed.
Print Assumptions C15_conjugation_nh_partial.

(** basis permutation, target labels blk' / cm' arbitrary but compatible with the transported mask (pi = id: block relabelling) *)
Theorem C15_basis_perm_nh_partial :
  forall (D k : nat) (R0 : Type) (r0 r1 : R0) (add mul sub : R0 -> R0 -> R0) (opp : R0 -> R0) (req : R0 -> R0 -> Prop)
         (Ro : @Ring_ops R0 r0 r1 add mul sub opp req) (Rg : @Ring R0 r0 r1 add mul sub opp req Ro) (CS : CStar R0)
         (blk : nat -> nat) (keep : nat -> nat -> bool) (cm : nat -> bool)
         (keep_sym : forall p q, keep p q = keep q p) (keep_refl : forall p, keep p p = true)
         (keep_blk : forall p q, keep p q = true -> blk p = blk q) (cm_blk : forall p q, blk p = blk q -> cm p = cm q)
         (E : nat -> R0) (inv : R0 -> R0)
         (inv_spec : forall p q, (p < D)%nat -> (q < D)%nat -> keep p q = false -> (E p - E q) * inv (E p - E q) == 1)
         (kept_equal : forall p q, (p < D)%nat -> (q < D)%nat -> keep p q = true -> E p == E q)
         (pi pinv : nat -> nat) (pi_lt : forall p, (p < D)%nat -> (pi p < D)%nat) (pinv_lt : forall p, (p < D)%nat -> (pinv p < D)%nat)
         (pinv_pi : forall p, (p < D)%nat -> pinv (pi p) = p) (pi_pinv : forall p, (p < D)%nat -> pi (pinv p) = p)
         (blk' : nat -> nat) (cm' : nat -> bool)
         (keep_blk' : forall p q, keep_pi keep pi p q = true -> blk' p = blk' q)
         (cm_blk' : forall p q, blk' p = blk' q -> cm' p = cm' q),
    let BAs := series_BlockAlg D k blk keep cm keep_sym keep_blk cm_blk in
    let BAt := series_BlockAlg D k blk' (keep_pi keep pi) cm' (keep_pi_sym keep keep_sym pi) keep_blk' cm_blk' in
    forall (gflag gflag' : string -> bool)
           (rflag : string -> T D k R0 -> T D k R0) (fenv : string -> list (T D k R0) -> T D k R0)
           (rflag' : string -> T D k R0 -> T D k R0) (fenv' : string -> list (T D k R0) -> T D k R0)
           (sol : string -> T D k R0) (sol' : string -> T D k R0),
    (forall y, fenv "solve_sylvester" (cons y nil) == SylvInst.sylv E inv y) ->
    (forall y, fenv' "solve_sylvester" (cons y nil) == SylvInst.sylv (E_pi pi E) inv y) ->
    solution (BA := BAs) gflag rflag fenv sol nonhermitian_alg ->
    solution (BA := BAt) gflag' rflag' fenv' sol' nonhermitian_alg ->
    Zc (BlockAlg := BAs) (sol "H") == SylvInst.H0 D k E ->
    sol' "H" == sperm D k pi (sol "H") ->
    sol' "U" == sperm D k pi (sol "U") /\ sol' "U†" == sperm D k pi (sol "U†")
    /\ sol' "H_tilde" == sperm D k pi (sol "H_tilde").
Proof.
  intros D k R0 r0 r1 add mul sub opp req Ro Rg CS blk keep cm keep_sym keep_refl keep_blk cm_blk E inv inv_spec kept_equal pi pinv pi_lt pinv_lt pinv_pi pi_pinv blk' cm' keep_blk' cm_blk' BAs BAt gflag gflag' rflag fenv rflag' fenv' sol sol' Hfe Hfe' Hsol Hsol' Hz Hin.
  exact (inst_transport_nh D k blk keep cm keep_sym keep_refl keep_blk cm_blk E inv inv_spec kept_equal
           D k blk' (keep_pi keep pi) cm' (keep_pi_sym keep keep_sym pi) (keep_pi_refl keep keep_refl pi) keep_blk' cm_blk'
           (E_pi pi E) inv (inv_spec_pi D keep pi pi_lt E inv inv_spec) (fun p q Hp Hq => kept_equal (pi p) (pi q) (pi_lt p Hp) (pi_lt q Hq))
           (sperm D k pi) (LAHom_SGHom _ (sperm_LAHom D k blk keep cm keep_sym keep_blk cm_blk pi pinv pi_lt pinv_lt pinv_pi pi_pinv blk' cm' keep_blk' cm_blk'))
           (sperm_Zc D k blk keep cm keep_sym keep_blk cm_blk pi blk' cm' keep_blk' cm_blk') (sperm_H0 D k pi pinv pinv_pi E)
           gflag gflag' rflag fenv rflag' fenv' Hfe Hfe' sol sol' Hsol Hsol' Hz Hin).
Qed.
Print Assumptions C15_basis_perm_nh_partial.

(** rotation by an invertible R (inverse Ri) commuting with the kept mask and with H_0: (rotg R Ri x) n = Ri * x n * R *)
Theorem C15_degenerate_rotation_nh_partial :
  forall (D k : nat) (R0 : Type) (r0 r1 : R0) (add mul sub : R0 -> R0 -> R0) (opp : R0 -> R0) (req : R0 -> R0 -> Prop)
         (Ro : @Ring_ops R0 r0 r1 add mul sub opp req) (Rg : @Ring R0 r0 r1 add mul sub opp req Ro) (CS : CStar R0)
         (blk : nat -> nat) (keep : nat -> nat -> bool) (cm : nat -> bool)
         (keep_sym : forall p q, keep p q = keep q p) (keep_refl : forall p, keep p p = true)
         (keep_blk : forall p q, keep p q = true -> blk p = blk q) (cm_blk : forall p q, blk p = blk q -> cm p = cm q)
         (E : nat -> R0) (inv : R0 -> R0)
         (inv_spec : forall p q, (p < D)%nat -> (q < D)%nat -> keep p q = false -> (E p - E q) * inv (E p - E q) == 1)
         (kept_equal : forall p q, (p < D)%nat -> (q < D)%nat -> keep p q = true -> E p == E q)
         (R Ri : mat D R0) (RiR : Ri * R == 1) (RRi : R * Ri == 1)
         (R_mask : forall y : mat D R0, mmask keep (Ri * y * R) == Ri * mmask keep y * R)
         (R_H0 : Ri * mdiag D E * R == mdiag D E),
    let BAs := series_BlockAlg D k blk keep cm keep_sym keep_blk cm_blk in
    let BAt := series_BlockAlg D k blk keep cm keep_sym keep_blk cm_blk in
    forall (gflag gflag' : string -> bool)
           (rflag : string -> T D k R0 -> T D k R0) (fenv : string -> list (T D k R0) -> T D k R0)
           (rflag' : string -> T D k R0 -> T D k R0) (fenv' : string -> list (T D k R0) -> T D k R0)
           (sol : string -> T D k R0) (sol' : string -> T D k R0),
    (forall y, fenv "solve_sylvester" (cons y nil) == SylvInst.sylv E inv y) ->
    (forall y, fenv' "solve_sylvester" (cons y nil) == SylvInst.sylv E inv y) ->
    solution (BA := BAs) gflag rflag fenv sol nonhermitian_alg ->
    solution (BA := BAt) gflag' rflag' fenv' sol' nonhermitian_alg ->
    Zc (BlockAlg := BAs) (sol "H") == SylvInst.H0 D k E ->
    sol' "H" == rotg D k R Ri (sol "H") ->
    sol' "U" == rotg D k R Ri (sol "U") /\ sol' "U†" == rotg D k R Ri (sol "U†")
    /\ sol' "H_tilde" == rotg D k R Ri (sol "H_tilde").
Proof.
  intros D k R0 r0 r1 add mul sub opp req Ro Rg CS blk keep cm keep_sym keep_refl keep_blk cm_blk E inv inv_spec kept_equal R Ri RiR RRi R_mask R_H0 BAs BAt gflag gflag' rflag fenv rflag' fenv' sol sol' Hfe Hfe' Hsol Hsol' Hz Hin.
  exact (inst_transport_nh D k blk keep cm keep_sym keep_refl keep_blk cm_blk E inv inv_spec kept_equal
           D k blk keep cm keep_sym keep_refl keep_blk cm_blk E inv inv_spec kept_equal
           (rotg D k R Ri) (rotg_SGHom D k blk keep cm keep_sym keep_blk cm_blk R Ri RiR RRi R_mask) (rotg_Zc D k blk keep cm keep_sym keep_blk cm_blk R Ri) (rotg_H0 D k R Ri E R_H0)
           gflag gflag' rflag fenv rflag' fenv' Hfe Hfe' sol sol' Hsol Hsol' Hz Hin).
Qed.
Print Assumptions C15_degenerate_rotation_nh_partial.

(** shift of H_0 by c * 1, c arbitrary *)
Theorem C15_shift_nh_partial :
  forall (D k : nat) (R0 : Type) (r0 r1 : R0) (add mul sub : R0 -> R0 -> R0) (opp : R0 -> R0) (req : R0 -> R0 -> Prop)
         (Ro : @Ring_ops R0 r0 r1 add mul sub opp req) (Rg : @Ring R0 r0 r1 add mul sub opp req Ro) (CS : CStar R0)
         (blk : nat -> nat) (keep : nat -> nat -> bool) (cm : nat -> bool)
         (keep_sym : forall p q, keep p q = keep q p) (keep_refl : forall p, keep p p = true)
         (keep_blk : forall p q, keep p q = true -> blk p = blk q) (cm_blk : forall p q, blk p = blk q -> cm p = cm q)
         (E : nat -> R0) (inv : R0 -> R0)
         (inv_spec : forall p q, (p < D)%nat -> (q < D)%nat -> keep p q = false -> (E p - E q) * inv (E p - E q) == 1)
         (kept_equal : forall p q, (p < D)%nat -> (q < D)%nat -> keep p q = true -> E p == E q)
         (c : R0) (inv_P : Proper (_==_ ==> _==_) inv),
    let BAs := series_BlockAlg D k blk keep cm keep_sym keep_blk cm_blk in
    let BAt := series_BlockAlg D k blk keep cm keep_sym keep_blk cm_blk in
    forall (gflag gflag' : string -> bool)
           (rflag : string -> T D k R0 -> T D k R0) (fenv : string -> list (T D k R0) -> T D k R0)
           (rflag' : string -> T D k R0 -> T D k R0) (fenv' : string -> list (T D k R0) -> T D k R0)
           (sol : string -> T D k R0) (sol' : string -> T D k R0),
    (forall y, fenv "solve_sylvester" (cons y nil) == SylvInst.sylv E inv y) ->
    (forall y, fenv' "solve_sylvester" (cons y nil) == SylvInst.sylv (fun p => E p + c) inv y) ->
    solution (BA := BAs) gflag rflag fenv sol nonhermitian_alg ->
    solution (BA := BAt) gflag' rflag' fenv' sol' nonhermitian_alg ->
    Zc (BlockAlg := BAs) (sol "H") == SylvInst.H0 D k E ->
    sol' "H" == sol "H" + cst D k c ->
    sol' "U" == sol "U" /\ sol' "U†" == sol "U†" /\ sol' "H_tilde" == sol "H_tilde" + cst D k c.
Proof.
  intros D k R0 r0 r1 add mul sub opp req Ro Rg CS blk keep cm keep_sym keep_refl keep_blk cm_blk E inv inv_spec kept_equal c inv_P BAs BAt gflag gflag' rflag fenv rflag' fenv' sol sol' Hfe Hfe' Hsol Hsol' Hz Hin.
  exact (shift_nh D k blk keep cm keep_sym keep_refl keep_blk cm_blk E inv inv_spec rflag rflag' fenv fenv' Hfe sol sol' Hz
           kept_equal gflag gflag' Hsol Hsol' c inv_P Hfe' Hin).
Qed.
Print Assumptions C15_shift_nh_partial.

(** scaling of the whole Hamiltonian by a central scalar s; inv' inverts the scaled eliminated differences *)
Theorem C15_scale_nh_partial :
  forall (D k : nat) (R0 : Type) (r0 r1 : R0) (add mul sub : R0 -> R0 -> R0) (opp : R0 -> R0) (req : R0 -> R0 -> Prop)
         (Ro : @Ring_ops R0 r0 r1 add mul sub opp req) (Rg : @Ring R0 r0 r1 add mul sub opp req Ro) (CS : CStar R0)
         (blk : nat -> nat) (keep : nat -> nat -> bool) (cm : nat -> bool)
         (keep_sym : forall p q, keep p q = keep q p) (keep_refl : forall p, keep p p = true)
         (keep_blk : forall p q, keep p q = true -> blk p = blk q) (cm_blk : forall p q, blk p = blk q -> cm p = cm q)
         (E : nat -> R0) (inv : R0 -> R0)
         (inv_spec : forall p q, (p < D)%nat -> (q < D)%nat -> keep p q = false -> (E p - E q) * inv (E p - E q) == 1)
         (kept_equal : forall p q, (p < D)%nat -> (q < D)%nat -> keep p q = true -> E p == E q)
         (s : R0) (inv' : R0 -> R0)
         (inv_spec' : forall p q, (p < D)%nat -> (q < D)%nat -> keep p q = false -> (s * E p - s * E q) * inv' (s * E p - s * E q) == 1),
    let BAs := series_BlockAlg D k blk keep cm keep_sym keep_blk cm_blk in
    let BAt := series_BlockAlg D k blk keep cm keep_sym keep_blk cm_blk in
    forall (gflag gflag' : string -> bool)
           (rflag : string -> T D k R0 -> T D k R0) (fenv : string -> list (T D k R0) -> T D k R0)
           (rflag' : string -> T D k R0 -> T D k R0) (fenv' : string -> list (T D k R0) -> T D k R0)
           (sol : string -> T D k R0) (sol' : string -> T D k R0),
    (forall y, fenv "solve_sylvester" (cons y nil) == SylvInst.sylv E inv y) ->
    (forall y, fenv' "solve_sylvester" (cons y nil) == SylvInst.sylv (fun p => s * E p) inv' y) ->
    solution (BA := BAs) gflag rflag fenv sol nonhermitian_alg ->
    solution (BA := BAt) gflag' rflag' fenv' sol' nonhermitian_alg ->
    Zc (BlockAlg := BAs) (sol "H") == SylvInst.H0 D k E ->
    sol' "H" == cst D k s * sol "H" ->
    sol' "U" == sol "U" /\ sol' "U†" == sol "U†" /\ sol' "H_tilde" == cst D k s * sol "H_tilde".
Proof.
  intros D k R0 r0 r1 add mul sub opp req Ro Rg CS blk keep cm keep_sym keep_refl keep_blk cm_blk E inv inv_spec kept_equal s inv' inv_spec' BAs BAt gflag gflag' rflag fenv rflag' fenv' sol sol' Hfe Hfe' Hsol Hsol' Hz Hin.
  exact (hscale_nh D k blk keep cm keep_sym keep_refl keep_blk cm_blk E inv inv_spec rflag rflag' fenv fenv' Hfe sol sol' Hz
           kept_equal gflag gflag' Hsol Hsol' s inv' inv_spec' Hfe' Hin).
Qed.
Print Assumptions C15_scale_nh_partial.

(** direct sum of two decoupled non-Hermitian problems *)
Theorem C15_direct_sum_nh_partial :
  forall (D1 D2 k : nat) (R0 : Type) (r0 r1 : R0) (add mul sub : R0 -> R0 -> R0) (opp : R0 -> R0) (req : R0 -> R0 -> Prop)
         (Ro : @Ring_ops R0 r0 r1 add mul sub opp req) (Rg : @Ring R0 r0 r1 add mul sub opp req Ro) (CS : CStar R0)
         (blk1 blk2 : nat -> nat) (keep1 keep2 : nat -> nat -> bool) (cm1 cm2 : nat -> bool)
         (keep_sym1 : forall p q, keep1 p q = keep1 q p) (keep_sym2 : forall p q, keep2 p q = keep2 q p)
         (keep_refl1 : forall p, keep1 p p = true) (keep_refl2 : forall p, keep2 p p = true)
         (keep_blk1 : forall p q, keep1 p q = true -> blk1 p = blk1 q) (keep_blk2 : forall p q, keep2 p q = true -> blk2 p = blk2 q)
         (cm_blk1 : forall p q, blk1 p = blk1 q -> cm1 p = cm1 q) (cm_blk2 : forall p q, blk2 p = blk2 q -> cm2 p = cm2 q)
         (E1 E2 : nat -> R0) (inv : R0 -> R0)
         (inv_specS : forall p q, (p < D1 + D2)%nat -> (q < D1 + D2)%nat -> keepS D1 keep1 keep2 p q = false ->
                        (ES D1 E1 E2 p - ES D1 E1 E2 q) * inv (ES D1 E1 E2 p - ES D1 E1 E2 q) == 1)
         (kept_equal1 : forall p q, (p < D1)%nat -> (q < D1)%nat -> keep1 p q = true -> E1 p == E1 q)
         (kept_equal2 : forall p q, (p < D2)%nat -> (q < D2)%nat -> keep2 p q = true -> E2 p == E2 q),
    let B1 := series_BlockAlg D1 k blk1 keep1 cm1 keep_sym1 keep_blk1 cm_blk1 in
    let B2 := series_BlockAlg D2 k blk2 keep2 cm2 keep_sym2 keep_blk2 cm_blk2 in
    let BS := series_BlockAlg (D1 + D2) k (blkS D1 blk1 blk2) (keepS D1 keep1 keep2) (cmS D1 cm1 cm2)
                (keepS_sym D1 keep1 keep2 keep_sym1 keep_sym2) (keepS_blk D1 blk1 blk2 keep1 keep2 keep_blk1 keep_blk2)
                (cmS_blk D1 blk1 blk2 cm1 cm2 cm_blk1 cm_blk2) in
    forall (gflag1 gflag2 gflagS : string -> bool)
           (rflag1 : string -> T D1 k R0 -> T D1 k R0) (fenv1 : string -> list (T D1 k R0) -> T D1 k R0)
           (rflag2 : string -> T D2 k R0 -> T D2 k R0) (fenv2 : string -> list (T D2 k R0) -> T D2 k R0)
           (rflagS : string -> T (D1 + D2) k R0 -> T (D1 + D2) k R0) (fenvS : string -> list (T (D1 + D2) k R0) -> T (D1 + D2) k R0),
    (forall y, fenv1 "solve_sylvester" (cons y nil) == SylvInst.sylv E1 inv y) ->
    (forall y, fenv2 "solve_sylvester" (cons y nil) == SylvInst.sylv E2 inv y) ->
    (forall y, fenvS "solve_sylvester" (cons y nil) == SylvInst.sylv (ES D1 E1 E2) inv y) ->
    forall (sol1 : string -> T D1 k R0) (sol2 : string -> T D2 k R0) (solS : string -> T (D1 + D2) k R0),
    solution (BA := B1) gflag1 rflag1 fenv1 sol1 nonhermitian_alg ->
    solution (BA := B2) gflag2 rflag2 fenv2 sol2 nonhermitian_alg ->
    solution (BA := BS) gflagS rflagS fenvS solS nonhermitian_alg ->
    Zc (BlockAlg := B1) (sol1 "H") == SylvInst.H0 D1 k E1 -> Zc (BlockAlg := B2) (sol2 "H") == SylvInst.H0 D2 k E2 ->
    solS "H" == osum D1 D2 k (sol1 "H") (sol2 "H") ->
    solS "U" == osum D1 D2 k (sol1 "U") (sol2 "U") /\ solS "U†" == osum D1 D2 k (sol1 "U†") (sol2 "U†")
    /\ solS "H_tilde" == osum D1 D2 k (sol1 "H_tilde") (sol2 "H_tilde").
Proof.
  intros D1 D2 k R0 r0 r1 add mul sub opp req Ro Rg CS blk1 blk2 keep1 keep2 cm1 cm2 keep_sym1 keep_sym2 keep_refl1 keep_refl2
         keep_blk1 keep_blk2 cm_blk1 cm_blk2 E1 E2 inv inv_specS ke1 ke2 B1 B2 BS gflag1 gflag2 gflagS
         rflag1 fenv1 rflag2 fenv2 rflagS fenvS Hf1 Hf2 HfS sol1 sol2 solS Hs1 Hs2 HsS Hz1 Hz2 Hin.
  exact (direct_sum_nh D1 D2 k blk1 blk2 keep1 keep2 cm1 cm2 keep_sym1 keep_sym2 keep_refl1 keep_refl2
           keep_blk1 keep_blk2 cm_blk1 cm_blk2 E1 E2 inv inv_specS rflag1 fenv1 rflag2 fenv2 rflagS fenvS Hf1 Hf2 HfS
           sol1 sol2 solS Hz1 Hz2 Hin ke1 ke2 gflag1 gflag2 gflagS Hs1 Hs2 HsS).
Qed.
Print Assumptions C15_direct_sum_nh_partial.

(** non-vacuity: [kept_equal] and the solver hypothesis hold for a degenerate example (3 states, blocks
    {0,1} | {2}, energies 1, 1, 2, everything inside the blocks kept), and conjugation is an [SGHom] on it *)
Example C15_nh_applies :
  (forall p q, (p < 3)%nat -> (q < 3)%nat -> ex_keep p q = true -> ex_Ed p == ex_Ed q)
  /\ (forall p q, (p < 3)%nat -> (q < 3)%nat -> ex_keep p q = false ->
                  (ex_Ed p - ex_Ed q) * ex_inv (ex_Ed p - ex_Ed q) == 1)
  /\ SGHom (BA := ex_BA) (BA' := ex_BA) (cconj 3 2).
Proof.
  split. exact ex_Ed_kept_equal. split. exact ex_Ed_inv_spec.
  apply LAHom_SGHom. exact (cconj_LAHom 3 2 ex_blk ex_keep ex_cm ex_keep_sym ex_keep_blk ex_cm_blk).
Qed.

(* C16 (clause C16_kpm_contract) - "... the KPM solver within its requested accuracy or
   with a convergence warning ..."

   Model: LinAlg/KPMLoop.v, the while loop of pymablock.kpm.greens_function over an
   abstract residual oracle (the floating-point Chebyshev expansion is not modelled:
   convergence of the expansion is outside the theorem, see DESIGN section 9; the oracle
   o_kpm monitors it).  `res m` is the residual norm((H sol - E sol) + v) of the solution
   computed with m moments, `gtb` is the float comparison `>`. *)
From Coq Require Import ZArith Lia.
From PV Require Import LinAlg.KPMLoop.
Local Open Scope Z_scope.

(* On exit with a bound solution: the recorded residual is the one of the returned
   solution and either it is <= atol (not > atol) or the RuntimeWarning was emitted. *)
Theorem C16_kpm_contract (T : Type) (gtb : T -> T -> bool) (res : Z -> T) (atol : T)
    (max_moments : Z) (fuel : nat) m r w it :
  greens_function_loop T gtb res atol max_moments fuel = Return T m r w it ->
  r = res m /\ (gtb r atol = false \/ w = true).
Proof. apply loop_contract. discriminate. Qed.
Print Assumptions C16_kpm_contract.

(* the loop always terminates (fuel max_moments + 3 suffices): OutOfFuel is not an
   outcome of the real function *)
Theorem C16_kpm_terminates (T : Type) (gtb : T -> T -> bool) (res : Z -> T) (atol : T)
    (max_moments : Z) (fuel : nat) :
  (Z.to_nat (max_moments + 2) < fuel)%nat ->
  greens_function_loop T gtb res atol max_moments fuel <> OutOfFuel T.
Proof. intros H. apply loop_terminates; lia. Qed.
Print Assumptions C16_kpm_terminates.

(* for max_moments >= 10 a solution is always bound on exit *)
Theorem C16_kpm_bound (T : Type) (gtb : T -> T -> bool) (res : Z -> T) (atol : T)
    (max_moments : Z) (fuel : nat) w :
  10 <= max_moments ->
  greens_function_loop T gtb res atol max_moments fuel <> RaiseUnboundLocalError T w.
Proof.
intros H. unfold greens_function_loop. destruct fuel as [|f]; simpl; [discriminate|].
destruct (Z.ltb_spec max_moments 10); [lia|].
apply loop_bound. discriminate.
Qed.
Print Assumptions C16_kpm_bound.

(* max_moments < 10 (excluded above): the body never runs; the function warns and then
   fails with UnboundLocalError at `return sol` - reported, k_greens.tie_kpm observes the
   same on /repo *)
Theorem C16_kpm_small_max_moments (T : Type) (gtb : T -> T -> bool) (res : Z -> T) (atol : T)
    (max_moments : Z) (fuel : nat) :
  max_moments < 10 ->
  greens_function_loop T gtb res atol max_moments (S fuel) = RaiseUnboundLocalError T true.
Proof.
intros H. unfold greens_function_loop. simpl.
destruct (Z.ltb_spec max_moments 10); [reflexivity|lia].
Qed.
Print Assumptions C16_kpm_small_max_moments.

(* the solution returned after `it` iterations was computed with 10 * 4^(it-1) moments *)
Theorem C16_kpm_moments (T : Type) (gtb : T -> T -> bool) (res : Z -> T) (atol : T)
    (max_moments : Z) (fuel : nat) m r w it :
  greens_function_loop T gtb res atol max_moments fuel = Return T m r w it ->
  4 * m = 10 * 4 ^ Z.of_nat it.
Proof.
intros H. apply loop_moments in H; [|discriminate].
rewrite Nat.sub_0_r in H. tauto.
Qed.
Print Assumptions C16_kpm_moments.

(* the hypotheses can be met: residuals 5, 3, 1 for 10, 40, 160 moments, atol = 2 *)
Example C16_kpm_ex :
  greens_function_loop Z Z.gtb (fun m => if m <? 20 then 5 else if m <? 100 then 3 else 1) 2 1000 50
  = Return Z 160 1 false 3.
Proof. reflexivity. Qed.
Example C16_kpm_ex_warn :
  greens_function_loop Z Z.gtb (fun m => 5) 2 100 50 = Return Z 40 5 true 2.
Proof. reflexivity. Qed.

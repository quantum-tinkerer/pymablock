(** C03 - Result is the unique least-action (Schrieffer-Wolff) transformation.

    [C03_gauge]: at every order the anti-Hermitian part of U - 1 has no kept matrix element.
    [C03_is_least_action]: the computed U satisfies the four defining conditions (no order-zero
    correction, unitarity, elimination, gauge) - stated with the plain products, never read
    off H_tilde.  [C03_unique]: any two transformations satisfying them for the same H
    coincide, provided x |-> [H_0, x] is injective on eliminated elements, witnessed by a left
    inverse (true for the built-in solvers whenever eliminated elements connect distinct
    energies, which is what the library validates).  Hence H_tilde, U, U† coincide with the
    output of ANY procedure that solves the defining equations (the independent
    [reference_solver] of tools/oracles/o_main.py is one).  Same quantification as C01. *)
Require Import Ncring String List Morphisms.
From PV.Base Require Import Classes AlgLemmas.
From PV.DSL Require Import Syntax Sem.
From PV.Gen Require Import Algorithms_gen.
From PV.Alg Require Import MainLift MainCorrect Unique.
Open Scope string_scope.

Theorem C03_gauge :
  forall (T : Type) (r0 r1 : T) (add mul sub : T -> T -> T) (opp : T -> T) (req : T -> T -> Prop)
         (Ro : @Ring_ops T r0 r1 add mul sub opp req) (Rg : @Ring T r0 r1 add mul sub opp req Ro)
         (BA : BlockAlg T) (rflag : string -> T -> T) (fenv : string -> list T -> T) (sol : string -> T),
    solution (gflag_of false) rflag fenv sol main_alg -> wiring rflag fenv (sol "H") ->
    Sel (half ((sol "U" - 1) - adj (sol "U" - 1))) == 0.
Proof. intros. eapply gauge_general; eassumption. Qed.
Print Assumptions C03_gauge.

Theorem C03_is_least_action :
  forall (T : Type) (r0 r1 : T) (add mul sub : T -> T -> T) (opp : T -> T) (req : T -> T -> Prop)
         (Ro : @Ring_ops T r0 r1 add mul sub opp req) (Rg : @Ring T r0 r1 add mul sub opp req Ro)
         (BA : BlockAlg T) (rflag : string -> T -> T) (fenv : string -> list T -> T) (sol : string -> T),
    solution (gflag_of false) rflag fenv sol main_alg -> wiring rflag fenv (sol "H") ->
    least_action (sol "H") (sol "U").
Proof. intros. eapply main_least_action; eassumption. Qed.
Print Assumptions C03_is_least_action.

Theorem C03_unique :
  forall (T : Type) (r0 r1 : T) (add mul sub : T -> T -> T) (opp : T -> T) (req : T -> T -> Prop)
         (Ro : @Ring_ops T r0 r1 add mul sub opp req) (Rg : @Ring T r0 r1 add mul sub opp req Ro)
         (BA : BlockAlg T) (H : T) (sylv : T -> T),
    (forall x, Sel (comm (Zc H) x) == comm (Zc H) (Sel x)) ->
    Proper (_==_ ==> _==_) sylv ->
    (forall k y, ord k y -> ord k (sylv y)) ->
    (forall x, Rp (sylv (comm (Zc H) (Rp x))) == Rp x) ->
    forall U1 U2, least_action H U1 -> least_action H U2 -> U1 == U2.
Proof. intros. eapply least_action_unique; eassumption. Qed.
Print Assumptions C03_unique.

(** Two-block optimisation (two_block_optimized = True): same conclusions under [wiring_tb]. *)

Theorem C03_gauge_two_block :
  forall (T : Type) (r0 r1 : T) (add mul sub : T -> T -> T) (opp : T -> T) (req : T -> T -> Prop)
         (Ro : @Ring_ops T r0 r1 add mul sub opp req) (Rg : @Ring T r0 r1 add mul sub opp req Ro)
         (BA : BlockAlg T) (rflag : string -> T -> T) (fenv : string -> list T -> T) (sol : string -> T),
    solution (gflag_of true) rflag fenv sol main_alg ->
    wiring_tb rflag fenv (sol "H") ->
    Sel (half ((sol "U" - 1) - adj (sol "U" - 1))) == 0.
Proof. intros. eapply gauge_tb; eassumption. Qed.
Print Assumptions C03_gauge_two_block.

(** End-to-end form of the tie (see Props/C01.v, [C01_tie_conclusions]): for every k_semeq case
    where [check_alg] and [inputs_ok] evaluate to true, the least-action gauge condition holds for
    the implementation's tables up to total order N. *)
From PV.Alg Require Import SemExec SemExecSound TruncTie.
From PV.Series Require Import Exec.
From PV.Block Require Import QLemmas QInst.
Theorem C03_tie_gauge :
  forall (D k N : nat) (bl : list nat) (msk : list (list bool)) (cb : list bool) (El : list gq)
         (sols : list (string * tser gq)),
    check_alg D k N bl msk cb El false sols main_alg = true ->
    inputs_ok D k N bl msk cb El sols = true ->
    let BA := BAi D k bl msk cb in
    let sol := asol D k sols in
    eqN D k N (Sel (half ((sol "U" - 1) - adj (sol "U" - 1)))) 0.
Proof.
  intros D k N bl msk cb El sols H1 H2 BA sol.
  destruct (tie_conclusions D k N bl msk cb El sols H1 H2) as (_ & _ & _ & _ & _ & _ & g). exact g.
Qed.
Print Assumptions C03_tie_gauge.

(** ... and uniqueness: ANY U' satisfying the least-action conditions for the loaded H up to order
    N agrees with the implementation's U up to order N (uniqueness theorem of Alg/Unique.v in the
    truncated algebra; the left-inverse property of the diagonal solver is proved for the concrete
    instance, Series/SymBase.v). *)
Theorem C03_tie_unique :
  forall (D k N : nat) (bl : list nat) (msk : list (list bool)) (cb : list bool) (El : list gq)
         (sols : list (string * tser gq)),
    check_alg D k N bl msk cb El false sols main_alg = true ->
    inputs_ok D k N bl msk cb El sols = true ->
    let BA := BAi D k bl msk cb in
    let sol := asol D k sols in
    forall U' : Inst.T D k gq,
    ord 1 (U' - 1) ->
    eqN D k N (adj U' * U') 1 ->
    eqN D k N (Rp (adj U' * sol "H" * U')) 0 ->
    eqN D k N (Sel (half ((U' - 1) - adj (U' - 1)))) 0 ->
    eqN D k N U' (sol "U").
Proof.
  intros D k N bl msk cb El sols H1 H2 BA sol U' a b c d.
  exact (tie_unique D k N bl msk cb El sols H1 H2 U' a b c d).
Qed.
Print Assumptions C03_tie_unique.

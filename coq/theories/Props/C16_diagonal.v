(* C16, clause "diagonal":
   "Each built-in solver returns V with H_0^(i) V - V H_0^(j) = Y on the subspace where it is
    defined: the diagonal solver for dense, sparse and symbolic right-hand sides (zero where
    energies coincide within tolerance) ..."

   Model: Front/SylvDiag.v ([sylv_diag], one function for the three branches; the closure
   [solve] with its state index_checked).  [F : Fld] is any field with conjugation and the two
   tolerance tests ([far d] = "|d| > atol", [close a b] = numpy.isclose(a, b, atol=atol), i.e.
   |a - b| <= atol + 1e-5 |b|, the shared-eigenvalue test since fix e4d96a1); Front/GaussQc.v gives
   the executable instance (Gaussian rationals) used by the correspondence harness.
   [guard F k] is the guard of branch k: [far] for Dense and Sparse, "not exactly zero" for
   Symbolic. *)

Require Import List Bool Arith ZArith.
Require Import PV.Front.GaussQc PV.Front.SylvDiag PV.Front.SylvDiagProofs.
Import ListNotations.

(* (E_a - E_b) V_ab = Y_ab where the guard holds, V_ab = 0 elsewhere; shapes preserved. *)
Theorem C16_diagonal :
  forall (F : Fld) (k : kind) (eA eB : eigs F) (Y V : mat F),
  sylv_diag F (guard F k) eA eB Y = Some V ->
  length V = length Y /\
  forall a, a < length Y ->
    length (nth a V []) = length (nth a Y []) /\
    forall b, b < length (nth a Y []) ->
      let d := ksub F (eig_at F eA a) (eig_at F eB b) in
      (guard F k d = true -> kmul F d (mget F V a b) = mget F Y a b) /\
      (guard F k d = false -> mget F V a b = k0 F).
Proof. intros F k eA eB Y V. apply sylv_diag_spec. apply guard_nz. Qed.
Print Assumptions C16_diagonal.

(* hence H0_i V - V H0_j = Y on the non-degenerate support, with H0_i = diag(E^i) and genuine
   matrix products ([fmul n] sums over n indices; nA, nB are the block sizes) *)
Theorem C16_diagonal_residual :
  forall (F : Fld) (k : kind) (eA eB : eigs F) (Y V : mat F) (nA nB : nat),
  sylv_diag F (guard F k) eA eB Y = Some V ->
  forall a b, a < length Y -> b < length (nth a Y []) -> a < nA -> b < nB ->
    guard F k (ksub F (eig_at F eA a) (eig_at F eB b)) = true ->
    ksub F (fmul F nA (fdiag F (eig_at F eA)) (mget F V) a b)
           (fmul F nB (mget F V) (fdiag F (eig_at F eB)) a b)
    = mget F Y a b.
Proof. intros F k eA eB Y V nA nB. apply sylv_diag_residual. apply guard_nz. Qed.
Print Assumptions C16_diagonal_residual.

(* V(Y^dagger) = - V(Y)^dagger for real energies, blocks i and j swapped *)
Theorem C16_diagonal_antiherm :
  forall (F : Fld) (k : kind) (eA eB : eigs F) (Y Y' V V' : mat F),
  real_eigs F eA -> real_eigs F eB ->
  length Y' = length (hd [] Y) ->
  (forall a, a < length Y -> length (nth a Y []) = length Y') ->
  (forall b, b < length Y' -> length (nth b Y' []) = length Y) ->
  (forall a b, a < length Y -> b < length Y' -> mget F Y' b a = kconj F (mget F Y a b)) ->
  sylv_diag F (guard F k) eA eB Y = Some V ->
  sylv_diag F (guard F k) eB eA Y' = Some V' ->
  forall a b, a < length Y -> b < length Y' ->
    mget F V' b a = kopp F (kconj F (mget F V a b)).
Proof.
  intros F k eA eB Y Y' V V' HrA HrB _ HrowY HrowY' Hadj HV HV' a b Ha Hb.
  destruct (by_energy_spec F _ _ _ _ _ HV) as [_ Hn].
  destruct (by_energy_spec F _ _ _ _ _ HV') as [_ Hn'].
  destruct (Hn a Ha) as [_ Hab]. specialize (Hab b). rewrite (HrowY a Ha) in Hab.
  destruct (Hn' b Hb) as [_ Hba]. specialize (Hba a). rewrite (HrowY' b Hb), (Hadj a b Ha Hb) in Hba.
  exact (entry_antiherm F k _ _ _ _ _ (real_diff F eA eB a b HrA HrB) (Hab Hb) (Hba Ha)).
Qed.
Print Assumptions C16_diagonal_antiherm.

(* No division by a quantity failing the safety test (|d| <= atol; exactly 0 in the symbolic
   branch): [pdiv] would return None / the closure ODivTol.  (i) the guarded function is total;
   (ii) a closure without vecs_implicit never reports ODivTol, for any sequence of calls;
   (iii) with vecs_implicit (KPM) only a diagonal index i = j could, which is never requested. *)
Theorem C16_diagonal_nodiv :
  forall (F : Fld),
  (forall g eA eB Y, sylv_diag F g eA eB Y <> None) /\
  (forall E reqs, ~ In ODivTol (fst (run F E None [] reqs))) /\
  (forall E vimp st Y i j, Inv F E st ->
     fst (solve F E vimp st Y i j) = ODivTol -> vimp <> None /\ i = j).
Proof.
  intro F. split; [apply sylv_diag_nodiv|split].
  - intros E reqs. apply run_nodiv; [apply Inv_nil|reflexivity].
  - intros E vimp. apply solve_nodiv.
Qed.
Print Assumptions C16_diagonal_nodiv.

(* The lazily executed check "The subspaces must not share eigenvalues": in any state reached
   from a fresh closure, a call for two different blocks that share an eigenvalue with a
   right-hand side other than the sentinel zero raises ValueError and leaves the state
   unchanged (so every later use raises again). *)
Theorem C16_diagonal_shared_rejected :
  forall (F : Fld) E vimp reqs Y i j eA eB,
  let st := snd (run F E vimp [] reqs) in
  i <> j -> Y <> YZero ->
  nth_error E i = Some eA -> nth_error E j = Some eB ->
  (exists a, In a (vals F eA) /\ In a (vals F eB)) ->
  solve F E vimp st Y i j = (ORaise ValueError, st).
Proof.
  intros F E vimp reqs Y i j eA eB st. apply solve_rejects_shared.
  apply run_inv, Inv_nil.
Qed.
Print Assumptions C16_diagonal_shared_rejected.

(* a concrete instance: atol = 1/2, energies (0,1,1) against (1,3) *)

Definition Fx : Fld := GF (qc 1 2) eq_refl.
Definition evx (l : list G) : eigs Fx := @EVec Fx l.
Definition mx (M : list (list G)) : mat Fx := M.
Definition eAx : eigs Fx := evx [gz 0; gz 1; gz 1].
Definition eBx : eigs Fx := evx [gz 1; gz 3].
Definition Yx : mat Fx := mx [[gq 1 1 2 1; gz 3]; [gz 5; gq 0 1 1 1]; [gz 7; gz 4]].
Definition Yx' : mat Fx := mx [[gq 1 1 (-2) 1; gz 5; gz 7]; [gz 3; gq 0 1 (-1) 1; gz 4]].

Example C16_diagonal_ex :
  exists V V',
    sylv_diag Fx (guard Fx Dense) eAx eBx Yx = Some V /\
    sylv_diag Fx (guard Fx Dense) eBx eAx Yx' = Some V' /\
    mat_eqb Fx V (mx [[gq (-1) 1 (-2) 1; gz (-1)]; [gz 0; gq 0 1 (-1) 2]; [gz 0; gz (-2)]]) = true /\
    mat_eqb Fx V' (mx [[gq 1 1 (-2) 1; gz 0; gz 0]; [gz 1; gq 0 1 (-1) 2; gz 2]]) = true /\
    real_eigs Fx eAx /\ real_eigs Fx eBx.
Proof.
  eexists _, _. split; [|split; [|split; [|split; [|split]]]].
  - vm_compute. reflexivity.
  - vm_compute. reflexivity.
  - vm_compute. reflexivity.
  - vm_compute. reflexivity.
  - intros [|[|[|[|a]]]]; apply G_ext; vm_compute; reflexivity.
  - intros [|[|[|a]]]; apply G_ext; vm_compute; reflexivity.
Qed.

(* the closure: first use of the coupled pair (0,1) sharing the energy 1 raises, the pair
   (0,2) works, a zero right-hand side never triggers the test *)
Example C16_diagonal_closure_ex :
  let E := [eAx; eBx; evx [gz 5]] in
  outcomes_eqb Fx
    (fst (run Fx E None []
       [(YZero, (0, 1)); (YMat Dense Yx, (0, 1)); (YMat Sparse (mx [[gz 2]; [gz 4]; [gz 8]]), (0, 2));
        (YMat Symbolic Yx, (0, 1))]))
    [OZero; ORaise ValueError; OVal (mx [[gq (-2) 5 0 1]; [gz (-1)]; [gz (-2)]]); ORaise ValueError]
  = true.
Proof. vm_compute. reflexivity. Qed.

(* MathComp model of pymablock.linalg.ComplementProjector: the dense matrix it
   denotes, its two application methods, the three transforms, the LinearOperator
   contract of SciPy used for composites, and the dtype/shape bookkeeping.
   The caching object graph is LinAlg/Heap.v instantiated at V = 'M_(n,k). *)
From mathcomp Require Import ssreflect ssrfun ssrbool eqtype seq.
From mathcomp Require Import ssralg matrix.
From PV Require Import LinAlg.Heap.
Set Implicit Arguments. Unset Strict Implicit. Unset Printing Implicit Defensive.
Import GRing.Theory.
Local Open Scope ring_scope.

Section ConjTranspose.
Variable R : comRingType.
Variable conj : {rmorphism R -> R}.
Hypothesis conjK : involutive conj.

Definition conjm m n (A : 'M[R]_(m,n)) : 'M[R]_(m,n) := map_mx conj A.
Definition adjm m n (A : 'M[R]_(m,n)) : 'M[R]_(n,m) := map_mx conj A^T.

Lemma conjmK m n : involutive (@conjm m n).
Proof. by move=> A; apply/matrixP=> i j; rewrite !mxE conjK. Qed.
Lemma adjmK m n (A : 'M[R]_(m,n)) : adjm (adjm A) = A.
Proof. by apply/matrixP=> i j; rewrite !mxE conjK. Qed.
Lemma conjm_mul m n p (A : 'M[R]_(m,n)) (B : 'M_(n,p)) : conjm (A *m B) = conjm A *m conjm B.
Proof. exact: map_mxM. Qed.
Lemma adjm_mul m n p (A : 'M[R]_(m,n)) (B : 'M_(n,p)) : adjm (A *m B) = adjm B *m adjm A.
Proof. by rewrite /adjm trmx_mul map_mxM. Qed.
Lemma conjm_sub m n (A B : 'M[R]_(m,n)) : conjm (A - B) = conjm A - conjm B.
Proof. exact: map_mxB. Qed.
Lemma adjm_sub m n (A B : 'M[R]_(m,n)) : adjm (A - B) = adjm A - adjm B.
Proof. by rewrite /adjm linearB /= map_mxB. Qed.
Lemma conjm1 n : conjm (1%:M : 'M[R]_n) = 1%:M.
Proof. exact: map_mx1. Qed.
Lemma adjm1 n : adjm (1%:M : 'M[R]_n) = 1%:M.
Proof. by rewrite /adjm trmx1 map_mx1. Qed.
Lemma adjm_conjm m n (A : 'M[R]_(m,n)) : adjm (conjm A) = conjm (adjm A).
Proof. by apply/matrixP=> i j; rewrite !mxE. Qed.
Lemma trmx_conjm_adjm m n (A : 'M[R]_(m,n)) : A^T = conjm (adjm A).
Proof. by apply/matrixP=> i j; rewrite !mxE conjK. Qed.
Lemma adjm_tr m n (A : 'M[R]_(m,n)) : adjm A = conjm A^T.
Proof. by []. Qed.

Section Proj.
Variables n k : nat.
Notation V := (matrix_eqType R n k).

(* data of an object: (vecs, left_vecs) *)
Definition den (d : V * V) : 'M[R]_n := 1%:M - d.1 *m adjm d.2.

(* _apply:       v - vecs @ (left_vecs.conj().T @ v)      (= _matvec = _matmat)  *)
Definition apply (d : V * V) m (v : 'M[R]_(n,m)) : 'M[R]_(n,m) :=
  v - d.1 *m (adjm d.2 *m v).
(* _apply_left:  v - left_vecs @ (vecs.conj().T @ v)      (= _rmatvec = _rmatmat) *)
Definition apply_left (d : V * V) m (v : 'M[R]_(n,m)) : 'M[R]_(n,m) :=
  v - d.2 *m (adjm d.1 *m v).

Lemma apply_den d m (v : 'M_(n,m)) : apply d v = den d *m v.
Proof. by rewrite /apply /den mulmxBl mul1mx mulmxA. Qed.

(* The identity behind ProjectorZ.zop_projector_scaled: (c - 1) v + apply (R, L') v is
   c v - R (L'^H v).  That this is c times the projector with left vectors L'/c needs c
   invertible and is not stated. *)
Lemma apply_scaled d m (v : 'M_(n,m)) (c : R) :
  (c - 1) *: v + apply d v = c *: v - d.1 *m (adjm d.2 *m v).
Proof. by rewrite /apply scalerBl scale1r addrA subrK. Qed.

Lemma den_adj d : adjm (den d) = 1%:M - d.2 *m adjm d.1.
Proof. by rewrite /den adjm_sub adjm1 adjm_mul adjmK. Qed.

Lemma apply_left_den d m (v : 'M_(n,m)) : apply_left d v = adjm (den d) *m v.
Proof. by rewrite den_adj /apply_left mulmxBl mul1mx mulmxA. Qed.

Definition vconj (A : V) : V := conjm A.
Lemma vconjK : involutive vconj. Proof. exact: conjmK. Qed.

Lemma den_gact f d :
  den (gact vconj f d) =
  match f with FH => adjm (den d) | FC => conjm (den d) | FT => (den d)^T end.
Proof.
case: f; rewrite /gact /=.
- by rewrite den_adj.
- by rewrite /den /vconj conjm_sub conjm1 conjm_mul adjm_conjm.
- by rewrite trmx_conjm_adjm den_adj /den /vconj conjm_sub conjm1 conjm_mul adjm_conjm.
Qed.

(* the dense transform named by an operation *)
Definition tr_op (M : 'M[R]_n) (o : op) : 'M[R]_n :=
  match o with OpT => M^T | OpH => adjm M | OpC => conjm M end.

Lemma den_act d o : den (act vconj d o) = tr_op (den d) o.
Proof. by case: o; rewrite /act den_gact. Qed.

Lemma den_word d w : den (foldl (act vconj) d w) = foldl tr_op (den d) w.
Proof. by elim: w d => //= o w IH d; rewrite IH den_act. Qed.

Definition den_at (h : heap V) (a : nat) : 'M[R]_n := den (dat (cell h a)).

Lemma den_herm d : d.2 = d.1 -> adjm (den d) = den d.
Proof. by move=> e; rewrite den_adj /den e. Qed.

End Proj.

(* SciPy's LinearOperator algebra, by contract *)

Record linop (n m : nat) := LinOp {
  matmat  : forall p, 'M[R]_(m,p) -> 'M[R]_(n,p);
  rmatmat : forall p, 'M[R]_(n,p) -> 'M[R]_(m,p) }.

Definition denotes n m (a : linop n m) (A : 'M[R]_(n,m)) : Prop :=
  (forall p (X : 'M_(m,p)), matmat a X = A *m X) /\
  (forall p (X : 'M_(n,p)), rmatmat a X = adjm A *m X).

(* the projector as a LinearOperator: _matmat = _apply, _rmatmat = _apply_left *)
Definition of_projector n k (d : 'M[R]_(n,k) * 'M[R]_(n,k)) : linop n n :=
  LinOp (fun p => @apply n k d p) (fun p => @apply_left n k d p).
(* aslinearoperator(A) for a dense or sparse matrix (MatrixLinearOperator contract) *)
Definition of_dense n m (A : 'M[R]_(n,m)) : linop n m :=
  LinOp (fun p X => A *m X) (fun p X => adjm A *m X).
(* _ProductLinearOperator *)
Definition prod_op n m q (a : linop n m) (b : linop m q) : linop n q :=
  LinOp (fun p X => matmat a (matmat b X)) (fun p X => rmatmat b (rmatmat a X)).
(* _AdjointLinearOperator *)
Definition adj_op n m (a : linop n m) : linop m n :=
  LinOp (fun p X => rmatmat a X) (fun p X => matmat a X).
(* _TransposedLinearOperator *)
Definition tr_lop n m (a : linop n m) : linop m n :=
  LinOp (fun p X => conjm (rmatmat a (conjm X))) (fun p X => conjm (matmat a (conjm X))).
(* rdot for matrices: x @ A = (A.T.matmat(x.T)).T *)
Definition rdot n m (aT : linop m n) p (x : 'M[R]_(p,n)) : 'M[R]_(p,m) :=
  (matmat aT x^T)^T.

Lemma denotes_projector n k (d : 'M[R]_(n,k) * 'M[R]_(n,k)) :
  denotes (of_projector d) (den d).
Proof. by split=> p X /=; rewrite ?apply_den ?apply_left_den. Qed.

Lemma denotes_dense n m (A : 'M[R]_(n,m)) : denotes (of_dense A) A.
Proof. by split. Qed.

Lemma denotes_prod n m q (a : linop n m) (b : linop m q) A B :
  denotes a A -> denotes b B -> denotes (prod_op a b) (A *m B).
Proof.
move=> [a1 a2] [b1 b2]; split=> p X /=.
- by rewrite b1 a1 mulmxA.
- by rewrite a2 b2 adjm_mul mulmxA.
Qed.

Lemma denotes_adj n m (a : linop n m) A : denotes a A -> denotes (adj_op a) (adjm A).
Proof. by move=> [a1 a2]; split=> p X /=; rewrite ?adjmK. Qed.

Lemma denotes_tr n m (a : linop n m) A : denotes a A -> denotes (tr_lop a) A^T.
Proof.
move=> [a1 a2]; split=> p X /=.
- by rewrite a2 conjm_mul conjmK -trmx_conjm_adjm.
- by rewrite a1 conjm_mul conjmK /adjm trmxK.
Qed.

Lemma rdot_denotes n m (aT : linop m n) (A : 'M[R]_(n,m)) p (x : 'M_(p,n)) :
  denotes aT A^T -> rdot aT x = x *m A.
Proof. by move=> [a1 _]; rewrite /rdot a1 trmx_mul !trmxK. Qed.

(* P A P, its adjoint (both the generic wrapper and the product SciPy builds from
   the adjoint objects), its transpose and right multiplication *)
Lemma composites n k (d : 'M[R]_(n,k) * 'M[R]_(n,k)) (A : 'M[R]_n) :
  let P := of_projector d in
  let PH := of_projector (gact (@vconj n k) FH d) in
  let PAP := prod_op (prod_op P (of_dense A)) P in
  let M := den d *m A *m den d in
  [/\ denotes PAP M,
      denotes (adj_op PAP) (adjm M),
      denotes (prod_op PH (prod_op (of_dense (adjm A)) PH)) (adjm M),
      denotes (tr_lop PAP) M^T
    & forall p (x : 'M[R]_(p,n)), rdot (tr_lop PAP) x = x *m M].
Proof.
move=> P PH PAP M.
have dP : denotes P (den d) := denotes_projector d.
have dPAP : denotes PAP M.
  by apply: denotes_prod => //; apply: denotes_prod => //; apply: denotes_dense.
split=> //.
- exact: denotes_adj.
- have -> : adjm M = adjm (den d) *m (adjm A *m adjm (den d)).
    by rewrite /M !adjm_mul mulmxA.
  have dPH : denotes PH (adjm (den d)).
    by rewrite -(den_gact FH d); apply: denotes_projector.
  by apply: denotes_prod => //; apply: denotes_prod => //; apply: denotes_dense.
- exact: denotes_tr.
- by move=> p x; apply: rdot_denotes; apply: denotes_tr.
Qed.

End ConjTranspose.

(* dtype and shape bookkeeping of __init__ *)

Inductive dtype := DReal | DComplex.
Definition join (a b : dtype) : dtype :=
  match a, b with DReal, DReal => DReal | _, _ => DComplex end.
(* dtype = np.result_type(self._vecs.dtype, self._left_vecs.dtype), where
   self._left_vecs is vecs itself when the Hermitian flag is set *)
Definition proj_dtype (vdt ldt : dtype) (hermitian : bool) : dtype :=
  join vdt (if hermitian then vdt else ldt).
(* shape = (vecs.shape[0], vecs.shape[0]) *)
Definition proj_shape (vshape : nat * nat) : nat * nat := (vshape.1, vshape.1).

Lemma join_comm a b : join a b = join b a. Proof. by case: a; case: b. Qed.
Lemma join_idem a : join a a = a. Proof. by case: a. Qed.

(* The transforms build their objects from the stored arrays, swapped (adjoint),
   conjugated (conjugate) or both (transpose), and the Hermitian flag is the same for the
   derived object.  Trusted: NumPy's conjugation keeps an array's dtype and shape. *)
Definition eff_left (vdt ldt : dtype) (hm : bool) : dtype := if hm then vdt else ldt.
Definition transform_dtypes (f : fld) (vdt ldt : dtype) (hm : bool) : dtype * dtype :=
  match f with
  | FH | FT => (eff_left vdt ldt hm, vdt)
  | FC => (vdt, eff_left vdt ldt hm)
  end.

Lemma proj_shape_square vs : (proj_shape vs).1 = (proj_shape vs).2.
Proof. by []. Qed.

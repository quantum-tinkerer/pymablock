(* Model of the real branch of block_diagonalization._group_close_energies:
     order = argsort(energies); split where diff(energies[order]) > atol.
   Energies are integers (any common unit: the harness scales dyadic floats).
   Proved here: the groups partition the sorted items, neighbours inside a group are
   within atol, items of different groups are more than atol apart (split_spec).  That a
   group is connected in the graph "|E_a - E_b| <= atol" and that no edge joins two groups
   are the clauses C16_group_connected / C16_group_no_edge of Props/C16_direct.v; their
   conjunction as "groups = connected components" (same_group) is not stated. *)
From Coq Require Import ZArith List Lia Sorting.Permutation Sorting.Sorted Relations.
Import ListNotations.
Local Open Scope Z_scope.

Definition item := (Z * nat)%type.   (* (energy, index) *)

Fixpoint insert (x : item) (l : list item) : list item :=
  match l with
  | [] => [x]
  | y :: r => if fst x <=? fst y then x :: y :: r else y :: insert x r
  end.
Fixpoint isort (l : list item) : list item :=
  match l with [] => [] | x :: r => insert x (isort r) end.

(* np.split(order, nonzero(diff > atol) + 1) on the sorted list *)
Fixpoint split_sorted (atol : Z) (l : list item) {struct l} : list (list item) :=
  match l with
  | [] => []
  | x :: r =>
      match split_sorted atol r with
      | g :: gs =>
          match r with
          | y :: _ => if fst y - fst x >? atol then [x] :: g :: gs else (x :: g) :: gs
          | [] => [[x]]
          end
      | [] => [[x]]
      end
  end.

Fixpoint index_from (i : nat) (es : list Z) : list item :=
  match es with [] => [] | e :: r => (e, i) :: index_from (S i) r end.

Definition group_pairs (es : list Z) (atol : Z) : list (list item) :=
  split_sorted atol (isort (index_from 0 es)).
(* what the Python function returns: lists of indices *)
Definition group_close_energies (es : list Z) (atol : Z) : list (list nat) :=
  map (map snd) (group_pairs es atol).

Definition le_item (a b : item) : Prop := fst a <= fst b.

Lemma insert_perm x l : Permutation (insert x l) (x :: l).
Proof.
induction l as [|y r IH]; simpl; auto.
destruct (fst x <=? fst y); auto.
rewrite IH. apply perm_swap.
Qed.

Lemma isort_perm l : Permutation (isort l) l.
Proof. induction l; simpl; auto. rewrite insert_perm. auto. Qed.

Lemma insert_sorted x l : StronglySorted le_item l -> StronglySorted le_item (insert x l).
Proof.
induction 1 as [|y r Hr IH Hy]; simpl.
- repeat constructor.
- destruct (Z.leb_spec (fst x) (fst y)).
  + constructor. constructor; auto. constructor; auto.
    rewrite Forall_forall in *. intros z Hz. specialize (Hy z Hz). unfold le_item in *. lia.
  + constructor; auto.
    rewrite Forall_forall in *. intros z Hz.
    apply (Permutation_in _ (insert_perm x r)) in Hz. destruct Hz as [<-|Hz].
    * unfold le_item. lia.
    * auto.
Qed.

Lemma isort_sorted l : StronglySorted le_item (isort l).
Proof. induction l; simpl. constructor. apply insert_sorted; auto. Qed.

(* specification of the split *)
Fixpoint chained (atol : Z) (g : list item) : Prop :=
  match g with
  | a :: (b :: _) as t => 0 <= fst b - fst a <= atol /\ chained atol t
  | _ => True
  end.
Fixpoint separated (atol : Z) (gs : list (list item)) : Prop :=
  match gs with
  | [] => True
  | g :: rest =>
      (forall a b, In a g -> In b (concat rest) -> fst b - fst a > atol) /\ separated atol rest
  end.

(* the first group starts with the first item; one more item in front either opens a
   group of its own or joins that group *)
Lemma split_sorted_cons atol x y r :
  exists g gs, split_sorted atol (y :: r) = (y :: g) :: gs /\
    split_sorted atol (x :: y :: r) =
      if fst y - fst x >? atol then [x] :: (y :: g) :: gs else (x :: y :: g) :: gs.
Proof.
assert (H : exists g gs, split_sorted atol (y :: r) = (y :: g) :: gs).
{ revert y; induction r as [|z r IH]; intros y; [exists [], []; reflexivity|].
  destruct (IH z) as (g & gs & E). simpl in *. rewrite E.
  destruct (fst z - fst y >? atol); eauto. }
destruct H as (g & gs & E). exists g, gs. split; [exact E|].
simpl in *. rewrite E. reflexivity.
Qed.

Theorem split_spec atol l :
  StronglySorted le_item l ->
  let gs := split_sorted atol l in
  concat gs = l /\ Forall (chained atol) gs /\ separated atol gs /\ Forall (fun g => g <> []) gs.
Proof.
induction l as [|x [|y r] IH]; intros Hs.
- repeat split; constructor.
- repeat split; repeat constructor; try discriminate. simpl. intros ? ? _ [].
- inversion Hs as [|? ? Hr Hx]; subst. destruct (IH Hr) as (C & Ch & S & N); clear IH.
  destruct (split_sorted_cons atol x y r) as (g & gs & E & E'). cbv zeta. rewrite E' in *.
  rewrite E in C, Ch, S, N. clear E E'.
  inversion Ch as [|? ? Cg Cgs]; inversion N as [|? ? _ Ngs]; subst. destruct S as [S1 S2].
  assert (Hxy : fst x <= fst y) by (inversion Hx; assumption).
  destruct (Z.gtb_spec (fst y - fst x) atol) as [Hgap|Hgap]; simpl in C |- *.
  + split; [f_equal; exact C|]. split; [constructor; [exact I|exact Ch]|]. split.
    * split; [|split; assumption]. intros a b [<-|[]] Hb.
      assert (Hb' : In b (y :: r)) by (rewrite <- C; exact Hb).
      inversion Hr as [|? ? _ Hyr]; subst. rewrite Forall_forall in Hyr.
      destruct Hb' as [<-|Hb']; [lia|]. specialize (Hyr b Hb'). unfold le_item in Hyr. lia.
    * constructor; [discriminate|exact N].
  + split; [f_equal; exact C|]. split; [constructor; [split; [lia|exact Cg]|exact Cgs]|]. split.
    * split; [|exact S2]. intros a b [<-|Ha] Hb; [|apply S1; auto].
      specialize (S1 y b (or_introl eq_refl) Hb). lia.
    * constructor; [discriminate|exact Ngs].
Qed.

(* the pairs carry the energies of their indices *)
Lemma index_from_nth i es e j : In (e, j) (index_from i es) ->
  (i <= j)%nat /\ nth_error es (j - i) = Some e.
Proof.
revert i; induction es as [|e0 r IH]; simpl; intros i; [intros []|].
intros [[= <- <-]|H].
- split; auto. replace (i - i)%nat with 0%nat by lia. reflexivity.
- destruct (IH _ H) as [Hle Hn]. split; [lia|].
  replace (j - i)%nat with (S (j - S i)) by lia. exact Hn.
Qed.

Lemma index_from_snd i es : map snd (index_from i es) = seq i (length es).
Proof. revert i; induction es; simpl; intros; auto. f_equal; auto. Qed.

(* Connected components, stated with the reflexive-symmetric-transitive closure *)
Definition close (atol : Z) (a b : item) : Prop := Z.abs (fst a - fst b) <= atol.

Definition same_group (gs : list (list item)) (a b : item) : Prop :=
  exists g, In g gs /\ In a g /\ In b g.

Lemma rst_mono {A} (R1 R2 : relation A) :
  (forall x y, R1 x y -> R2 x y) ->
  forall x y, clos_refl_sym_trans _ R1 x y -> clos_refl_sym_trans _ R2 x y.
Proof.
intros M x y H. induction H.
- apply rst_step; auto.
- apply rst_refl.
- apply rst_sym; auto.
- eapply rst_trans; eauto.
Qed.

(* adding a vertex x with an edge to y in t keeps everything connected *)
Lemma rst_cons {A} (R : relation A) x y t :
  In y t -> R x y ->
  (forall a b, In a t -> In b t ->
     clos_refl_sym_trans _ (fun u v => In u t /\ In v t /\ R u v) a b) ->
  forall a b, In a (x :: t) -> In b (x :: t) ->
    clos_refl_sym_trans _ (fun u v => In u (x :: t) /\ In v (x :: t) /\ R u v) a b.
Proof.
intros Hy Hxy Ht.
assert (lift : forall a b, In a t -> In b t ->
   clos_refl_sym_trans _ (fun u v => In u (x :: t) /\ In v (x :: t) /\ R u v) a b).
{ intros a b Ha Hb. eapply rst_mono; [|apply (Ht a b Ha Hb)].
  intros u v (?&?&?). repeat split; simpl; auto. }
assert (step : forall b, In b t ->
   clos_refl_sym_trans _ (fun u v => In u (x :: t) /\ In v (x :: t) /\ R u v) x b).
{ intros b Hb. apply rst_trans with y; [|apply lift; auto].
  apply rst_step. repeat split; simpl; auto. }
intros a b [<-|Ha] [<-|Hb].
- apply rst_refl.
- apply step; auto.
- apply rst_sym, step; auto.
- apply lift; auto.
Qed.

(* comparison of two groupings as sets of sets (used by the correspondence harness) *)
Fixpoint ninsert (x : nat) (l : list nat) : list nat :=
  match l with [] => [x] | y :: r => if (x <=? y)%nat then x :: y :: r else y :: ninsert x r end.
Definition nsort (l : list nat) : list nat := fold_right ninsert [] l.
Definition head_of (l : list nat) : nat := match l with [] => O | x :: _ => x end.
Fixpoint ginsert (g : list nat) (l : list (list nat)) : list (list nat) :=
  match l with
  | [] => [g]
  | h :: r => if (head_of g <=? head_of h)%nat then g :: h :: r else h :: ginsert g r
  end.
Definition canon_groups (gs : list (list nat)) : list (list nat) :=
  fold_right ginsert [] (map nsort gs).
Fixpoint nlist_eqb (a b : list nat) : bool :=
  match a, b with
  | [], [] => true
  | x :: a', y :: b' => (x =? y)%nat && nlist_eqb a' b'
  | _, _ => false
  end.
Fixpoint groups_eqb_aux (a b : list (list nat)) : bool :=
  match a, b with
  | [], [] => true
  | x :: a', y :: b' => nlist_eqb x y && groups_eqb_aux a' b'
  | _, _ => false
  end.
Definition groups_eqb (a b : list (list nat)) : bool :=
  groups_eqb_aux (canon_groups a) (canon_groups b).

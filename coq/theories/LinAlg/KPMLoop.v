(* Model of the while loop of pymablock.kpm.greens_function:

     residue = inf; num_moments = 10
     while residue > atol:
         if num_moments > max_moments: warn(RuntimeWarning); break
         sol = <KPM expansion with num_moments moments>
         residue = norm((H @ sol - energy * sol) + vector)
         num_moments *= 4
     return sol                      # UnboundLocalError if the body never ran

   The numerical content (Chebyshev expansion, Jackson kernel, norm) is an abstract
   oracle `res : Z -> T` giving the residual obtained with a number of moments; the
   solution returned is identified with the number of moments that produced it. *)
From Coq Require Import ZArith Lia.
Local Open Scope Z_scope.
Local Arguments Z.mul : simpl never.

Section Loop.
Variable T : Type.                 (* residual values (floats) *)
Variable gtb : T -> T -> bool.     (* residue > atol *)
Variable res : Z -> T.             (* residual of the expansion with that many moments *)
Variable atol : T.
Variable max_moments : Z.

Inductive result :=
| Return (moments : Z) (residue : T) (warned : bool) (iterations : nat)
| RaiseUnboundLocalError (warned : bool)
| OutOfFuel.

(* last = None encodes residue = inf with sol unbound *)
Definition finish (last : option (Z * T)) (warned : bool) (iters : nat) : result :=
  match last with
  | None => RaiseUnboundLocalError warned
  | Some (m, r) => Return m r warned iters
  end.

Fixpoint loop (fuel : nat) (nm : Z) (last : option (Z * T)) (iters : nat) : result :=
  match fuel with
  | O => OutOfFuel
  | S f =>
      if (match last with None => true | Some (_, r) => gtb r atol end) then
        if max_moments <? nm then finish last true iters
        else loop f (4 * nm) (Some (nm, res nm)) (S iters)
      else finish last false iters
  end.

Definition greens_function_loop (fuel : nat) : result := loop fuel 10 None O.

(* loop invariant: whatever is recorded in `last` was produced by the oracle *)
Lemma loop_contract fuel nm last iters m r w it :
  (forall m0 r0, last = Some (m0, r0) -> r0 = res m0) ->
  loop fuel nm last iters = Return m r w it ->
  r = res m /\ (gtb r atol = false \/ w = true).
Proof.
revert nm last iters; induction fuel as [|f IH]; intros nm last iters Hl; simpl; [discriminate|].
destruct last as [[m0 r0]|].
- destruct (gtb r0 atol) eqn:G.
  + destruct (max_moments <? nm).
    * simpl. intros [= <- <- <- <-]. split; auto.
    * apply IH. intros ? ? [= <- <-]. reflexivity.
  + simpl. intros [= <- <- <- <-]. split; auto.
- destruct (max_moments <? nm).
  + simpl. discriminate.
  + apply IH. intros ? ? [= <- <-]. reflexivity.
Qed.

(* once the body has run, `sol` is bound on every exit *)
Lemma loop_bound fuel nm last iters w :
  last <> None -> loop fuel nm last iters <> RaiseUnboundLocalError w.
Proof.
revert nm last iters; induction fuel as [|f IH]; intros nm last iters Hl; simpl; [discriminate|].
destruct last as [[m0 r0]|]; [|congruence].
destruct (gtb r0 atol); [destruct (max_moments <? nm)|]; simpl; try discriminate.
apply IH. discriminate.
Qed.

(* termination: the number of moments grows at every iteration, so more than
   max_moments + 1 - nm units of fuel are always enough *)
Lemma loop_terminates fuel nm last iters :
  0 < nm -> (Z.to_nat (max_moments + 1 - nm) < fuel)%nat ->
  loop fuel nm last iters <> OutOfFuel.
Proof.
revert nm last iters; induction fuel as [|f IH]; intros nm last iters Hp Hf; [lia|].
simpl.
assert (F : forall l w i, finish l w i <> OutOfFuel) by (intros [[? ?]|] ? ?; discriminate).
destruct (match last with None => true | Some (_, r) => gtb r atol end); [|apply F].
destruct (Z.ltb_spec max_moments nm); [apply F|].
apply IH; lia.
Qed.

(* the number of iterations is determined by the residuals: iteration j (from 0) uses
   10 * 4^j moments *)
Lemma loop_moments fuel nm last iters m r w it :
  (forall m0 r0, last = Some (m0, r0) -> 4 * m0 = nm) ->
  loop fuel nm last iters = Return m r w it -> 4 * m = nm * 4 ^ Z.of_nat (it - iters) /\ (iters <= it)%nat.
Proof.
revert nm last iters; induction fuel as [|f IH]; intros nm last iters Hl; simpl; [discriminate|].
assert (Fin : finish last true iters = Return m r w it \/ finish last false iters = Return m r w it ->
              4 * m = nm * 4 ^ Z.of_nat (it - iters) /\ (iters <= it)%nat).
{ destruct last as [[m0 r0]|]; simpl; [|intros [|]; discriminate].
  intros [[= <- <- <- <-]|[= <- <- <- <-]]; rewrite Nat.sub_diag; simpl;
    rewrite (Hl _ _ eq_refl); split; auto; lia. }
destruct (match last with None => true | Some (_, r0) => gtb r0 atol end); [|auto].
destruct (max_moments <? nm); [auto|].
intros H. apply IH in H; [|intros ? ? [= <- <-]; reflexivity].
destruct H as [H1 H2]. split; [|lia].
replace (it - iters)%nat with (S (it - S iters)) by lia.
rewrite Nat2Z.inj_succ, Z.pow_succ_r by lia. lia.
Qed.

End Loop.

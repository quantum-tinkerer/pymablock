(* Instance of the executable projector model and of the object graph at Gaussian
   integers (pairs of Z): this is what the correspondence harness k_projector.py
   evaluates with vm_compute and compares with /repo. *)
From Coq Require Import ZArith.
From mathcomp Require Import ssreflect ssrfun ssrbool eqtype ssrnat seq.
From PV Require Import LinAlg.Heap LinAlg.ProjectorExec LinAlg.Projector.
Set Implicit Arguments. Unset Strict Implicit. Unset Printing Implicit Defensive.

Lemma Z_eqP : Equality.axiom Z.eqb.
Proof. by move=> x y; apply: (iffP idP) => /Z.eqb_eq. Qed.
Canonical Z_eqMixin := EqMixin Z_eqP.
Canonical Z_eqType := Eval hnf in EqType Z Z_eqMixin.

Definition GZ := (Z * Z)%type.
Definition g0 : GZ := (0%Z, 0%Z).
Definition g1 : GZ := (1%Z, 0%Z).
Definition gadd (x y : GZ) : GZ := ((x.1 + y.1)%Z, (x.2 + y.2)%Z).
Definition gsub (x y : GZ) : GZ := ((x.1 - y.1)%Z, (x.2 - y.2)%Z).
Definition gmul (x y : GZ) : GZ :=
  ((x.1 * y.1 - x.2 * y.2)%Z, (x.1 * y.2 + x.2 * y.1)%Z).
Definition gconj (x : GZ) : GZ := (x.1, (- x.2)%Z).

Definition zmat := seq (seq GZ).
Definition zV := [eqType of seq (seq (Z * Z))].

Definition zmul := lmul g0 gadd gmul.
Definition zctr := lctr g0 gconj.
Definition ztr := @ltr GZ g0.
Definition zconj : zmat -> zmat := lconj gconj.
Definition zapply := lapply g0 gadd gsub gmul gconj.
Definition zapply_left := lapply_left g0 gadd gsub gmul gconj.
Definition zden := lden g0 g1 gadd gsub gmul gconj.

Definition zheap := heap zV.
Definition zempty : zheap := empty ([::] : zV).
Definition znew (R : zmat) (L : option zmat) : zheap * nat := alloc zempty (R : zV) L.
Definition zrun (R : zmat) (L : option zmat) (w : seq op) : zheap * nat :=
  let r := znew R L in run (zconj : zV -> zV) r.1 r.2 w.
Definition ztrace (R : zmat) (L : option zmat) (w : seq op) : seq nat :=
  let r := znew R L in trace (zconj : zV -> zV) r.1 r.2 w.
(* canonical identity pattern: every visited object is replaced by the position of
   its first visit (Python side: the same with `is`) *)
Definition canon (s : seq nat) : seq nat := [seq index x s | x <- s].

(* the object reached by a word, applied from the left to x (n x m) *)
Definition zword_apply (n k m : nat) (R : zmat) (L : option zmat) (w : seq op) (x : zmat) : zmat :=
  let r := zrun R L w in
  let o := cell r.1 r.2 in zapply n k m (vecs o) (left_vecs o) x.
Definition zword_apply_left (n k m : nat) (R : zmat) (L : option zmat) (w : seq op) (x : zmat) : zmat :=
  let r := zrun R L w in
  let o := cell r.1 r.2 in zapply_left n k m (vecs o) (left_vecs o) x.
Definition zword_herm (R : zmat) (L : option zmat) (w : seq op) : bool :=
  let r := zrun R L w in herm (cell r.1 r.2).

(* The LinearOperator contract in list form.  It mirrors Projector.linop by reading; no
   lemma relates zop_*, ztr, zconj to Projector.linop (only lapply, lapply_left and lden
   are refined, in ProjectorRefine.v). *)
Record zop := ZOp { zmatmat : nat -> zmat -> zmat; zrmatmat : nat -> zmat -> zmat }.
(* all operators are n x n here; the nat argument is the number of columns of X *)
Definition zop_projector (n k : nat) (R L : zmat) : zop :=
  ZOp (fun p X => zapply n k p R L X) (fun p X => zapply_left n k p R L X).
Definition zop_dense (n : nat) (A : zmat) : zop :=
  ZOp (fun p X => zmul n n p A X) (fun p X => zmul n n p (zctr n n A) X).
Definition zop_prod (a b : zop) : zop :=
  ZOp (fun p X => zmatmat a p (zmatmat b p X)) (fun p X => zrmatmat b p (zrmatmat a p X)).
Definition zop_adj (a : zop) : zop := ZOp (zrmatmat a) (zmatmat a).
Definition zop_tr (a : zop) : zop :=
  ZOp (fun p X => zconj (zrmatmat a p (zconj X))) (fun p X => zconj (zmatmat a p (zconj X))).
(* x : p x n *)
Definition zrdot (n : nat) (aT : zop) (p : nat) (x : zmat) : zmat :=
  ztr n p (zmatmat aT p (ztr p n x)).

Definition zPAP (n k : nat) (R L A : zmat) : zop :=
  zop_prod (zop_prod (zop_projector n k R L) (zop_dense n A)) (zop_projector n k R L).
(* (P A P).H as SciPy builds it: P.H @ (A.H @ P.H), with P.H the adjoint object *)
Definition zPAP_H (n k : nat) (R L A : zmat) : zop :=
  zop_prod (zop_projector n k L R)
           (zop_prod (zop_dense n (zctr n n A)) (zop_projector n k L R)).

Definition dtype_eqb (a b : dtype) : bool :=
  match a, b with DReal, DReal | DComplex, DComplex => true | _, _ => false end.

Definition zeq (A B : zmat) : bool := (A : zV) == (B : zV).
Definition nats_eqb (a b : seq nat) : bool := a == b.
Definition bool_eqb (a b : bool) : bool := a == b.

(* Operands scaled by a power of two (left vectors L = L' / s with L' integer).  For data
   (R, L'/s) the operator s * (1 - R (L'/s)^H) acts as  v |-> (s-1) v + (v - R (L'^H v)),
   i.e. (s-1) v + apply (R, L') v  (Projector.apply_scaled).  The harness uses the same form
   for every transform of the object, since exactly one of the two stored arrays carries
   the factor 1/s; that step is an argument on paper, not a lemma. *)
Definition gscale (c : Z) (x : GZ) : GZ := ((c * x.1)%Z, (c * x.2)%Z).
Definition zaxpy (c : Z) (X Y : zmat) : zmat :=
  [seq [seq gadd (gscale c p.1) p.2 | p <- zip r.1 r.2] | r <- zip X Y].
Definition zop_projector_scaled (s : Z) (n k : nat) (R L : zmat) : zop :=
  ZOp (fun p X => zaxpy (s - 1) X (zapply n k p R L X))
      (fun p X => zaxpy (s - 1) X (zapply_left n k p R L X)).
(* s^2 * (P A P) and s^2 * (P A P)^H built as SciPy builds them *)
Definition zPAPs (s : Z) (n k : nat) (R L A : zmat) : zop :=
  zop_prod (zop_prod (zop_projector_scaled s n k R L) (zop_dense n A)) (zop_projector_scaled s n k R L).
Definition zPAPs_H (s : Z) (n k : nat) (R L A : zmat) : zop :=
  zop_prod (zop_projector_scaled s n k L R)
           (zop_prod (zop_dense n (zctr n n A)) (zop_projector_scaled s n k L R)).

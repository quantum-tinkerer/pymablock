(* Object-graph model of the caching links of pymablock.linalg.ComplementProjector
   (/repo/pymablock/linalg.py, class ComplementProjector: __init__, _adjoint, conjugate,
   _transpose).  Generic in the type V of arrays, so that the same code is run on
   lists of Gaussian integers (correspondence harness) and on MathComp matrices
   (theorems).  Objects live in a heap; addresses are natural numbers; Python's `is`
   is equality of addresses. *)
From mathcomp Require Import ssreflect ssrfun ssrbool eqtype ssrnat seq.
Set Implicit Arguments. Unset Strict Implicit. Unset Printing Implicit Defensive.

(* the three cached links: _adjoint_operator, _conjugate_operator, _transpose_operator *)
Inductive fld := FH | FC | FT.
Definition fld_eqb (f g : fld) :=
  match f, g with FH, FH | FC, FC | FT, FT => true | _, _ => false end.
Lemma fld_eqP : Equality.axiom fld_eqb.
Proof. by do 2!case; constructor. Qed.
Canonical fld_eqMixin := EqMixin fld_eqP.
Canonical fld_eqType := Eval hnf in EqType fld fld_eqMixin.

(* operations of the public interface: .T, .H, .conjugate() *)
Inductive op := OpT | OpH | OpC.

Section Heap.
Variable V : eqType.
Variable vconj : V -> V.

Record obj := Obj { vecs : V; left_vecs : V; herm : bool; lnk : fld -> option nat }.
Record heap := Heap { next : nat; cell : nat -> obj }.

Definition with_lnk (o : obj) (f : fld) (b : option nat) : obj :=
  Obj (vecs o) (left_vecs o) (herm o) (fun g => if g == f then b else lnk o g).

Definition upd (h : heap) (a : nat) (o : obj) : heap :=
  Heap (next h) (fun x => if x == a then o else cell h x).

Definition setl (h : heap) (a : nat) (f : fld) (b : nat) : heap :=
  upd h a (with_lnk (cell h a) f (Some b)).

(* __init__(self, vecs, left_vecs=None):
     self._hermitian = left_vecs is None or left_vecs is vecs or array_equal(left_vecs, vecs)
     self._left_vecs = vecs if self._hermitian else left_vecs
     self._adjoint_operator = self if self._hermitian else None; the other two None *)
Definition init_obj (self : nat) (vs : V) (ls : option V) : obj :=
  let hm := if ls is Some l then l == vs else true in
  Obj vs (if hm then vs else odflt vs ls) hm
      (fun g => if (g == FH) && hm then Some self else None).

Definition alloc (h : heap) (vs : V) (ls : option V) : heap * nat :=
  (Heap (next h).+1
        (fun x => if x == next h then init_obj (next h) vs ls else cell h x),
   next h).

Arguments setl : simpl never.
Arguments alloc : simpl never.

Definition empty (v0 : V) : heap :=
  Heap 0 (fun _ => Obj v0 v0 true (fun _ => None)).

(* _adjoint *)
Definition adjoint (h : heap) (a : nat) : heap * nat :=
  match lnk (cell h a) FH with
  | Some b => (h, b)
  | None =>
      let o := cell h a in
      let r := alloc h (left_vecs o) (Some (vecs o)) in
      (setl (setl r.1 a FH r.2) r.2 FH a, r.2)
  end.

(* conjugate *)
Definition conjugate (h : heap) (a : nat) : heap * nat :=
  match lnk (cell h a) FC with
  | Some b => (h, b)
  | None =>
      let o := cell h a in
      let vs := vconj (vecs o) in
      let ls := if herm o then vs else vconj (left_vecs o) in
      let r := alloc h vs (Some ls) in
      let h3 := setl (setl r.1 a FC r.2) r.2 FC a in
      ((if herm o then setl (setl h3 a FT r.2) r.2 FT a else h3), r.2)
  end.

(* _transpose *)
Definition transpose (h : heap) (a : nat) : heap * nat :=
  match lnk (cell h a) FT with
  | Some b => (h, b)
  | None =>
      let r :=
        if herm (cell h a) then conjugate h a
        else let c := conjugate h a in adjoint c.1 c.2 in
      (setl (setl r.1 a FT r.2) r.2 FT a, r.2)
  end.

Definition run_op (h : heap) (a : nat) (o : op) : heap * nat :=
  match o with OpT => transpose h a | OpH => adjoint h a | OpC => conjugate h a end.

Fixpoint run (h : heap) (a : nat) (w : seq op) : heap * nat :=
  match w with
  | [::] => (h, a)
  | o :: w' => let r := run_op h a o in run r.1 r.2 w'
  end.

(* run recording every visited address (for the identity comparison of the harness) *)
Fixpoint trace (h : heap) (a : nat) (w : seq op) : seq nat :=
  match w with
  | [::] => [:: a]
  | o :: w' => let r := run_op h a o in a :: trace r.1 r.2 w'
  end.

(* the stored data and what the three transforms do to it *)
Definition dat (o : obj) : V * V := (vecs o, left_vecs o).

Definition gact (f : fld) (d : V * V) : V * V :=
  match f with
  | FH => (d.2, d.1)
  | FC => (vconj d.1, vconj d.2)
  | FT => (vconj d.2, vconj d.1)
  end.

Definition fld_of (o : op) : fld := match o with OpT => FT | OpH => FH | OpC => FC end.

Definition act (d : V * V) (o : op) : V * V := gact (fld_of o) d.

Hypothesis vconjK : involutive vconj.

Lemma gactK f : involutive (gact f).
Proof. by case: f => -[x y]; rewrite /gact /= ?vconjK. Qed.

(* the transforms keep "left_vecs == vecs", hence the Hermitian flag *)
Lemma gact_herm f d : ((gact f d).2 == (gact f d).1) = (d.2 == d.1).
Proof. by case: f; rewrite /= ?(inj_eq (inv_inj vconjK)) // eq_sym. Qed.

Definition wf (h : heap) : Prop :=
  forall a, a < next h ->
    let o := cell h a in
    [/\ herm o = (left_vecs o == vecs o),
        (* adjoint and conjugate links are symmetric and denote the transform *)
        forall f b, f != FT -> lnk o f = Some b ->
           [/\ b < next h, dat (cell h b) = gact f (dat o) & lnk (cell h b) f = Some a],
        (* transpose links denote the transform (they are NOT symmetric in general) *)
        forall b, lnk o FT = Some b -> b < next h /\ dat (cell h b) = gact FT (dat o) &
        herm o -> lnk o FH = Some a /\ lnk o FT = lnk o FC].

Lemma wf_empty v0 : wf (empty v0).
Proof. by move=> a; rewrite ltn0. Qed.

Lemma wf_herm h a : wf h -> a < next h ->
  herm (cell h a) = ((dat (cell h a)).2 == (dat (cell h a)).1).
Proof. by move=> W /W[]. Qed.

Lemma wf_herm_eq h a : wf h -> a < next h ->
  herm (cell h a) -> left_vecs (cell h a) = vecs (cell h a).
Proof. by move=> W lt_a; rewrite wf_herm // => /eqP. Qed.

Lemma wf_sym h a f b : wf h -> a < next h -> f != FT -> lnk (cell h a) f = Some b ->
  [/\ b < next h, dat (cell h b) = gact f (dat (cell h a)) & lnk (cell h b) f = Some a].
Proof. by move=> W /W[_ H2 _ _]; apply: H2. Qed.

Lemma wf_self h a : wf h -> a < next h -> herm (cell h a) ->
  lnk (cell h a) FH = Some a /\ lnk (cell h a) FT = lnk (cell h a) FC.
Proof. by move=> W /W[]. Qed.

Lemma wf_lnk h a f b : wf h -> a < next h -> lnk (cell h a) f = Some b ->
  b < next h /\ dat (cell h b) = gact f (dat (cell h a)).
Proof.
move=> W lt_a; case: f => E; last by case: (W a lt_a) => _ _ H3 _; apply: H3.
- by case: (wf_sym (f := FH) W lt_a isT E).
- by case: (wf_sym (f := FC) W lt_a isT E).
Qed.

Lemma init_hermE self vs ls : herm (init_obj self vs ls) = (odflt vs ls == vs).
Proof. by case: ls => //=; rewrite eqxx. Qed.

Lemma init_left self vs ls : left_vecs (init_obj self vs ls) = odflt vs ls.
Proof. by case: ls => //= l; case: eqP => [->|]. Qed.

Lemma init_dat self vs ls : dat (init_obj self vs ls) = (vs, odflt vs ls).
Proof. by rewrite /dat init_left. Qed.

Lemma init_lnk self vs ls g :
  lnk (init_obj self vs ls) g = if (g == FH) && (odflt vs ls == vs) then Some self else None.
Proof. by case: ls => //=; rewrite eqxx. Qed.

Lemma alloc_fresh h vs ls :
  [/\ (alloc h vs ls).2 = next h, next (alloc h vs ls).1 = (next h).+1,
      cell (alloc h vs ls).1 (next h) = init_obj (next h) vs ls
    & forall x, x != next h -> cell (alloc h vs ls).1 x = cell h x].
Proof. by rewrite /alloc /= eqxx; split=> // x /negbTE->. Qed.

Lemma wf_alloc h vs ls : wf h -> wf (alloc h vs ls).1.
Proof.
move=> W a; case: (alloc_fresh h vs ls) => _ -> cN cO.
rewrite ltnS leq_eqVlt; case/orP=> [/eqP->|lt_a].
  rewrite cN; split; rewrite ?init_hermE ?init_left ?init_dat //.
  - move=> f b nT; rewrite init_lnk; case: ifP => // /andP[/eqP-> /eqP hm] [<-].
    by rewrite cN init_lnk init_dat hm !eqxx.
  - by move=> hm; rewrite !init_lnk hm.
have ne : a != next h by rewrite neq_ltn lt_a.
rewrite (cO _ ne); case: (W a lt_a) => H1 H2 H3 H4; split=> //.
- move=> f b nT E; case: (H2 f b nT E) => lt_b D S.
  have neb : b != next h by rewrite neq_ltn lt_b.
  by rewrite (cO _ neb); split=> //; apply: ltnW.
- move=> b E; case: (H3 b E) => lt_b D.
  have neb : b != next h by rewrite neq_ltn lt_b.
  by rewrite (cO _ neb); split=> //; apply: ltnW.
Qed.

(* Setting pairs of mutually inverse links (all fields in fs) between a and b. *)
Lemma wf_link h h' a b (fs : pred fld) :
  wf h -> a < next h -> b < next h ->
  (forall g, fs g -> dat (cell h b) = gact g (dat (cell h a))) ->
  (* no third object is left with a dangling symmetric link *)
  (forall g, fs g -> g != FT ->
      (lnk (cell h a) g = None \/ lnk (cell h a) g = Some b) /\
      (lnk (cell h b) g = None \/ lnk (cell h b) g = Some a)) ->
  (* hermitian objects keep FH = self and FT = FC *)
  (herm (cell h a) -> [/\ ~~ fs FH, fs FT & fs FC \/ lnk (cell h a) FC = Some b]) ->
  (herm (cell h b) -> [/\ ~~ fs FH, fs FT & fs FC \/ lnk (cell h b) FC = Some a]) ->
  next h' = next h ->
  (forall y, vecs (cell h' y) = vecs (cell h y)) ->
  (forall y, left_vecs (cell h' y) = left_vecs (cell h y)) ->
  (forall y, herm (cell h' y) = herm (cell h y)) ->
  (forall y g, lnk (cell h' y) g =
     if fs g then (if y == b then Some a else if y == a then Some b else lnk (cell h y) g)
     else lnk (cell h y) g) ->
  wf h'.
Proof.
move=> W lt_a lt_b D Hsym Ha Hb nextE vE lE hermE lnkE x; rewrite nextE => lt_x.
have D' g : fs g -> dat (cell h a) = gact g (dat (cell h b)) by move/D->; rewrite gactK.
have datE y : dat (cell h' y) = dat (cell h y) by rewrite /dat vE lE.
case: (W x lt_x) => H1 H2 H3 H4; split.
- by rewrite hermE vE lE.
- move=> g y nT; rewrite lnkE !datE.
  case fg: (fs g); last first.
    by move=> E; case: (H2 g y nT E) => lt_y Dy Sy; split; rewrite ?datE // lnkE fg.
  case: (Hsym g fg nT) => Sa Sb.
  case: (x =P b) => [->|ne_xb].
    case=> <-; split=> //; rewrite ?(D' g fg) // lnkE fg eqxx.
    by case: (a =P b) => [->|_] //; rewrite eqxx.
  case: (x =P a) => [->|ne_xa].
    by case=> <-; split; rewrite ?(D g fg) // lnkE fg !eqxx.
  move=> E; case: (H2 g y nT E) => lt_y Dy Sy; split; rewrite ?datE //.
  rewrite lnkE fg.
  case: (y =P b) => [ey|_].
    by move: Sy; rewrite ey; case: Sb => ->// [ex]; case: ne_xa.
  case: (y =P a) => [ey|_] //.
  by move: Sy; rewrite ey; case: Sa => ->// [ex]; case: ne_xb.
- move=> y; rewrite lnkE !datE.
  case fg: (fs FT); last by apply: H3.
  case: (x =P b) => [->|ne_xb]; first by case=> <-; rewrite (D' FT fg).
  case: (x =P a) => [->|ne_xa]; first by case=> <-; rewrite (D FT fg).
  exact: H3.
- rewrite hermE !lnkE => hx; case: (H4 hx) => S1 S2.
  case: (x =P b) => [ex|ne_xb].
    move: hx S1; rewrite ex => /Hb [/negbTE-> -> C] ->; split=> //.
    by case: ifP C => // _ [].
  case: (x =P a) => [ex|ne_xa].
    move: hx S1; rewrite ex => /Ha [/negbTE-> -> C] ->; split=> //.
    by case: ifP C => // _ [].
  by rewrite S1 S2; do 3!case: ifP => _ //.
Qed.

Lemma setl_next h a f b : next (setl h a f b) = next h. Proof. by []. Qed.
Lemma setl_vecs h a f b y : vecs (cell (setl h a f b) y) = vecs (cell h y).
Proof. by rewrite /setl /upd /=; case: (y =P a) => [->|]. Qed.
Lemma setl_left h a f b y : left_vecs (cell (setl h a f b) y) = left_vecs (cell h y).
Proof. by rewrite /setl /upd /=; case: (y =P a) => [->|]. Qed.
Lemma setl_herm h a f b y : herm (cell (setl h a f b) y) = herm (cell h y).
Proof. by rewrite /setl /upd /=; case: (y =P a) => [->|]. Qed.
Lemma setl_dat h a f b y : dat (cell (setl h a f b) y) = dat (cell h y).
Proof. by rewrite /dat setl_vecs setl_left. Qed.
Lemma setl_lnk h a f b y g :
  lnk (cell (setl h a f b) y) g = if (y == a) && (g == f) then Some b else lnk (cell h y) g.
Proof. by rewrite /setl /upd /=; case: (y =P a) => [->|] //=; case: (g == f). Qed.

Definition setlE := (setl_next, setl_vecs, setl_left, setl_herm, setl_dat, setl_lnk).

(* the Hermitian branch of conjugate sets the conjugate and the transpose links at once *)
Lemma wf_link4 h a b :
  wf h -> a < next h -> b < next h ->
  dat (cell h b) = gact FC (dat (cell h a)) ->
  herm (cell h a) ->
  lnk (cell h a) FC = None -> lnk (cell h b) FC = None ->
  wf (setl (setl (setl (setl h a FC b) b FC a) a FT b) b FT a).
Proof.
move=> W lt_a lt_b D ha Ca Cb.
have eqa := wf_herm_eq W lt_a ha.
apply: (@wf_link h _ a b (predU (pred1 FC) (pred1 FT)) W lt_a lt_b).
- by case=> // _; rewrite D /gact /= eqa.
- by case=> // _ _; rewrite Ca Cb; split; left.
- by move=> _; split=> //; left.
- by move=> _; split=> //; left.
- by [].
- by move=> y; rewrite !setlE.
- by move=> y; rewrite !setlE.
- by move=> y; rewrite !setlE.
move=> y g; rewrite !setlE /=.
case: g; rewrite /= ?andbF ?andbT //.
Qed.

(* h' extends h (old objects keep their data and flag) and its object b holds the data d *)
Definition reach (h h' : heap) (b : nat) (d : V * V) : Prop :=
  [/\ wf h', b < next h', next h <= next h',
      forall x, x < next h ->
        dat (cell h' x) = dat (cell h x) /\ herm (cell h' x) = herm (cell h x) &
      dat (cell h' b) = d].

Lemma reach_trans h h1 b1 h2 b2 d1 d2 :
  reach h h1 b1 d1 -> reach h1 h2 b2 d2 -> reach h h2 b2 d2.
Proof.
move=> [_ _ le k _] [W' lt' le' k' D']; split=> //; first exact: leq_trans le le'.
by move=> x lt_x; have [-> ->] := k' x (leq_trans lt_x le); apply: k.
Qed.

Lemma reach_herm h h' b d : reach h h' b d -> herm (cell h' b) = (d.2 == d.1).
Proof. by move=> [W lt _ _ <-]; apply: wf_herm. Qed.

Lemma alloc_reach h d :
  wf h -> let r := alloc h d.1 (Some d.2) in reach h r.1 r.2 d.
Proof.
move=> W r; have [r2 nx cN cO] := alloc_fresh h d.1 (Some d.2); split.
- exact: wf_alloc.
- by rewrite r2 nx.
- by rewrite nx.
- by move=> x lt_x; rewrite cO // neq_ltn lt_x.
- by rewrite r2 cN init_dat -surjective_pairing.
Qed.

(* What one operation guarantees: it reaches the transformed data and caches the link.
   Lemmas conclude with the curried step_c, so that `split` and `rewrite` see h' and b
   instead of projections of a pair; step_ok is the same about the pair an operation
   returns. *)
Definition step_c (f : fld) (h : heap) (a : nat) (h' : heap) (b : nat) : Prop :=
  reach h h' b (gact f (dat (cell h a))) /\ lnk (cell h' a) f = Some b.
Definition step_ok f h a (r : heap * nat) : Prop := step_c f h a r.1 r.2.

Lemma cached_ok f h a b : wf h -> a < next h -> lnk (cell h a) f = Some b ->
  step_c f h a h b.
Proof. by move=> W lt_a E; have [lt_b D] := wf_lnk W lt_a E; split=> //; split. Qed.

(* linking the object reached with the one started from *)
Lemma link_ok f h a h' b : a < next h -> reach h h' b (gact f (dat (cell h a))) ->
  (f != FT -> (lnk (cell h' a) f = None \/ lnk (cell h' a) f = Some b) /\
              (lnk (cell h' b) f = None \/ lnk (cell h' b) f = Some a)) ->
  (herm (cell h a) -> f = FT /\ lnk (cell h' a) FC = Some b) ->
  (herm (cell h' b) -> f = FT /\ lnk (cell h' b) FC = Some a) ->
  step_c f h a (setl (setl h' a f b) b f a) b.
Proof.
move=> lt_a [W lt_b le keep D] Hsym Ha Hb; have [Da ha] := keep a lt_a.
split; last by rewrite !setlE !eqxx andbT /=; case: eqP => // ->.
split; rewrite ?setlE //; last by move=> x /keep; rewrite !setlE.
apply: (@wf_link h' _ a b (pred1 f) W (leq_trans lt_a le) lt_b).
- by move=> g /eqP->; rewrite Da.
- by move=> g /eqP->.
- by rewrite ha => /Ha[-> ->]; split=> //; right.
- by case/Hb=> -> ->; split=> //; right.
- by [].
- by move=> y; rewrite !setlE.
- by move=> y; rewrite !setlE.
- by move=> y; rewrite !setlE.
by move=> y g; rewrite !setlE /=; case: (g == f); rewrite ?andbF ?andbT.
Qed.

(* a fresh object for the adjoint or the conjugate of a non-Hermitian one *)
Lemma fresh_ok f h a : wf h -> a < next h ->
  lnk (cell h a) f = None -> herm (cell h a) = false ->
  let d := gact f (dat (cell h a)) in
  let r := alloc h d.1 (Some d.2) in
  step_c f h a (setl (setl r.1 a f r.2) r.2 f a) r.2.
Proof.
move=> W lt_a E nh d r; have R : reach h r.1 r.2 d := alloc_reach d W.
have [r2 _ cN cO] := alloc_fresh h d.1 (Some d.2).
have ne_a : a != next h by rewrite neq_ltn lt_a.
have hd : (d.2 == d.1) = false by rewrite gact_herm -wf_herm.
apply: link_ok => //.
- by move=> _; rewrite cO // E r2 cN init_lnk hd andbF; split; left.
- by rewrite nh.
- by rewrite (reach_herm R) hd.
Qed.

Lemma adjoint_ok h a : wf h -> a < next h -> step_ok FH h a (adjoint h a).
Proof.
move=> W lt_a; rewrite /adjoint; case E: (lnk _ FH) => [b|]; first exact: cached_ok.
apply: (@fresh_ok FH) => //.
by apply/negP=> /(wf_self W lt_a)[]; rewrite E.
Qed.

(* the same for a Hermitian object and its conjugate, which is Hermitian too and serves
   as the transpose as well *)
Lemma link4_ok h a h' b : a < next h -> reach h h' b (gact FC (dat (cell h a))) ->
  herm (cell h a) -> lnk (cell h' a) FC = None -> lnk (cell h' b) FC = None ->
  step_c FC h a (setl (setl (setl (setl h' a FC b) b FC a) a FT b) b FT a) b.
Proof.
move=> lt_a R ha Ca Cb; case: (R) => W lt_b le keep D; have [Da ha'] := keep a lt_a.
have lt_a' := leq_trans lt_a le.
split; last by rewrite !setlE !eqxx /=; case: eqP => // ->.
split; rewrite ?setlE //; last by move=> x /keep; rewrite !setlE.
by apply: wf_link4 => //; rewrite ?Da ?ha'.
Qed.

Lemma conjugate_ok h a : wf h -> a < next h -> step_ok FC h a (conjugate h a).
Proof.
move=> W lt_a; rewrite /conjugate; case E: (lnk _ FC) => [b|]; first exact: cached_ok.
case ho: (herm (cell h a)); last exact: (@fresh_ok FC).
set vs := vconj _; have [r2 _ cN cO] := alloc_fresh h vs (Some vs).
apply: link4_ok => //; last by rewrite r2 cN init_lnk.
  have <- : (vs, vs) = gact FC (dat (cell h a)) by rewrite /gact /= (wf_herm_eq W lt_a ho).
  exact: alloc_reach (vs, vs) W.
by rewrite cO // neq_ltn lt_a.
Qed.

Lemma transpose_ok h a : wf h -> a < next h -> step_ok FT h a (transpose h a).
Proof.
move=> W lt_a; rewrite /transpose; case E: (lnk _ FT) => [b|]; first exact: cached_ok.
have [Rc Lc] := conjugate_ok W lt_a; set c := conjugate h a in Rc Lc *.
case: (Rc) => Wc lt_c le_c _ _; have lt_ac := leq_trans lt_a le_c.
case ho: (herm (cell h a)).
  (* Hermitian: the transpose is the conjugate *)
  apply: link_ok => // [|_]; first by move: Rc; rewrite /gact /= (wf_herm_eq W lt_a ho).
  by have [] := wf_sym (f := FC) Wc lt_ac isT Lc.
(* general case: the adjoint of the conjugate *)
have [Rt _] := adjoint_ok Wc lt_c; set t := adjoint c.1 c.2 in Rt *.
have R : reach h t.1 t.2 (gact FT (dat (cell h a))).
  by apply: reach_trans (Rc) _; case: Rc Rt => _ _ _ _ ->.
apply: link_ok => //; first by rewrite ho.
by rewrite (reach_herm R) gact_herm -wf_herm // ho.
Qed.

(* the operation that follows, and caches, the link f: run_op indexed by the field
   instead of the method name (run_op h a o = opf (fld_of o) h a) *)
Definition opf (f : fld) : heap -> nat -> heap * nat :=
  match f with FH => adjoint | FC => conjugate | FT => transpose end.

Lemma opf_ok f h a : wf h -> a < next h -> step_ok f h a (opf f h a).
Proof. by case: f; [apply: adjoint_ok | apply: conjugate_ok | apply: transpose_ok]. Qed.

Lemma opf_cached f h a b : lnk (cell h a) f = Some b -> opf f h a = (h, b).
Proof. by case: f => E; rewrite /= /adjoint /conjugate /transpose E. Qed.

(* Main link theorem: any word of operations reaches an object holding the
   corresponding transform of the original data; old objects keep their data. *)
Theorem run_ok h a w : wf h -> a < next h ->
  let r := run h a w in reach h r.1 r.2 (foldl act (dat (cell h a)) w).
Proof.
elim: w h a => [|o w IH] h a W lt_a /=; first by split.
have -> : run_op h a o = opf (fld_of o) h a by case: o.
have [Rs _] := opf_ok (fld_of o) W lt_a; case: (Rs) => Ws lt_s _ _ Ds.
by apply: reach_trans Rs _; rewrite /act -Ds; apply: IH.
Qed.

(* An involution other than the transpose returns the original object *)
Theorem opf_twice f h a : f != FT -> wf h -> a < next h ->
  let r := opf f h a in opf f r.1 r.2 = (r.1, a).
Proof.
move=> nT W lt_a /=; have [[W' _ le _ _] L] := opf_ok f W lt_a.
by apply: opf_cached; have [] := wf_sym W' (leq_trans lt_a le) nT L.
Qed.

End Heap.

(* The executable list model (ProjectorExec.v), instantiated at a commutative ring
   with an involution, computes the MathComp model (Projector.v). *)
From mathcomp Require Import ssreflect ssrfun ssrbool eqtype ssrnat seq fintype bigop.
From mathcomp Require Import ssralg matrix.
From PV Require Import LinAlg.Projector LinAlg.ProjectorExec.
Set Implicit Arguments. Unset Strict Implicit. Unset Printing Implicit Defensive.
Import GRing.Theory.
Local Open Scope ring_scope.

Section Refine.
Variable R : comRingType.
Variable conj : {rmorphism R -> R}.

Notation lmat := (seq (seq R)).
Notation nthm := (@nthm R 0).
Notation lmul := (@lmul R 0 +%R *%R).
Notation lsub := (@lsub R 0 (fun x y => x - y)).
Notation lctr := (@lctr R 0 conj).
Notation lid := (@lid R 0 1).

Definition mxl n m (A : lmat) : 'M[R]_(n,m) := \matrix_(i, j) nthm A i j.

Lemma nthm_mkseq (f : nat -> nat -> R) n m i j : (i < n)%N -> (j < m)%N ->
  nthm (mkseq (fun i => mkseq (f i) m) n) i j = f i j.
Proof.
by move=> lt_i lt_j; rewrite /nthm (nth_mkseq _ _ lt_i) (nth_mkseq _ _ lt_j).
Qed.

Lemma dotnE m (f g : nat -> R) :
  dotn 0 +%R *%R m f g = \sum_(k < m) f k * g k.
Proof. by rewrite /dotn -(big_mkord xpredT (fun k => f k * g k)) unlock /= /index_iota subn0. Qed.

Lemma mxl_mul n m p A B : mxl n p (lmul n m p A B) = mxl n m A *m mxl m p B.
Proof.
apply/matrixP=> i j; rewrite !mxE nthm_mkseq // dotnE.
by apply: eq_bigr => k _; rewrite !mxE.
Qed.

Lemma mxl_sub n m A B : mxl n m (lsub n m A B) = mxl n m A - mxl n m B.
Proof. by apply/matrixP=> i j; rewrite !mxE nthm_mkseq. Qed.

Lemma mxl_ctr n m A : mxl m n (lctr n m A) = adjm conj (mxl n m A).
Proof. by apply/matrixP=> i j; rewrite !mxE nthm_mkseq. Qed.

Lemma mxl_id n : mxl n n (lid n) = 1%:M.
Proof.
apply/matrixP=> i j; rewrite !mxE nthm_mkseq //.
by rewrite -(inj_eq val_inj) /=; case: eqP.
Qed.

Lemma mxl_conj n m A : mxl n m (lconj conj A) = conjm conj (mxl n m A).
Proof.
apply/matrixP=> i j; rewrite !mxE /lconj /ProjectorExec.nthm.
have -> : nth [::] (map (map conj) A) i = map conj (nth [::] A i).
  by elim: A (i : nat) => [|r A IH] [|i'] //=; rewrite ?nth_nil.
move: (nth [::] A i) => s.
case: (ltnP j (size s)) => [lt|ge]; first by rewrite (nth_map 0).
by rewrite !nth_default ?size_map // rmorph0.
Qed.

End Refine.

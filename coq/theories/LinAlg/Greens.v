(* Model of pymablock.linalg.direct_greens_function (as repaired by commit e113059)
   and of its use in block_diagonalization.solve_sylvester_direct.

   A = E - H (n x n), Phi (n x k) a basis of the right kernel that is used,
   PhiLd = PhiL^H (k x n) the dual left kernel vectors, P = 1 - Phi PhiLd the kernel
   projector (ComplementProjector(kernel_vectors, left_kernel_vectors), see C17).
   _constrain_matrix drops the equations `pivot_rows` and adds the constraints
   x[pivot_cols] = 0:   Mt = D A + C,  D the 0/1 diagonal that zeroes the dropped rows,
   C = sum_t e_{rows t} e_{cols t}^T.
   greens_function(b):  b1 = P b; b1[pivot_rows] = 0 (= D P b); z = solve(Mt, b1);
   return P z.   The sparse LU / MUMPS solve is an oracle: any z with Mt z = D P b. *)
From mathcomp Require Import ssreflect ssrfun ssrbool eqtype ssrnat fintype bigop.
From mathcomp Require Import ssralg matrix.
Set Implicit Arguments. Unset Strict Implicit. Unset Printing Implicit Defensive.
Import GRing.Theory.
Local Open Scope ring_scope.

Section Abstract.
Variable (F : ringType) (n k : nat).
Variables (A D C : 'M[F]_n) (Phi : 'M[F]_(n,k)) (PhiLd : 'M[F]_(k,n)).
Hypothesis APhi : A *m Phi = 0.
Hypothesis PhiLA : PhiLd *m A = 0.
Hypothesis biorth : PhiLd *m Phi = 1%:M.
Hypothesis Didem : D *m D = D.
Hypothesis DC : D *m C = 0.
(* the dropped equations are recoverable from the left kernel:
   PhiL restricted to the dropped rows is invertible (see Section Pivots) *)
Hypothesis left_regular : forall r : 'cV[F]_n, D *m r = 0 -> PhiLd *m r = 0 -> r = 0.

Definition Pk : 'M[F]_n := 1%:M - Phi *m PhiLd.
Definition Mt : 'M[F]_n := D *m A + C.

Lemma PkPk : Pk *m Pk = Pk.
Proof.
by rewrite /Pk mulmxBr mulmx1 mulmxBl mul1mx mulmxA -[Phi *m PhiLd *m Phi]mulmxA
           biorth mulmx1 subrr subr0.
Qed.
Lemma PhiL_Pk : PhiLd *m Pk = 0.
Proof. by rewrite /Pk mulmxBr mulmx1 mulmxA biorth mul1mx subrr. Qed.
Lemma Pk_Phi : Pk *m Phi = 0.
Proof. by rewrite /Pk mulmxBl mul1mx -mulmxA biorth mulmx1 subrr. Qed.
Lemma A_Pk : A *m Pk = A.
Proof. by rewrite /Pk mulmxBr mulmx1 mulmxA APhi mul0mx subr0. Qed.
Lemma Pk_A : Pk *m A = A.
Proof. by rewrite /Pk mulmxBl mul1mx -mulmxA PhiLA mulmx0 subr0. Qed.

Lemma Pk_id m (X : 'M[F]_(n, m)) : PhiLd *m X = 0 -> Pk *m X = X.
Proof. by move=> LX; rewrite /Pk mulmxBl mul1mx -mulmxA LX mulmx0 subr0. Qed.

(* on the kept equations the constrained matrix is the original one *)
Lemma D_Mt : D *m Mt = D *m A.
Proof. by rewrite /Mt mulmxDr mulmxA Didem DC addr0. Qed.

(* any solution of the constrained system solves the original one *)
Lemma constrained_solves (b z : 'cV[F]_n) :
  Mt *m z = D *m (Pk *m b) -> A *m z = Pk *m b.
Proof.
move=> Hz; apply/subr0_eq/left_regular; rewrite mulmxBr.
  by rewrite mulmxA -D_Mt -mulmxA Hz mulmxA Didem subrr.
by rewrite !mulmxA PhiLA PhiL_Pk !mul0mx subrr.
Qed.

Theorem greens_solution (b z : 'cV[F]_n) :
  Mt *m z = D *m (Pk *m b) ->
  A *m (Pk *m z) = Pk *m b /\ Pk *m (Pk *m z) = Pk *m z.
Proof.
move=> Hz; split; last by rewrite mulmxA PkPk.
by rewrite mulmxA A_Pk; apply: constrained_solves.
Qed.

(* well-posedness of the constrained system: if the constrained variables fix the
   gauge (Phi restricted to pivot_cols invertible, see Section Pivots) and Phi spans the
   whole right kernel, Mt is injective, so the LU solve returns THE solution *)
Hypothesis col_regular : forall c : 'cV[F]_k, C *m (Phi *m c) = 0 -> c = 0.
Hypothesis kernel_spanned : forall z : 'cV[F]_n, A *m z = 0 -> exists c, z = Phi *m c.

Theorem Mt_injective (z : 'cV[F]_n) : Mt *m z = 0 -> z = 0.
Proof.
move=> Hz.
have HDA : D *m (A *m z) = 0 by rewrite mulmxA -D_Mt -mulmxA Hz mulmx0.
have HC : C *m z = 0.
  by move: Hz; rewrite /Mt mulmxDl -mulmxA HDA add0r.
have HA : A *m z = 0.
  by apply: left_regular => //; rewrite mulmxA PhiLA mul0mx.
case: (kernel_spanned HA) => c zc.
by rewrite zc (col_regular (c := c)) ?mulmx0 // -zc.
Qed.

End Abstract.

(* The concrete D and C built by _constrain_matrix from the pivots *)
Section Pivots.
Variable (F : fieldType) (n k : nat).
Variables (rows cols : 'I_k -> 'I_n).
Hypothesis rows_inj : injective rows.

Definition dropped (i : 'I_n) : bool := [exists t, rows t == i].
Definition Dm : 'M[F]_n := \matrix_(i, j) ((i == j) && ~~ dropped i)%:R.
Definition Cm : 'M[F]_n := \sum_t delta_mx (rows t) (cols t).

Lemma Dm_mul m (X : 'M[F]_(n,m)) i j :
  (Dm *m X) i j = if dropped i then 0 else X i j.
Proof.
rewrite !mxE (bigD1 i) //= big1 ?addr0 => [|l ne]; last first.
  by rewrite !mxE eq_sym (negbTE ne) mul0r.
by rewrite !mxE eqxx /=; case: (dropped i); rewrite ?mul0r ?mul1r.
Qed.

Lemma Dm_idem : Dm *m Dm = Dm.
Proof.
apply/matrixP=> i j; rewrite Dm_mul !mxE.
by case: (dropped i); rewrite ?andbF.
Qed.

Lemma Cm_mul m (X : 'M[F]_(n,m)) i j :
  (Cm *m X) i j = \sum_t (if rows t == i then X (cols t) j else 0).
Proof.
rewrite /Cm mulmx_suml summxE; apply: eq_bigr => t _.
rewrite !mxE (bigD1 (cols t)) //= big1 ?addr0 => [|l ne]; last first.
  by rewrite !mxE (negbTE ne) andbF mul0r.
by rewrite !mxE eqxx andbT eq_sym; case: eqP; rewrite ?mul0r ?mul1r.
Qed.

Lemma Dm_Cm : Dm *m Cm = 0.
Proof.
apply/matrixP=> i j; rewrite Dm_mul mxE.
case dr: (dropped i) => //.
rewrite /Cm summxE big1 // => t _; rewrite !mxE.
case: eqP => //= e; move/negbT: dr; rewrite negb_exists => /forallP /(_ t).
by rewrite e eqxx.
Qed.

(* PhiL restricted to the dropped rows invertible => left_regular *)
Lemma left_regular_of_minor (PhiLd : 'M[F]_(k,n)) :
  (\matrix_(s, t) PhiLd s (rows t)) \in unitmx ->
  forall r : 'cV[F]_n, Dm *m r = 0 -> PhiLd *m r = 0 -> r = 0.
Proof.
move=> U r Dr Lr.
have r0 i : ~~ dropped i -> r i ord0 = 0.
  by move=> nd; move/matrixP/(_ i ord0): Dr; rewrite Dm_mul (negbTE nd) mxE.
pose rr : 'cV[F]_k := \col_t r (rows t) ord0.
have E : (\matrix_(s, t) PhiLd s (rows t)) *m rr = 0.
  rewrite -Lr; apply/matrixP=> s j; rewrite !mxE.
  rewrite [in RHS](bigID dropped) /= [X in _ + X]big1 ?addr0; last first.
    by move=> i nd; rewrite [j]ord1 (r0 i nd) mulr0.
  rewrite (reindex_onto rows (fun i => odflt s [pick t | rows t == i])) /=.
    apply: eq_big => [t|t _]; last by rewrite !mxE [j]ord1.
    have -> : dropped (rows t) by apply/existsP; exists t.
    by case: pickP => [t' /eqP/rows_inj->|/(_ t)]; rewrite /= eqxx.
  move=> i /existsP[t /eqP<-].
  by case: pickP => [t' /eqP|/(_ t)] //=; rewrite eqxx.
have rr0 : rr = 0 by rewrite -[rr](mulKmx U) E mulmx0.
apply/matrixP=> i j; rewrite ord1 mxE.
case dr: (dropped i); last by apply: r0; rewrite dr.
case/existsP: dr => t /eqP<-.
by move/matrixP/(_ t ord0): rr0; rewrite !mxE.
Qed.

(* Phi restricted to pivot_cols invertible => col_regular *)
Lemma col_regular_of_minor (Phi : 'M[F]_(n,k)) :
  (\matrix_(t, s) Phi (cols t) s) \in unitmx ->
  forall c : 'cV[F]_k, Cm *m (Phi *m c) = 0 -> c = 0.
Proof.
move=> U c Cc.
have E : (\matrix_(t, s) Phi (cols t) s) *m c = 0.
  apply/matrixP=> t j; rewrite [RHS]mxE.
  move/matrixP/(_ (rows t) j): Cc; rewrite Cm_mul [in X in X -> _]mxE.
  rewrite (bigD1 t) //= eqxx big1 ?addr0 => [|t' ne]; last first.
    by rewrite (inj_eq rows_inj) (negbTE ne).
  by move<-; rewrite !mxE; apply: eq_bigr => s _; rewrite !mxE.
by rewrite -[c](mulKmx U) E mulmx0.
Qed.

End Pivots.

(** DSL/Stratified.v - the decidable stratification certificate of a program;
    the termination theorem that rests on it is in DSL/Terminate.v.

    (i)  [zero0 s] : the order-0 element of s is the SENTINEL zero for every block: start = 0,
         or no start datum and every line is a sum / difference / negation / division / flag
         choice of [zero] and zero0 names (calls are unknown); a product is zero0 if one factor
         is.  Least fixpoint by iteration.
    (ii) two dependency graphs on names.  G+ (orders <> 0): a series depends on every name
         it mentions; a product A @ B depends on A unless zero0 B and on B unless zero0 A
         (product_by_order looks first at the factor of order 0 and skips the term when it is
         the sentinel).  G0 (order 0): series whose order-0 elements are all start data
         (start = 0, start = "X_0") depend on nothing; a product depends on A, and on B unless
         zero0 A (equal costs: the first factor is looked at first).
    (iii) [stratified alg] : both graphs admit the rank function computed by
         [auto_rank] (longest path), i.e. are acyclic; and no name mentioned anywhere denotes
         a series with start = 1 (the sentinel [one] never enters an arithmetic operation). *)
From Coq Require Import String List ZArith Bool Arith.
From PV.DSL Require Import Syntax Compile.
From PV.Gen Require Import Algorithms_gen.
Import ListNotations.
Open Scope string_scope.
Open Scope list_scope.

Fixpoint zexpr (z : string -> bool) (e : expr) : bool :=
  match e with
  | Lit s | Adj s => z s
  | EZero => true
  | Neg a | DivInt a _ => zexpr z a
  | Add a b | Sub a b | IfFlag _ a b => zexpr z a && zexpr z b
  | Call _ _ => false
  end.

Definition zline (z : string -> bool) (l : line) : bool :=
  match l with
  | Marker _ => true
  | Line Default e => zexpr z e
  | Line _ _ => false
  end.

Definition zero0_step (alg : algorithm) (z : string -> bool) (s : string) : bool :=
  match find_pdef s (aproducts alg) with
  | Some p => existsb z (pfactors p)
  | None =>
      match find_sdef s (aseries alg) with
      | Some d =>
          match sstart d with
          | StartZero => true
          | NoStart | StartOther _ => forallb (zline z) (sbody d)
          | StartOne | StartInput _ => false
          end
      | None => false
      end
  end.

Fixpoint iter {A} (n : nat) (f : A -> A) (x : A) : A :=
  match n with 0 => x | S k => f (iter k f x) end.

Definition all_names (alg : algorithm) : list string :=
  map sname (aseries alg) ++ map pname (aproducts alg).

Definition zero0 (alg : algorithm) : string -> bool :=
  iter (S (length (all_names alg))) (zero0_step alg) (fun _ => false).

(** names mentioned by the value lines (the marker's reference to the series itself, at the
    transposed index of a strictly-lower block, is not a same-index dependency) *)
Definition line_mentions (l : line) : list string :=
  match l with Line _ e => map fst (uses_expr e) | Marker _ => [] end.
Definition mentions (d : sdef) : list string := flat_map line_mentions (sbody d).

Definition full_start (d : sdef) : bool :=
  match sstart d with StartZero | StartInput _ => true | _ => false end.

(** successors of a name in G+ ([order0 = false]) or G0 ([order0 = true]) *)
Definition succs (alg : algorithm) (order0 : bool) (s : string) : list string :=
  let z := zero0 alg in
  match find_pdef s (aproducts alg) with
  | Some p =>
      match pfactors p with
      | [a; b] =>
          (if order0 then [a] else if z b then [] else [a]) ++ (if z a then [] else [b])
      | fs => fs
      end
  | None =>
      match find_sdef s (aseries alg) with
      | Some d => if order0 && full_start d then [] else mentions d
      | None => []
      end
  end.

Fixpoint assoc_rank (l : list (string * nat)) (s : string) : nat :=
  match l with
  | [] => 0
  | (n, r) :: rest => if String.eqb n s then r else assoc_rank rest s
  end.

(** longest-path ranks by iteration (names not in the table - inputs - have rank 0) *)
Definition rank_step (alg : algorithm) (order0 : bool) (rk : list (string * nat)) : list (string * nat) :=
  map (fun s => (s, fold_right Nat.max 0 (map (fun t => S (assoc_rank rk t))
                                               (filter (fun t => mem_str t (all_names alg)) (succs alg order0 s)))))
      (all_names alg).

Definition auto_rank (alg : algorithm) (order0 : bool) : list (string * nat) :=
  iter (S (length (all_names alg))) (rank_step alg order0) (map (fun s => (s, 0)) (all_names alg)).

Definition graph_ok (alg : algorithm) (order0 : bool) : bool :=
  let rk := auto_rank alg order0 in
  forallb (fun s => forallb (fun t => negb (mem_str t (all_names alg)) || Nat.ltb (assoc_rank rk t) (assoc_rank rk s))
                            (succs alg order0 s))
          (all_names alg).

Definition start_one (alg : algorithm) (s : string) : bool :=
  match find_sdef s (aseries alg) with
  | Some d => match sstart d with StartOne => true | _ => false end
  | None => false
  end.

Definition one_safe (alg : algorithm) : bool :=
  forallb (fun d => forallb (fun t => negb (start_one alg t)) (mentions d)) (aseries alg)
  && forallb (fun p => forallb (fun t => negb (start_one alg t)) (pfactors p)) (aproducts alg).

Definition stratified (alg : algorithm) : bool :=
  graph_ok alg false && graph_ok alg true && one_safe alg
  && forallb (fun p => Nat.eqb (length (pfactors p)) 2) (aproducts alg).

(** the shipped algorithms carry the certificate *)
Lemma main_stratified : stratified main_alg = true.
Proof. vm_compute. reflexivity. Qed.

Lemma nonhermitian_stratified : stratified nonhermitian_alg = true.
Proof. vm_compute. reflexivity. Qed.

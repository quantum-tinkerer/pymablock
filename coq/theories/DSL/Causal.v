(** DSL/Causal.v - non-interference of the specification: the value of an element at
    multi-order n depends only on the input elements of orders <= n (componentwise). *)
From Coq Require Import String List ZArith Bool Arith.
From PV.DSL Require Import Syntax SyntaxAux Values Interp Sound.
Import ListNotations.
Set Implicit Arguments.

Definition set_env V (W : sworld V) (env' : string -> index -> V) : sworld V :=
  {| sw_nb := sw_nb W; sw_np := sw_np W; sw_inputs := sw_inputs W; sw_env := env';
     sw_hasoff := sw_hasoff W; sw_gflag := sw_gflag W; sw_rflag := sw_rflag W;
     sw_access := sw_access W; sw_fn := sw_fn W |}.

Section Cone.
  Variable V : Type.
  Variable O : vops V.
  Variable alg : algorithm.
  Variable W : sworld V.
  Variable env' : string -> index -> V.
  Notation W' := (set_env W env').

  Section Step.
    Variables sub1 sub2 : key -> index -> option V.
    Variable idx : index.
    Hypothesis Hsub : forall k ix', ole (idx_n ix') (idx_n idx) -> sub1 k ix' = sub2 k ix'.
    Hypothesis Henv : forall x, sw_env W x idx = env' x idx.

    Lemma sub_here k : sub1 k idx = sub2 k idx.
    Proof. apply Hsub, ole_refl. Qed.
    Lemma sub_transp k : sub1 k (transp idx) = sub2 k (transp idx).
    Proof. apply Hsub. destruct idx as [[i j] n]. apply ole_refl. Qed.

    Lemma iseries_arg_cone f s : iseries_arg O W sub1 idx f s = iseries_arg O W' sub2 idx f s.
    Proof. unfold iseries_arg. cbn [sw_access set_env]. now rewrite sub_here. Qed.

    Lemma iexpr_cone e : iexpr O W sub1 idx e = iexpr O W' sub2 idx e.
    Proof.
      induction e using expr_ind'; cbn [iexpr].
      - apply sub_here.
      - now rewrite sub_transp.
      - reflexivity.
      - now rewrite IHe.
      - now rewrite IHe1, IHe2.
      - now rewrite IHe1, IHe2.
      - now rewrite IHe.
      - cbn [sw_fn set_env]. f_equal.
        induction H as [|a r Ha Hr IH]; auto.
        rewrite IH. f_equal.
        destruct (arg_series a) as [s|]; [apply iseries_arg_cone|].
        destruct a as [s|e']; [apply iseries_arg_cone | exact Ha].
      - replace (flag_value W' c idx) with (flag_value W c idx) by (destruct c; reflexivity).
        destruct (flag_value W c idx); auto.
    Qed.

    Lemma iwrapped_cone f e : iwrapped O W sub1 idx f e = iwrapped O W' sub2 idx f e.
    Proof.
      unfold iwrapped. cbn [sw_fn set_env]. f_equal.
      destruct e; try apply iexpr_cone. apply iseries_arg_cone.
    Qed.

    Lemma ibody_cone name lines : forall acc, ibody O W sub1 idx name lines acc = ibody O W' sub2 idx name lines acc.
    Proof.
      induction lines as [|l r IH]; intros acc; cbn [ibody]; auto.
      destruct l as [c e|h].
      - destruct c.
        + rewrite iexpr_cone. destruct (iexpr O W' sub2 idx e); cbn; auto.
        + destruct (Nat.eqb (idx_i idx) (idx_j idx)); auto.
          rewrite iwrapped_cone. destruct (iwrapped O W' sub2 idx "diag" e); cbn; auto.
        + destruct (negb (Nat.eqb (idx_i idx) (idx_j idx))).
          * rewrite iexpr_cone. destruct (iexpr O W' sub2 idx e); cbn; auto.
          * cbn [sw_hasoff set_env]. destruct (sw_hasoff W); auto.
            rewrite iwrapped_cone. destruct (iwrapped O W' sub2 idx "offdiag" e); cbn; auto.
      - destruct (Nat.ltb (idx_j idx) (idx_i idx)); auto. now rewrite sub_transp.
    Qed.

    Lemma iprod_loop_cone half k1 k2 l :
      Forall (pair_ok (idx_n idx)) l ->
      forall acc, iprod_loop O sub1 idx half k1 k2 l acc = iprod_loop O sub2 idx half k1 k2 l acc.
    Proof.
      induction 1 as [|[mid m1] r [H1 H2] Hr IH]; intros acc; cbn [iprod_loop]; auto.
      cbn [snd] in H1, H2.
      rewrite (Hsub k1 (idx_i idx, mid, m1)) by exact H1.
      rewrite (Hsub k2 (mid, idx_j idx, lsub (idx_n idx) m1)) by exact H2.
      destruct (half && lex_gt m1 (lsub (idx_n idx) m1)); auto.
      destruct (lazy_term O _ _ _) as [[t|]|]; auto.
      destruct (half && negb (lnat_eqb m1 (lsub (idx_n idx) m1))); auto.
    Qed.

    Lemma rhs_cone k : rhs O alg W sub1 idx k = rhs O alg W' sub2 idx k.
    Proof.
      unfold rhs. cbn [sw_inputs set_env]. destruct k as [s|pn k'].
      - destruct (kind_of alg (sw_inputs W) s) as [|d|p|]; auto.
        + cbn [sw_env set_env]. now rewrite Henv.
        + assert (spec_start O W d idx = spec_start O W' d idx) as ->.
          { unfold spec_start. change (is_start_index W' idx) with (is_start_index W idx).
            destruct (is_start_index W idx); auto. destruct (sstart d); auto.
            cbn [sw_inputs sw_env set_env]. now rewrite Henv. }
          destruct (spec_start O W' d idx); auto. apply ibody_cone.
        + destruct (Nat.leb 2 (length (pfactors p))); auto.
          unfold iprod, iprod_gen. cbn [sw_nb set_env]. apply iprod_loop_cone, pbo_space_ok.
      - destruct (find_pdef pn (aproducts alg)); auto.
        destruct (Nat.leb 2 k' && Nat.ltb k' (length (pfactors p))); auto.
        unfold iprod, iprod_gen. cbn [sw_nb set_env]. apply iprod_loop_cone, pbo_space_ok.
    Qed.
  End Step.

  Theorem interp_cone ix :
    (forall x ix', ole (idx_n ix') (idx_n ix) -> sw_env W x ix' = env' x ix') ->
    forall fuel k, interp O alg W fuel k ix = interp O alg W' fuel k ix.
  Proof.
    intros Henv fuel.
    assert (G : forall k ix', ole (idx_n ix') (idx_n ix) -> interp O alg W fuel k ix' = interp O alg W' fuel k ix').
    { induction fuel as [|f IH]; intros k ix' Hle; [reflexivity|]. cbn [interp].
      apply rhs_cone.
      - intros k0 ix0 H0. apply IH. eapply ole_trans; eauto.
      - intros x. now apply Henv. }
    intros k. apply G, ole_refl.
  Qed.
End Cone.

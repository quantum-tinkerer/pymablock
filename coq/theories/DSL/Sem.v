(** Whole-series ("symbolic") meaning of a program of the mini-language in a [BlockAlg].

    [solution gflag rflag fenv sol alg] says that the valuation [sol : name -> T] of all
    series, products and inputs satisfies every definition of [alg], where each definition is
    read as ONE equation between elements of the algebra (a series of block matrices):

    - a string literal is the named series, [.adj] its adjoint, a product name the product of
      the factors (for a product declared hermitian: the half-sum on the diagonal blocks, the
      true product on the upper blocks and the adjoint of the upper blocks on the lower ones -
      this is what cauchy_dot_product(hermitian=True) computes);
    - a [diagonal] line contributes [Sel v] (the scope function diag on the diagonal blocks),
      an [offdiagonal] line [v - Sel v] (off-diagonal blocks, and the scope function offdiag
      on the diagonal blocks), an unconditional line [v];
    - a hermitian / antihermitian marker replaces the lower blocks by (minus) the adjoint of
      the upper blocks of the series itself; value lines written before the marker still
      contribute to the lower blocks, as in the generated code;
    - start = 0 removes the order-zero coefficient, start = 1 puts the identity there on the
      diagonal blocks, start = "X_0" the order-zero coefficient of the input X.

    The generated term Gen.Algorithms_gen.main_alg is read through [solution] ([den], [body_den], [product_den]), so an
    edit of algorithms.py changes the equations every theorem in Alg/ has to work with. *)
Require Import Ncring Ncring_tac Setoid Morphisms ZArith String List.
From PV.Base Require Import Classes AlgLemmas.
From PV.DSL Require Import Syntax.
Import ListNotations.
Set Implicit Arguments.

Section Sem.
Context {T : Type} `{Rg : Ring T} {BA : BlockAlg T}.

Variable gflag : string -> bool.           (* global flags, e.g. two_block_optimized *)
Variable rflag : string -> T -> T.         (* row flags: projector on the rows where the flag holds *)
Variable fenv : string -> list T -> T.     (* scope functions other than diag / offdiag *)
Variable sol : string -> T.                (* valuation of every name *)

Fixpoint den (e : expr) : T :=
  match e with
  | Lit s => sol s
  | Adj s => adj (sol s)
  | EZero => 0
  | Neg a => - den a
  | Add a b => den a + den b
  | Sub a b => den a - den b
  | DivInt a k => divz (den a) k
  | Call f args =>
      fenv f (map (fun a => match a with ArgSeries s => sol s | ArgExpr a' => den a' end) args)
  | IfFlag (FlagGlobal n) a b => if gflag n then den a else den b
  | IfFlag (FlagRow n) a b => rflag n (den a) + (den b - rflag n (den b))
  end.

Definition line_den (c : cond) (e : expr) : T :=
  match c with
  | Default => den e
  | Diagonal => Sel (den e)
  | Offdiagonal => Rp (den e)
  end.

(* sum of the value lines of a body *)
Fixpoint lines_den (b : list line) : T :=
  match b with
  | [] => 0
  | Line c e :: r => line_den c e + lines_den r
  | Marker _ :: r => lines_den r
  end.

(* value lines before the first marker, the marker, and the lines after it *)
Fixpoint split_marker (b : list line) : list line * option (herm * list line) :=
  match b with
  | [] => ([], None)
  | Marker h :: r => ([], Some (h, r))
  | l :: r => let '(pre, m) := split_marker r in (l :: pre, m)
  end.

Definition body_den (s : string) (b : list line) : T :=
  match split_marker b with
  | (pre, None) => lines_den pre
  | (pre, Some (h, post)) =>
      let all := lines_den pre + lines_den post in
      Dg all + Up all + Lo (lines_den pre)
      + match h with Herm => adj (Up (sol s)) | AntiHerm => - adj (Up (sol s)) end
  end.

Definition with_start (st : start) (rhs : T) : T :=
  match st with
  | NoStart | StartOther _ => rhs
  | StartZero => Pos rhs
  | StartOne => 1 + (rhs - Dg (Zc rhs))
  | StartInput x => Zc (sol x) + Pos rhs
  end.

Definition sdef_holds (d : sdef) : Prop :=
  sol (sname d) == with_start (sstart d) (body_den (sname d) (sbody d)).

Fixpoint prod_den (fs : list string) (acc : T) : T :=
  match fs with
  | [] => acc
  | f :: r => prod_den r (acc * sol f)
  end.

Lemma prod_den_P fs a a' : a == a' -> prod_den fs a == prod_den fs a'.
Proof. revert a a'. induction fs as [|f r IH]; intros a a' E; cbn [prod_den]. exact E. apply IH. rewrite E. reflexivity. Qed.

Definition product_den (p : pdef) : T :=
  match pfactors p with
  | [] => 1
  | f :: r =>
      let full := prod_den r (sol f) in
      if pherm p then
        match r with
        | [g] => hsum (sol f) (sol g) + Up full + adj (Up full)
        | _ => Dg full + Up full + adj (Up full)
        end
      else full
  end.

Definition pdef_holds (p : pdef) : Prop := sol (pname p) == product_den p.

Definition solution (alg : algorithm) : Prop :=
  Forall sdef_holds (aseries alg) /\ Forall pdef_holds (aproducts alg).

Lemma solution_series alg : solution alg ->
  forall n d, find_sdef n (aseries alg) = Some d -> sdef_holds d.
Proof.
  intros [Hs _]. induction Hs as [|d0 l Hd Hl IH]; cbn [find_sdef]; intros n d E.
  - discriminate.
  - destruct (String.eqb (sname d0) n). inversion E; subst; exact Hd. eapply IH; exact E.
Qed.
Lemma solution_product alg : solution alg ->
  forall n p, find_pdef n (aproducts alg) = Some p -> pdef_holds p.
Proof.
  intros [_ Hs]. induction Hs as [|d0 l Hd Hl IH]; cbn [find_pdef]; intros n d E.
  - discriminate.
  - destruct (String.eqb (pname d0) n). inversion E; subst; exact Hd. eapply IH; exact E.
Qed.

Lemma solution_zero_ord alg : solution alg ->
  forall n d, find_sdef n (aseries alg) = Some d -> sstart d = StartZero -> ord 1 (sol (sname d)).
Proof.
  intros Hs n d E St. pose proof (solution_series Hs n E) as Ed. unfold sdef_holds in Ed.
  rewrite Ed, St. apply ord1_Pos.
Qed.

End Sem.

(** DSL/Faults.v - a world with another fault plan ([with_faults], used to state C11), and the
    trivial equality on values with which the soundness proof is instantiated to get the
    value-free statements of C12 (causality, exactly-once) for every program. *)
From Coq Require Import String List ZArith Bool Arith.
From PV.DSL Require Import Values Compile Exec Laws Main.
Import ListNotations.
Set Implicit Arguments.

(** the same world with another fault plan *)
Definition with_faults V (W : xworld V) (fp : nat -> option exn) : xworld V :=
  {| xw_nb := xw_nb W; xw_np := xw_np W; xw_inputs := xw_inputs W; xw_env := xw_env W;
     xw_uselin := xw_uselin W; xw_hasoff := xw_hasoff W; xw_gflag := xw_gflag W;
     xw_rflag := xw_rflag W; xw_access := xw_access W; xw_fn := xw_fn W;
     xw_counted := xw_counted W; xw_fault := fp |}.

Lemma world_ok_faults V (O : vops V) eqv alg (W : xworld V) sfn fp :
  world_ok O eqv alg W sfn -> world_ok O eqv alg (with_faults W fp) sfn.
Proof. intros [A B C D E]. split; assumption. Qed.

Lemma init_state_faults V alg (W : xworld V) fp c : init_state alg (with_faults W fp) c = init_state alg W c.
Proof. reflexivity. Qed.

Section Trivial.
  Variable V : Type.
  Variable O : vops V.

  Definition teq : V -> V -> Prop := fun _ _ => True.

  Lemma trivial_laws : vlaws O teq.
  Proof. split; unfold teq; try (repeat intro; exact I). split; repeat intro; exact I. Qed.

  Definition tsfn : string -> list V -> index -> V := fun _ _ _ => v0 O.

  Lemma trivial_world_ok alg (W : xworld V) :
    (forall x, In x (xw_inputs W) -> has_at x = false) -> world_ok O teq alg W tsfn.
  Proof. intros H. split; unfold herm_low, herm_diag, teq; auto. Qed.
End Trivial.

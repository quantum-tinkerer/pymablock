(** DSL/Values.v - indices, keys, exception classes, results, sentinel values and the
    Python-level arithmetic on them as used by the generated code of
    pymablock/algorithm_parsing.py and by series.py (product_by_order). *)
From Coq Require Import String List ZArith Bool Arith.
Import ListNotations.
Set Implicit Arguments.

(** A full integer index (i, j, orders) of a BlockSeries with two finite dimensions. *)
Definition index := (nat * nat * list nat)%type.

Definition idx_i (x : index) : nat := fst (fst x).
Definition idx_j (x : index) : nat := snd (fst x).
Definition idx_n (x : index) : list nat := snd x.

(** (index[1], index[0], *index[2:]) *)
Definition transp (x : index) : index := (idx_j x, idx_i x, idx_n x).

Fixpoint lnat_eqb (a b : list nat) : bool :=
  match a, b with
  | [], [] => true
  | x :: a', y :: b' => Nat.eqb x y && lnat_eqb a' b'
  | _, _ => false
  end.

Lemma lnat_eqb_eq a b : lnat_eqb a b = true <-> a = b.
Proof.
  revert b; induction a as [|x a IH]; destruct b as [|y b]; cbn; try (split; congruence).
  rewrite andb_true_iff, Nat.eqb_eq, IH. split; [intros [-> ->]; reflexivity | intros E; inversion E; auto].
Qed.

Definition index_eqb (a b : index) : bool :=
  Nat.eqb (idx_i a) (idx_i b) && Nat.eqb (idx_j a) (idx_j b) && lnat_eqb (idx_n a) (idx_n b).

Lemma index_eqb_eq a b : index_eqb a b = true <-> a = b.
Proof.
  destruct a as [[i j] n], b as [[i' j'] n']; unfold index_eqb; cbn.
  rewrite !andb_true_iff, !Nat.eqb_eq, lnat_eqb_eq.
  split; [intros [[-> ->] ->]; reflexivity | intros E; inversion E; auto].
Qed.

Fixpoint all_zero (n : list nat) : bool :=
  match n with [] => true | x :: r => Nat.eqb x 0 && all_zero r end.

(** The objects that own a cache: a named entry of the dictionary [series] (or of
    [linear_operator_series]), or the anonymous inner product of the first [k] factors of the
    declared product [p] (cauchy_dot_product of more than two factors nests to the left). *)
Inductive key :=
| KN (s : string)
| KI (p : string) (k : nat).

Definition key_eqb (a b : key) : bool :=
  match a, b with
  | KN s, KN t => String.eqb s t
  | KI p k, KI q l => String.eqb p q && Nat.eqb k l
  | _, _ => false
  end.

Lemma key_eqb_eq a b : key_eqb a b = true <-> a = b.
Proof.
  destruct a, b; cbn; try (split; congruence).
  - rewrite String.eqb_eq. split; congruence.
  - rewrite andb_true_iff, String.eqb_eq, Nat.eqb_eq. split; [intros [-> ->]; auto | intros E; inversion E; auto].
Qed.

(** The two dictionaries of series_computation. *)
Inductive tbl := TTab | TLin.
Definition tbl_eqb (a b : tbl) : bool :=
  match a, b with TTab, TTab | TLin, TLin => true | _, _ => false end.
Lemma tbl_eqb_eq a b : tbl_eqb a b = true <-> a = b.
Proof. destruct a, b; cbn; split; congruence. Qed.

Definition ckey := (tbl * key * index)%type.
Definition ckey_eqb (a b : ckey) : bool :=
  tbl_eqb (fst (fst a)) (fst (fst b)) && key_eqb (snd (fst a)) (snd (fst b)) && index_eqb (snd a) (snd b).
Lemma ckey_eqb_eq a b : ckey_eqb a b = true <-> a = b.
Proof.
  destruct a as [[t k] i], b as [[t' k'] i']; unfold ckey_eqb; cbn.
  rewrite !andb_true_iff, tbl_eqb_eq, key_eqb_eq, index_eqb_eq.
  split; [intros [[-> ->] ->]; auto | intros E; inversion E; auto].
Qed.
Lemma ckey_eqb_spec a b : reflect (a = b) (ckey_eqb a b).
Proof. apply iff_reflect. symmetry. apply ckey_eqb_eq. Qed.

(** Exception classes that can reach the caller. [UserExn c]: class raised by a user
    callback (0 = Exception, 1 = KeyboardInterrupt-like BaseException, ...); a user
    RuntimeError is [RuntimeError]. *)
Inductive exn :=
| RuntimeError
| TypeError
| KeyError
| SympifyError
| IndexError
| UserExn (c : nat).

Definition exn_eqb (a b : exn) : bool :=
  match a, b with
  | RuntimeError, RuntimeError | TypeError, TypeError | KeyError, KeyError
  | SympifyError, SympifyError | IndexError, IndexError => true
  | UserExn c, UserExn d => Nat.eqb c d
  | _, _ => false
  end.

Inductive res (A : Type) :=
| Ok (a : A)
| Raise (e : exn)
| OutOfFuel.
Arguments Ok {A} a.
Arguments Raise {A} e.
Arguments OutOfFuel {A}.

(** Stored values: the sentinels [zero], [one] of series.py or any other object. *)
Inductive sval (V : Type) :=
| SZero
| SOne
| SVal (v : V).
Arguments SZero {V}.
Arguments SOne {V}.
Arguments SVal {V} v.

Definition is_zero {V} (x : sval V) : bool := match x with SZero => true | _ => false end.

(** Operations of the coefficient structure. *)
Record vops (V : Type) := {
  v0 : V;
  v1 : V;
  vadd : V -> V -> V;
  vneg : V -> V;
  vmul : V -> V -> V;          (* the [operator] *)
  vadj : V -> V;               (* Dagger *)
  vdiv : V -> Z -> V;          (* division by an integer literal *)
  vis0 : V -> bool             (* a (sound) test for the mathematical zero; used ONLY by the
                                  specification of products, never by the evaluator *)
}.

Section SOps.
  Variable V : Type.
  Variable O : vops V.

  Definition den (x : sval V) : V :=
    match x with SZero => v0 O | SOne => v1 O | SVal v => v end.

  (** [x + y] *)
  Definition sadd (x y : sval V) : res (sval V) :=
    match x, y with
    | SZero, _ => Ok y                           (* Zero.__add__ returns other *)
    | SVal a, SVal b => Ok (SVal (vadd O a b))
    | _, _ => Raise TypeError
    end.

  (** [-x] *)
  Definition sneg (x : sval V) : res (sval V) :=
    match x with
    | SZero => Ok SZero
    | SVal a => Ok (SVal (vneg O a))
    | SOne => Raise TypeError
    end.

  (** [Dagger(x)] *)
  Definition sdagger (x : sval V) : res (sval V) :=
    match x with
    | SZero => Ok SZero
    | SVal a => Ok (SVal (vadj O a))
    | SOne => Raise SympifyError
    end.

  (** [_safe_divide(x, k)] : x / k, on TypeError x * (1 / k) *)
  Definition sdivide (x : sval V) (k : Z) : res (sval V) :=
    match x with
    | SZero => Ok SZero                          (* zero / k raises TypeError; zero * (1/k) is zero *)
    | SVal a => Ok (SVal (vdiv O a k))
    | SOne => Raise TypeError
    end.

  (** [sum((t for t in terms if t is not zero), start=zero)] *)
  Fixpoint ssum_from (acc : sval V) (l : list (sval V)) : res (sval V) :=
    match l with
    | [] => Ok acc
    | t :: r =>
        if is_zero t then ssum_from acc r
        else match sadd acc t with
             | Ok a => ssum_from a r
             | Raise e => Raise e
             | OutOfFuel => OutOfFuel
             end
    end.
  Definition szero_sum (l : list (sval V)) : res (sval V) := ssum_from SZero l.
End SOps.

(** DSL/HarnessLib.v - concrete instance used by the correspondence harnesses
    (tools/harness/k_seriescomp.py, k_schedules.py, k_faults.py, k_calllog.py): values are 2x2 matrices of rationals (kept reduced), the adjoint is
    the transpose, and a small fixed library of scope functions mirrored in Python
    (tools/harness/proggen.py, SCOPE_FUNCTIONS). *)
From Coq Require Import String List ZArith QArith Qreduction Bool Arith.
From PV.DSL Require Import Syntax Values Target Compile Interp Exec.
Import ListNotations.
Open Scope string_scope.

Record m2 := M2 { m00 : Q; m01 : Q; m10 : Q; m11 : Q }.

Definition qr (q : Q) : Q := Qred q.
Definition m2_zero := M2 0 0 0 0.
Definition m2_one := M2 1 0 0 1.
Definition m2_add (a b : m2) :=
  M2 (qr (m00 a + m00 b)) (qr (m01 a + m01 b)) (qr (m10 a + m10 b)) (qr (m11 a + m11 b)).
Definition m2_neg (a : m2) := M2 (qr (- m00 a)) (qr (- m01 a)) (qr (- m10 a)) (qr (- m11 a)).
Definition m2_mul (a b : m2) :=
  M2 (qr (m00 a * m00 b + m01 a * m10 b)) (qr (m00 a * m01 b + m01 a * m11 b))
     (qr (m10 a * m00 b + m11 a * m10 b)) (qr (m10 a * m01 b + m11 a * m11 b)).
Definition m2_adj (a : m2) := M2 (m00 a) (m10 a) (m01 a) (m11 a).
Definition m2_div (a : m2) (k : Z) :=
  let q := inject_Z k in
  M2 (qr (m00 a / q)) (qr (m01 a / q)) (qr (m10 a / q)) (qr (m11 a / q)).
Definition m2_scale (c : Z) (a : m2) :=
  let q := inject_Z c in
  M2 (qr (q * m00 a)) (qr (q * m01 a)) (qr (q * m10 a)) (qr (q * m11 a)).
Definition m2_eqb (a b : m2) : bool :=
  Qeq_bool (m00 a) (m00 b) && Qeq_bool (m01 a) (m01 b) && Qeq_bool (m10 a) (m10 b) && Qeq_bool (m11 a) (m11 b).

Definition m2_ops : vops m2 :=
  {| v0 := m2_zero; v1 := m2_one; vadd := m2_add; vneg := m2_neg; vmul := m2_mul;
     vadj := m2_adj; vdiv := m2_div; vis0 := fun a => m2_eqb a m2_zero |}.

(** integer matrix literal *)
Definition mz (a b c d : Z) : m2 := M2 (inject_Z a) (inject_Z b) (inject_Z c) (inject_Z d).
(** rational matrix literal: numerators and one common positive denominator *)
Definition mq (a b c d : Z) (den : positive) : m2 :=
  M2 (qr (a # den)) (qr (b # den)) (qr (c # den)) (qr (d # den)).

(* ---------------------------------------------------------------- scope functions *)

(** the fixed matrix used by "f_lmul": depends on the row index *)
Definition kmat (i : nat) : m2 := mz 1 (Z.of_nat i + 1) 0 1.

(** Python (tools/harness/proggen.py):
      diag_id(x, index)    : x = x[index] if series;  return x                 (default diag)
      f_scale(x, index)    : x[index] if series; zero -> zero; one -> TypeError; 3 * x
      f_lmul(x, index)     : likewise;  K(index[0]) @ x
      g_mul(x, y, index)   : both dereferenced; zero if either is zero; one -> TypeError; x @ y
      h_cond(x, index)     : if index[0] == 1: return zero  (series NOT dereferenced);  x
      offdiag              : same as h_cond with the test index[0] == 0
      diag (custom)        : f_lmul-like with K(index[0]+1)                                  *)
Definition lib_fn (f : string) (args : list (sval m2)) (idx : index) : res (sval m2) :=
  if String.eqb f "diag" then
    match args with [x] => Ok x | _ => Raise TypeError end
  else if String.eqb f "f_scale" then
    match args with
    | [SZero] => Ok SZero
    | [SVal x] => Ok (SVal (m2_scale 3 x))
    | _ => Raise TypeError
    end
  else if String.eqb f "f_lmul" then
    match args with
    | [SZero] => Ok SZero
    | [SVal x] => Ok (SVal (m2_mul (kmat (idx_i idx)) x))
    | _ => Raise TypeError
    end
  else if String.eqb f "diag_custom" then
    match args with
    | [SZero] => Ok SZero
    | [SVal x] => Ok (SVal (m2_mul (kmat (S (idx_i idx))) x))
    | _ => Raise TypeError
    end
  else if String.eqb f "g_mul" then
    match args with
    | [SZero; SZero] | [SZero; SVal _] | [SVal _; SZero] => Ok SZero
    | [SVal x; SVal y] => Ok (SVal (m2_mul x y))
    | _ => Raise TypeError
    end
  else if String.eqb f "h_cond" then
    match args with [x] => if Nat.eqb (idx_i idx) 1 then Ok SZero else Ok x | _ => Raise TypeError end
  else if String.eqb f "offdiag" then
    match args with [x] => if Nat.eqb (idx_i idx) 0 then Ok SZero else Ok x | _ => Raise TypeError end
  else Raise KeyError.

Definition lib_access (f : string) (idx : index) : bool :=
  if String.eqb f "h_cond" then negb (Nat.eqb (idx_i idx) 1)
  else if String.eqb f "offdiag" then negb (Nat.eqb (idx_i idx) 0)
  else true.

(** the same functions on values (specification side) *)
Definition lib_sfn (f : string) (args : list m2) (idx : index) : m2 :=
  if String.eqb f "diag" then nth 0 args m2_zero
  else if String.eqb f "f_scale" then m2_scale 3 (nth 0 args m2_zero)
  else if String.eqb f "f_lmul" then m2_mul (kmat (idx_i idx)) (nth 0 args m2_zero)
  else if String.eqb f "diag_custom" then m2_mul (kmat (S (idx_i idx))) (nth 0 args m2_zero)
  else if String.eqb f "g_mul" then m2_mul (nth 0 args m2_zero) (nth 1 args m2_zero)
  else if String.eqb f "h_cond" then if Nat.eqb (idx_i idx) 1 then m2_zero else nth 0 args m2_zero
  else if String.eqb f "offdiag" then if Nat.eqb (idx_i idx) 0 then m2_zero else nth 0 args m2_zero
  else m2_zero.

(* ----------------------------------------------------------------------- worlds *)

(** input elements: (name, index, value); absent elements are the sentinel zero *)
Definition envtab := list (string * index * sval m2).

Fixpoint env_lookup (t : envtab) (s : string) (idx : index) : sval m2 :=
  match t with
  | [] => SZero
  | (n, i, v) :: r => if String.eqb n s && index_eqb i idx then v else env_lookup r s idx
  end.

Fixpoint assoc_nat {A} (d : A) (l : list (nat * A)) (k : nat) : A :=
  match l with
  | [] => d
  | (n, a) :: r => if Nat.eqb n k then a else assoc_nat d r k
  end.

Record wcfg := {
  c_nb : nat;
  c_np : nat;
  c_inputs : list string;
  c_env : envtab;
  c_uselin : list (nat * nat);            (* blocks with use_linear_operator = True *)
  c_hasoff : bool;
  c_diag_custom : bool;                   (* the scope overrides diag *)
  c_gflags : list string;                 (* global flags that are True *)
  c_rflags : list (string * list nat);    (* row flags: rows where True *)
  c_counted : list string;                (* scope functions counted as user callbacks *)
  c_faults : list (nat * exn)             (* callback invocation number -> exception *)
}.

Definition rename_diag (c : wcfg) (f : string) : string :=
  if c_diag_custom c && String.eqb f "diag" then "diag_custom" else f.

Definition mk_xworld (c : wcfg) : xworld m2 :=
  {| xw_nb := c_nb c; xw_np := c_np c; xw_inputs := c_inputs c;
     xw_env := env_lookup (c_env c);
     xw_uselin := fun i j => existsb (fun b => Nat.eqb (fst b) i && Nat.eqb (snd b) j) (c_uselin c);
     xw_hasoff := c_hasoff c;
     xw_gflag := fun n => mem_string n (c_gflags c);
     xw_rflag := fun n i => existsb (fun x => String.eqb (fst x) n && existsb (Nat.eqb i) (snd x)) (c_rflags c);
     xw_access := fun f => lib_access (rename_diag c f);
     xw_fn := fun f => lib_fn (rename_diag c f);
     xw_counted := fun f => mem_string f (c_counted c);
     xw_fault := fun k => assoc_nat None (map (fun x => (fst x, Some (snd x))) (c_faults c)) k |}.

Definition mk_sworld (c : wcfg) : sworld m2 :=
  {| sw_nb := c_nb c; sw_np := c_np c; sw_inputs := c_inputs c;
     sw_env := fun s i => den m2_ops (env_lookup (c_env c) s i);
     sw_hasoff := c_hasoff c;
     sw_gflag := fun n => mem_string n (c_gflags c);
     sw_rflag := fun n i => existsb (fun x => String.eqb (fst x) n && existsb (Nat.eqb i) (snd x)) (c_rflags c);
     sw_access := fun f => lib_access (rename_diag c f);
     sw_fn := fun f => lib_sfn (rename_diag c f) |}.

(* -------------------------------------------------------------------- observations *)

Inductive obs :=
| OZero | OOne | OVal (m : m2) | OExn (e : exn) | OFuel.

Definition obs_of (r : res (sval m2)) : obs :=
  match r with
  | Ok SZero => OZero
  | Ok SOne => OOne
  | Ok (SVal m) => OVal m
  | Raise e => OExn e
  | OutOfFuel => OFuel
  end.

Definition obs_eqb (a b : obs) : bool :=
  match a, b with
  | OZero, OZero | OOne, OOne => true
  | OVal x, OVal y => m2_eqb x y
  | OExn e, OExn f => exn_eqb e f
  | _, _ => false
  end.

Fixpoint obs_list_eqb (a b : list obs) : bool :=
  match a, b with
  | [], [] => true
  | x :: a', y :: b' => obs_eqb x y && obs_list_eqb a' b'
  | _, _ => false
  end.

(** run a schedule on the compiled program from the initial state *)
Definition run_schedule (fuel : nat) (alg : algorithm) (c : wcfg) (calls0 : nat) (rs : list request)
  : list obs * state m2 :=
  let W := mk_xworld c in
  let (os, st) := run_all m2_ops alg (compile alg) W fuel (init_state alg W calls0) rs in
  (map obs_of os, st).

Definition check_schedule (fuel : nat) (alg : algorithm) (c : wcfg) (calls0 : nat) (rs : list request)
           (expected : list obs) : bool :=
  obs_list_eqb (fst (run_schedule fuel alg c calls0 rs)) expected.

(** value semantics: a value denotes the same as what the specification gives *)
Definition spec_obs (fuel : nat) (alg : algorithm) (c : wcfg) (name : string) (idx : index) : option m2 :=
  interp m2_ops alg (mk_sworld c) fuel (KN name) idx.

Definition obs_den_eqb (o : obs) (w : option m2) : bool :=
  match o, w with
  | OZero, Some m => m2_eqb m2_zero m
  | OOne, Some m => m2_eqb m2_one m
  | OVal x, Some m => m2_eqb x m
  | _, _ => false
  end.

Definition pending_left (st : state m2) : bool :=
  existsb (fun x => match lookup (cache st) (fst x) with Some Pending => true | _ => false end) (cache st).

Fixpoint input_events (l : list event) : list (string * index) :=
  match l with
  | [] => []
  | EvInput s i :: r => (s, i) :: input_events r
  | _ :: r => input_events r
  end.

(** comparison of input-evaluation logs as multisets *)
Definition ev_in (e : string * index) (l : list (string * index)) : bool :=
  existsb (fun x => String.eqb (fst x) (fst e) && index_eqb (snd x) (snd e)) l.
Definition evs_match (a b : list (string * index)) : bool :=
  Nat.eqb (length a) (length b) && forallb (fun e => ev_in e b) a && forallb (fun e => ev_in e a) b.

Definition check_log (fuel : nat) (alg : algorithm) (c : wcfg) (calls0 : nat) (rs : list request)
           (expected : list (string * index)) : bool :=
  evs_match (input_events (log (snd (run_schedule fuel alg c calls0 rs)))) expected.

(** observations, absence of in-flight markers and the number of callback invocations *)
Definition check_faulty (fuel : nat) (alg : algorithm) (c : wcfg) (calls0 : nat) (rs : list request)
           (expected : list obs) (ncalls : nat) : bool :=
  let (os, st) := run_schedule fuel alg c calls0 rs in
  obs_list_eqb os expected && negb (pending_left st) && Nat.eqb (calls st) ncalls.

(** multi-element requests (slices, list indices): the element indices in evaluation order *)
Definition mrequest := (tbl * string * list index)%type.

Inductive mobs := MVals (l : list obs) | MExn (e : exn) | MFuel.

Definition mobs_eqb (a b : mobs) : bool :=
  match a, b with
  | MVals x, MVals y => obs_list_eqb x y
  | MExn e, MExn f => exn_eqb e f
  | _, _ => false
  end.

Fixpoint run_mschedule (fuel : nat) (alg : algorithm) (W : xworld m2) (st : state m2) (rs : list mrequest)
  : list mobs * state m2 :=
  match rs with
  | [] => ([], st)
  | (tb, name, ixs) :: rest =>
      let '(r, st1) := run_multi m2_ops alg (compile alg) W fuel st tb name ixs in
      let o := match r with
               | Ok vs => MVals (map (fun v => obs_of (Ok v)) vs)
               | Raise e => MExn e
               | OutOfFuel => MFuel
               end in
      let '(os, st2) := run_mschedule fuel alg W st1 rest in
      (o :: os, st2)
  end.

Fixpoint mobs_list_eqb (a b : list mobs) : bool :=
  match a, b with
  | [], [] => true
  | x :: a', y :: b' => mobs_eqb x y && mobs_list_eqb a' b'
  | _, _ => false
  end.

Definition check_mschedule (fuel : nat) (alg : algorithm) (c : wcfg) (calls0 : nat) (rs : list mrequest)
           (expected : list mobs) : bool :=
  let W := mk_xworld c in
  mobs_list_eqb (fst (run_mschedule fuel alg W (init_state alg W calls0) rs)) expected.

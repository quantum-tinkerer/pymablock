(** DSL/Main.v - the theorems about [compile alg] run by the evaluator from the initial
    state, in the form used by Props/C09..C12. *)
From Coq Require Import String List ZArith Bool Arith.
From PV.DSL Require Import Syntax Values Compile Interp Exec Laws Sound CompileProps.
Import ListNotations.
Set Implicit Arguments.

Section Main.
  Variable V : Type.
  Variable O : vops V.
  Variable eqv : V -> V -> Prop.
  Variable L : vlaws O eqv.
  Variable alg : algorithm.
  Variable W : xworld V.
  Variable sfn : string -> list V -> index -> V.

  Notation spec := (interp O alg (SW O W sfn)).

  (** validity of the Hermitian shortcuts in the sense of the specification (vacuous when no
      product is declared hermitian) *)
  Definition herm_low : Prop :=
    forall s p i j n,
      kind_of alg (xw_inputs W) s = KProduct p -> pherm p = true -> j < i -> wf_index W (i, j, n) = true ->
      forall x : V, (forall fu' w', spec fu' (KN s) (j, i, n) = Some w' -> eqv x w') ->
      forall fu w, spec fu (KN s) (i, j, n) = Some w -> eqv (vadj O x) w.

  Definition herm_diag : Prop :=
    forall s p i n fu w,
      kind_of alg (xw_inputs W) s = KProduct p -> pherm p = true -> length (pfactors p) = 2 ->
      wf_index W (i, i, n) = true ->
      iprod_gen O (SW O W sfn) (spec fu) (i, i, n) false (first_key p 2) (second_key p 2) = Some w ->
      forall fu' w', iprod_gen O (SW O W sfn) (spec fu') (i, i, n) true (first_key p 2) (second_key p 2) = Some w' ->
                     eqv w' w.

  Record world_ok : Prop := {
    wo_plain : forall x, In x (xw_inputs W) -> has_at x = false;
    wo_proper : forall f l l' ix, Forall2 eqv l l' -> eqv (sfn f l ix) (sfn f l' ix);
    wo_tie : forall f args ix r, xw_fn W f args ix = Ok r -> eqv (den O r) (sfn f (map (den O) args) ix);
    wo_low : herm_low;
    wo_diag : herm_diag
  }.

  Hypothesis WO : world_ok.

  Definition denotes (v : sval V) (name : string) (ix : index) : Prop :=
    forall f w, spec f (KN name) ix = Some w -> eqv (den O v) w.

  Definition no_pending (s : state V) : Prop := forall ck, st_lookup s ck <> Some Pending.

  Lemma Hprog_compile :
    forall x d, kind_of alg (xw_inputs W) x = KSeries d ->
      exists td, td_ok alg W td /\ find_body x (compile alg) = Some (flat_map (cline (sname d) td) (sbody d)).
  Proof.
    intros x d K. destruct (@compile_bodies alg (xw_inputs W) (wo_plain WO) x d K) as (td & Htd & Fb).
    exists td. split; auto.
  Qed.

  Definition reachable_inv (s : state V) : Prop := Inv O eqv alg W sfn [] s.

  Lemma init_reachable calls0 : reachable_inv (init_state alg W calls0).
  Proof. apply init_inv. exact L. Qed.

  (** one request from any state satisfying the invariant *)
  Theorem request_sound fuel s tb name ix r s' :
    reachable_inv s -> run O alg (compile alg) W fuel s (tb, name, ix) = (r, s') -> r <> OutOfFuel ->
    reachable_inv s' /\ no_pending s' /\ ext alg W (idx_n ix) s s' /\
    forall v, r = Ok v -> denotes v name ix.
  Proof.
    intros I E NO.
    destruct (run_ok L (compile alg) (wo_proper WO) (wo_tie WO) Hprog_compile (wo_low WO) (wo_diag WO)
                     fuel tb name ix I E NO) as (I' & X & P).
    split; [exact I'|]. split; [exact (Inv_no_pending I')|]. split; [exact X | exact P].
  Qed.

  (** a multi-element request (slice, list index): every value of the returned array denotes the interp
      value of its element - also when the cache entry of an earlier element of the same request has
      been deleted while a later one was evaluated *)
  Theorem multi_request_sound fuel tb name ixs : forall s vs s',
    reachable_inv s -> run_multi O alg (compile alg) W fuel s tb name ixs = (Ok vs, s') ->
    reachable_inv s' /\ no_pending s' /\ Forall2 (fun ix v => denotes v name ix) ixs vs.
  Proof.
    induction ixs as [|ix r IH]; intros s vs s' I E; cbn [run_multi] in E.
    - inversion E; subst. split; [exact I|]. split; [exact (Inv_no_pending I) | constructor].
    - destruct (run O alg (compile alg) W fuel s (tb, name, ix)) as [[v| |] s1] eqn:E1; try discriminate.
      destruct (run_multi O alg (compile alg) W fuel s1 tb name r) as [[vs'| |] s2] eqn:E2; try discriminate.
      inversion E; subst.
      destruct (@request_sound fuel s tb name ix (Ok v) s1 I E1 ltac:(discriminate)) as (I1 & _ & _ & P1).
      destruct (IH _ _ _ I1 E2) as (I2 & N2 & F2).
      split; [exact I2|]. split; [exact N2|]. constructor; auto.
  Qed.

  (** a whole schedule from the initial state *)
  Theorem schedule_sound fuel calls0 rs os s' :
    run_all O alg (compile alg) W fuel (init_state alg W calls0) rs = (os, s') ->
    Forall (fun o => o <> OutOfFuel) os ->
    reachable_inv s' /\ no_pending s' /\
    Forall2 (fun r o => forall v, o = Ok v -> denotes v (req_name r) (req_idx r)) rs os.
  Proof.
    intros E NO.
    destruct (run_all_ok L (compile alg) (wo_proper WO) (wo_tie WO) Hprog_compile (wo_low WO) (wo_diag WO)
                         fuel rs (init_reachable calls0) E NO) as (I' & F).
    split; [exact I'|]. split; [exact (Inv_no_pending I') | exact F].
  Qed.

  (** a value returned anywhere in a schedule denotes the interp value *)
  Corollary schedule_value fuel calls0 rs os s' i tb name ix v :
    run_all O alg (compile alg) W fuel (init_state alg W calls0) rs = (os, s') ->
    Forall (fun o => o <> OutOfFuel) os ->
    nth_error rs i = Some (tb, name, ix) -> nth_error os i = Some (Ok v) ->
    denotes v name ix.
  Proof.
    intros E NO Er Eo. destruct (@schedule_sound fuel calls0 rs os s' E NO) as (_ & _ & F).
    exact (Forall2_nth _ F Er Eo v eq_refl).
  Qed.

End Main.

(** without hermitian-declared products the validity conditions are vacuous *)
Lemma no_herm_valid V (O : vops V) eqv alg (W : xworld V) sfn :
  forallb (fun p => negb (pherm p)) (aproducts alg) = true ->
  herm_low O eqv alg W sfn /\ herm_diag O eqv alg W sfn.
Proof.
  intros H. rewrite forallb_forall in H.
  assert (G : forall s p, kind_of alg (xw_inputs W) s = KProduct p -> pherm p = true -> False).
  { intros s p K HP. pose proof (kind_of_spec alg (xw_inputs W) s) as F. rewrite K in F.
    specialize (H _ (proj2 (find_pdef_spec _ _ F))). rewrite HP in H. discriminate. }
  split.
  - intros s p i j n K HP. exfalso. eauto.
  - intros s p i n fu w K HP. exfalso. eauto.
Qed.


(** reaching one's own in-flight marker raises RuntimeError (no divergence, nothing returned) *)
Theorem recursion_detected V (O : vops V) alg prog (W : xworld V) rec tb k ix (s : state V) :
  wf_index W ix = true ->
  st_lookup s (tb, k, ix) = Some Pending ->
  getitem_step O alg prog W rec tb k ix s = (Raise RuntimeError, s).
Proof. intros Hwf H. unfold getitem_step. rewrite Hwf, H. reflexivity. Qed.

(** a value is returned only from a [Done] entry or from the completed evaluation that is
    stored as [Done]: the marker itself is never a result *)
Theorem returned_is_stored V (O : vops V) alg prog (W : xworld V) rec tb k ix (s s' : state V) v :
  getitem_step O alg prog W rec tb k ix s = (Ok v, s') ->
  st_lookup s' (tb, k, ix) = Some (Done v).
Proof.
  unfold getitem_step. intros E.
  destruct (wf_index W ix); cbn [negb] in E; [|discriminate].
  destruct (st_lookup s (tb, k, ix)) as [[|v0]|] eqn:Lk.
  - discriminate.
  - inversion E; subst. exact Lk.
  - destruct (eval_of O alg prog W rec tb k ix (st_store s (tb, k, ix) Pending)) as [[a|e|] s2]; inversion E; subst.
    rewrite st_lookup_store. now destruct (ckey_eqb_spec (tb, k, ix) (tb, k, ix)).
Qed.

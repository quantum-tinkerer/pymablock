(** DSL/Laws.v - the laws of the coefficient structure used by the soundness proofs, the algebra
    of finite sums, and small facts about the definitions of DSL/Syntax.v and DSL/Interp.v that
    several proof files share (name resolution, partial values, lazily evaluated terms). *)
From Coq Require Import String List ZArith Bool Arith Morphisms Permutation.
From PV.DSL Require Import Syntax Values Interp.
Import ListNotations.
Set Implicit Arguments.

(** name resolution *)
Lemma find_sdef_spec x l d : find_sdef x l = Some d -> sname d = x /\ In d l.
Proof.
  induction l as [|d' r IH]; cbn; [discriminate|].
  destruct (String.eqb (sname d') x) eqn:E.
  - intros [= ->]. split; [now apply String.eqb_eq | now left].
  - intros H. destruct (IH H). split; [auto | now right].
Qed.

Lemma find_pdef_spec x l p : find_pdef x l = Some p -> pname p = x /\ In p l.
Proof.
  induction l as [|d' r IH]; cbn; [discriminate|].
  destruct (String.eqb (pname d') x) eqn:E.
  - intros [= ->]. split; [now apply String.eqb_eq | now left].
  - intros H. destruct (IH H). split; [auto | now right].
Qed.

(** [kind_of] in terms of the two dictionaries *)
Lemma kind_of_spec alg inputs x :
  match kind_of alg inputs x with
  | KProduct p => find_pdef x (aproducts alg) = Some p
  | KSeries d => find_pdef x (aproducts alg) = None /\ find_sdef x (aseries alg) = Some d
  | KInput => find_pdef x (aproducts alg) = None /\ find_sdef x (aseries alg) = None /\ mem_string x inputs = true
  | KUnknown => find_pdef x (aproducts alg) = None /\ find_sdef x (aseries alg) = None /\ mem_string x inputs = false
  end.
Proof.
  unfold kind_of. destruct (find_pdef x (aproducts alg)); [reflexivity|].
  destruct (find_sdef x (aseries alg)); [auto|]. destruct (mem_string x inputs); auto.
Qed.

(** [o2] is at least as defined as [o1], with related values *)
Definition orel {A} (R : A -> A -> Prop) (o1 o2 : option A) : Prop :=
  forall a, o1 = Some a -> exists b, o2 = Some b /\ R b a.

Section ORel.
  Variables (A B : Type) (R : A -> A -> Prop) (R' : B -> B -> Prop).

  Lemma orel_some a b : R b a -> orel R (Some a) (Some b).
  Proof. intros H a' [= <-]. eauto. Qed.

  Lemma orel_map (f g : A -> B) o1 o2 :
    (forall a b, R b a -> R' (g b) (f a)) -> orel R o1 o2 -> orel R' (option_map f o1) (option_map g o2).
  Proof.
    intros Hf H w E. destruct o1 as [a|]; [|discriminate]. injection E as <-.
    destruct (H a eq_refl) as (b & -> & Hb). exists (g b). split; [reflexivity | now apply Hf].
  Qed.

  Lemma orel_bind (f g : A -> option B) o1 o2 :
    orel R o1 o2 -> (forall a b, R b a -> orel R' (f a) (g b)) -> orel R' (obind o1 f) (obind o2 g).
  Proof.
    intros H Hf w E. destruct o1 as [a|]; [|discriminate].
    destruct (H a eq_refl) as (b & -> & Hb). exact (Hf a b Hb w E).
  Qed.
End ORel.

Lemma orel_Some_r {A} (R : A -> A -> Prop) (o : option A) b :
  orel R o (Some b) <-> forall a, o = Some a -> R b a.
Proof.
  split; intros H a E; [|exists b; split; auto].
  destruct (H a E) as (b' & [= <-] & Hb). exact Hb.
Qed.

(** all of a list of optional values *)
Fixpoint olist {A} (l : list (option A)) : option (list A) :=
  match l with
  | [] => Some []
  | o :: r => obind o (fun x => obind (olist r) (fun xs => Some (x :: xs)))
  end.

Lemma olist_some {A B} (f : A -> B) l : olist (map (fun a => Some (f a)) l) = Some (map f l).
Proof. induction l as [|a l IH]; cbn; [reflexivity | now rewrite IH]. Qed.

Lemma olist_app {A} (l1 l2 : list (option A)) :
  olist (l1 ++ l2) = obind (olist l1) (fun x1 => obind (olist l2) (fun x2 => Some (x1 ++ x2))).
Proof.
  induction l1 as [|o l1 IH]; cbn [app olist obind]; [now destruct (olist l2)|].
  destruct o as [x|]; cbn [obind]; [|reflexivity]. rewrite IH.
  destruct (olist l1); cbn [obind]; [|reflexivity]. now destruct (olist l2).
Qed.

Lemma orel_olist {X Y A} (R : A -> A -> Prop) (f : X -> option A) (g : Y -> option A) l l' :
  Forall2 (fun a b => orel R (f a) (g b)) l l' -> orel (Forall2 R) (olist (map f l)) (olist (map g l')).
Proof.
  induction 1 as [|a b l l' Hab Hl IH]; cbn [map olist]; [apply orel_some; constructor|].
  apply orel_bind with (R := R); [exact Hab|]. intros x x' Hx.
  apply orel_bind with (R := Forall2 R); [exact IH|]. intros xs xs' Hxs. apply orel_some. now constructor.
Qed.

Lemma Forall2_nth {A B} (R : A -> B -> Prop) l1 l2 i a b :
  Forall2 R l1 l2 -> nth_error l1 i = Some a -> nth_error l2 i = Some b -> R a b.
Proof.
  intros F. revert i. induction F; intros [|i]; cbn; try discriminate.
  - intros E1 E2. inversion E1; inversion E2; subst. auto.
  - apply IHF.
Qed.

Lemma Forall2_imp {A B} (P Q : A -> B -> Prop) l l' :
  (forall a b, P a b -> Q a b) -> Forall2 P l l' -> Forall2 Q l l'.
Proof. intros H. induction 1; constructor; auto. Qed.

(** values [d v] computed for the elements of [l] that agree with the optional values [f a] *)
Lemma orel_olist_vals {X Y A} (R : A -> A -> Prop) (f : X -> option A) (d : Y -> A) l vs :
  Forall2 (fun a v => forall w, f a = Some w -> R (d v) w) l vs ->
  forall ws, olist (map f l) = Some ws -> Forall2 R (map d vs) ws.
Proof.
  intros H. apply orel_Some_r. rewrite <- olist_some. apply orel_olist.
  eapply Forall2_imp; [|exact H]. intros a v Hv. now apply orel_Some_r.
Qed.

Lemma Forall2_Forall_r {A B} (P : B -> Prop) (l : list A) l' : Forall2 (fun _ b => P b) l l' -> Forall P l'.
Proof. induction 1; constructor; auto. Qed.

Section Laws.
  Variable V : Type.
  Variable O : vops V.
  Variable eqv : V -> V -> Prop.

  Record vlaws : Prop := {
    l_equiv : Equivalence eqv;
    l_add_proper : Proper (eqv ==> eqv ==> eqv) (vadd O);
    l_neg_proper : Proper (eqv ==> eqv) (vneg O);
    l_mul_proper : Proper (eqv ==> eqv ==> eqv) (vmul O);
    l_adj_proper : Proper (eqv ==> eqv) (vadj O);
    l_div_proper : forall k, Proper (eqv ==> eqv) (fun x => vdiv O x k);
    l_add_assoc : forall a b c, eqv (vadd O (vadd O a b) c) (vadd O a (vadd O b c));
    l_add_comm : forall a b, eqv (vadd O a b) (vadd O b a);
    l_add_0_l : forall a, eqv (vadd O (v0 O) a) a;
    l_neg_0 : eqv (vneg O (v0 O)) (v0 O);
    l_neg_add : forall a b, eqv (vneg O (vadd O a b)) (vadd O (vneg O a) (vneg O b));
    l_neg_neg : forall a, eqv (vneg O (vneg O a)) a;
    l_mul_0_l : forall a, eqv (vmul O (v0 O) a) (v0 O);
    l_mul_0_r : forall a, eqv (vmul O a (v0 O)) (v0 O);
    l_mul_1_l : forall a, eqv (vmul O (v1 O) a) a;
    l_mul_1_r : forall a, eqv (vmul O a (v1 O)) a;
    l_adj_0 : eqv (vadj O (v0 O)) (v0 O);
    l_adj_add : forall a b, eqv (vadj O (vadd O a b)) (vadd O (vadj O a) (vadj O b));
    l_adj_mul : forall a b, eqv (vadj O (vmul O a b)) (vmul O (vadj O b) (vadj O a));
    l_adj_adj : forall a, eqv (vadj O (vadj O a)) a;
    l_adj_neg : forall a, eqv (vadj O (vneg O a)) (vneg O (vadj O a));
    l_adj_div : forall a k, eqv (vadj O (vdiv O a k)) (vdiv O (vadj O a) k);
    l_div_0 : forall k, eqv (vdiv O (v0 O) k) (v0 O);
    l_is0 : forall a, vis0 O a = true -> eqv a (v0 O)
  }.
End Laws.
Existing Class vlaws.

Section Sums.
  Variable V : Type.
  Variable O : vops V.
  Variable eqv : V -> V -> Prop.
  Variable L : vlaws O eqv.

  Local Infix "==" := eqv (at level 70, no associativity).
  Local Notation "a + b" := (vadd O a b).
  Local Notation "0" := (v0 O).

  Global Instance vl_equiv : Equivalence eqv := l_equiv L.
  Global Instance vl_add : Proper (eqv ==> eqv ==> eqv) (vadd O) := l_add_proper L.
  Global Instance vl_neg : Proper (eqv ==> eqv) (vneg O) := l_neg_proper L.
  Global Instance vl_mul : Proper (eqv ==> eqv ==> eqv) (vmul O) := l_mul_proper L.
  Global Instance vl_adj : Proper (eqv ==> eqv) (vadj O) := l_adj_proper L.

  Lemma orel_refl (o : option V) : orel eqv o o.
  Proof. intros a E. exists a. split; [exact E | reflexivity]. Qed.

  Lemma add_0_r a : a + 0 == a.
  Proof. rewrite (l_add_comm L). apply (l_add_0_l L). Qed.

  Definition vsum_from (a : V) (l : list V) : V := fold_left (vadd O) l a.
  Definition vsum (l : list V) : V := vsum_from 0 l.

  Lemma vsum_from_proper a a' l : a == a' -> vsum_from a l == vsum_from a' l.
  Proof.
    revert a a'. induction l as [|x l IH]; cbn; intros a a' E; auto.
    apply IH. now rewrite E.
  Qed.

  Lemma vsum_from_add a l : vsum_from a l == a + vsum l.
  Proof.
    revert a. induction l as [|x l IH]; intros a.
    - unfold vsum, vsum_from; cbn. symmetry. apply add_0_r.
    - change (vsum_from a (x :: l)) with (vsum_from (a + x) l).
      change (vsum (x :: l)) with (vsum_from (0 + x) l).
      rewrite IH, (IH (0 + x)), (l_add_0_l L). apply (l_add_assoc L).
  Qed.

  Lemma vsum_cons x l : vsum (x :: l) == x + vsum l.
  Proof.
    change (vsum (x :: l)) with (vsum_from (0 + x) l).
    rewrite vsum_from_add. now rewrite (l_add_0_l L).
  Qed.

  Lemma vsum_nil : vsum [] == 0.
  Proof. reflexivity. Qed.

  Lemma vsum_app l1 l2 : vsum (l1 ++ l2) == vsum l1 + vsum l2.
  Proof.
    induction l1 as [|x l1 IH]; cbn [app].
    - rewrite vsum_nil. symmetry. apply (l_add_0_l L).
    - rewrite !vsum_cons, IH. symmetry. apply (l_add_assoc L).
  Qed.

  Lemma vsum_proper l l' : Forall2 eqv l l' -> vsum l == vsum l'.
  Proof.
    induction 1 as [|x y l l' E F IH].
    - reflexivity.
    - rewrite !vsum_cons. now rewrite E, IH.
  Qed.

  Lemma vsum_neg l l' : Forall2 (fun a b => b == vneg O a) l l' -> vsum l' == vneg O (vsum l).
  Proof.
    induction 1 as [|x y l l' E F IH].
    - rewrite vsum_nil. symmetry. apply (l_neg_0 L).
    - rewrite !vsum_cons, (l_neg_add L), E, IH. reflexivity.
  Qed.

  Lemma vsum_perm l l' : Permutation l l' -> vsum l == vsum l'.
  Proof.
    induction 1 as [|x l l' P IH|x y l|l l' l'' P1 IH1 P2 IH2].
    - reflexivity.
    - rewrite !vsum_cons. now rewrite IH.
    - rewrite !vsum_cons. rewrite <- !(l_add_assoc L). now rewrite (l_add_comm L y x).
    - now rewrite IH1.
  Qed.

  Lemma vsum_ext {A} (f g : A -> V) l : (forall x, In x l -> f x == g x) -> vsum (map f l) == vsum (map g l).
  Proof.
    induction l as [|x l IH]; intros H; cbn [map]; [reflexivity|].
    rewrite !vsum_cons. rewrite (H x (or_introl eq_refl)), IH; [reflexivity|]. intros y Hy. apply H. now right.
  Qed.

  Lemma vsum_add {A} (f g : A -> V) l : vsum (map (fun x => f x + g x) l) == vsum (map f l) + vsum (map g l).
  Proof.
    induction l as [|x l IH]; cbn [map].
    - rewrite vsum_nil. symmetry. apply (l_add_0_l L).
    - rewrite !vsum_cons, IH. rewrite !(l_add_assoc L). apply (l_add_proper L); [reflexivity|].
      rewrite <- !(l_add_assoc L). now rewrite (l_add_comm L (g x)).
  Qed.

  Lemma vsum_adj {A} (f : A -> V) l : vadj O (vsum (map f l)) == vsum (map (fun x => vadj O (f x)) l).
  Proof.
    induction l as [|x l IH]; cbn [map].
    - rewrite vsum_nil. apply (l_adj_0 L).
    - rewrite !vsum_cons, (l_adj_add L), IH. reflexivity.
  Qed.

  Lemma vsum_flat_map {A B} (f : B -> V) (F : A -> list B) l :
    vsum (map f (flat_map F l)) == vsum (map (fun a => vsum (map f (F a))) l).
  Proof.
    induction l as [|a l IH]; cbn [flat_map map]; [reflexivity|].
    rewrite map_app, vsum_app, vsum_cons, IH. reflexivity.
  Qed.

  (** the sentinel arithmetic denotes the arithmetic of values *)
  Lemma den_sadd x y z : sadd O x y = Ok z -> den O z == den O x + den O y.
  Proof.
    destruct x, y; cbn; intros E; inversion E; subst; cbn;
      try (symmetry; apply (l_add_0_l L)); reflexivity.
  Qed.

  Lemma den_sneg x z : sneg O x = Ok z -> den O z == vneg O (den O x).
  Proof.
    destruct x; cbn; intros E; inversion E; subst; cbn; [symmetry; apply (l_neg_0 L) | reflexivity].
  Qed.

  Lemma den_sdagger x z : sdagger O x = Ok z -> den O z == vadj O (den O x).
  Proof.
    destruct x; cbn; intros E; inversion E; subst; cbn; [symmetry; apply (l_adj_0 L) | reflexivity].
  Qed.

  Lemma den_sdivide x k z : sdivide O x k = Ok z -> den O z == vdiv O (den O x) k.
  Proof.
    destruct x; cbn; intros E; inversion E; subst; cbn; [symmetry; apply (l_div_0 L) | reflexivity].
  Qed.

  Lemma den_ssum_from acc l z :
    ssum_from O acc l = Ok z -> den O z == vsum_from (den O acc) (map (den O) l).
  Proof.
    revert acc. induction l as [|t l IH]; cbn; intros acc E.
    - inversion E; subst. reflexivity.
    - destruct (is_zero t) eqn:Z.
      + destruct t; try discriminate. cbn.
        rewrite (IH _ E). apply vsum_from_proper. symmetry. apply add_0_r.
      + destruct (sadd O acc t) as [a| |] eqn:A; try discriminate.
        rewrite (IH _ E). apply vsum_from_proper. now apply den_sadd.
  Qed.

  Lemma den_szero_sum l z : szero_sum O l = Ok z -> den O z == vsum (map (den O) l).
  Proof. intros E. apply den_ssum_from in E. exact E. Qed.
End Sums.

(** what a lazily evaluated term of a Cauchy product (DSL/Interp.v, [lazy_term]) contributes *)
Section Lazy.
  Variable V : Type.
  Variable O : vops V.
  Variable eqv : V -> V -> Prop.
  Variable L : vlaws O eqv.

  Local Infix "==" := eqv (at level 70, no associativity).
  Local Notation "a * b" := (vmul O a b).
  Local Notation vz := (v0 O).

  Definition contrib (r : option V) : V := match r with None => vz | Some t => t end.

  Lemma lazy_char c (oa ob : option V) r :
    lazy_term O c (fun _ => oa) (fun _ => ob) = Some r ->
    match oa, ob with
    | Some a, Some b => contrib r == a * b
    | Some a, None => a == vz /\ contrib r == vz
    | None, Some b => b == vz /\ contrib r == vz
    | None, None => False
    end.
  Proof.
    unfold lazy_term. destruct c.
    - destruct oa as [a|]; [destruct (vis0 O a) eqn:Z|].
      + intros E. inversion E; subst. apply (l_is0 L) in Z.
        destruct ob; cbn; [rewrite Z; symmetry; apply (l_mul_0_l L) | split; [auto|reflexivity]].
      + destruct ob; intros E; inversion E; subst. cbn. reflexivity.
      + destruct ob as [b|]; [|discriminate]. destruct (vis0 O b) eqn:Z; [|discriminate].
        intros E. inversion E; subst. apply (l_is0 L) in Z. split; [auto | reflexivity].
    - destruct ob as [b|]; [destruct (vis0 O b) eqn:Z|].
      + intros E. inversion E; subst. apply (l_is0 L) in Z.
        destruct oa; cbn; [rewrite Z; symmetry; apply (l_mul_0_r L) | split; [auto|reflexivity]].
      + destruct oa; intros E; inversion E; subst. cbn. reflexivity.
      + destruct oa as [a|]; [|discriminate]. destruct (vis0 O a) eqn:Z; [|discriminate].
        intros E. inversion E; subst. apply (l_is0 L) in Z. split; [auto | reflexivity].
  Qed.
End Lazy.

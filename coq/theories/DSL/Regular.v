(** DSL/Regular.v - the decidable fragment [regular] of the mini-language on which the MODEL
    (Compile/Exec) is claimed to be faithful to the code.  The soundness theorem itself
    (DSL/Main.v) holds for every program; [regular] excludes programs for which
    algorithm_parsing.py does something the model does not reproduce:

    - duplicated series or product names (a later `with` overwrites the dictionary entry but
      the delete table is keyed by name);
    - a series, input or factor name containing "@" that is not a declared product, products
      with fewer than two factors (cauchy_dot_product raises at definition time), factors
      that are neither defined series nor inputs (KeyError at definition time);
    - references to names that are neither defined, nor products, nor inputs (KeyError);
    - an input with the name of a defined series (the definition overwrites the input);
    - start strings "zero" / "identity" (they pick zero_data / identity_data by accident);
    - scope-function names that collide with the names used by the generated code. *)
From Coq Require Import String List ZArith Bool Arith.
From PV.DSL Require Import Syntax Compile.
Import ListNotations.
Open Scope string_scope.
Open Scope list_scope.

Fixpoint nodup_str (l : list string) : bool :=
  match l with
  | [] => true
  | x :: r => negb (mem_str x r) && nodup_str r
  end.

Definition reserved : list string :=
  ["_zero_sum"; "_safe_divide"; "Dagger"; "del_"; "zero"; "which"; "series"; "linear_operator_series";
   "use_linear_operator"; "result"; "index"; "series_eval"].

Fixpoint call_names (e : expr) : list string :=
  match e with
  | Lit _ | Adj _ | EZero => []
  | Neg a | DivInt a _ => call_names a
  | Add a b | Sub a b | IfFlag _ a b => call_names a ++ call_names b
  | Call f args =>
      f :: (fix go (l : list arg) : list string :=
              match l with
              | [] => []
              | ArgSeries _ :: r => go r
              | ArgExpr a :: r => call_names a ++ go r
              end) args
  end.

Definition line_calls (l : line) : list string :=
  match l with Line _ e => call_names e | Marker _ => [] end.

Definition start_ok (s : start) : bool :=
  match s with
  | StartOther n => negb (String.eqb n "zero") && negb (String.eqb n "identity")
  | _ => true
  end.

Definition regular (alg : algorithm) (inputs : list string) : bool :=
  let names := map sname (aseries alg) in
  let pnames := map pname (aproducts alg) in
  let known := fun s => mem_str s names || mem_str s pnames || mem_str s inputs in
  nodup_str names && nodup_str pnames && nodup_str inputs
  && forallb (fun s => negb (has_at s)) (names ++ inputs)
  && forallb (fun x => negb (mem_str x names)) inputs
  && forallb (fun p => Nat.leb 2 (length (pfactors p))
                       && forallb (fun f => (mem_str f names || mem_str f inputs)) (pfactors p)) (aproducts alg)
  && forallb (fun d => start_ok (sstart d)
                       && forallb (fun u => known (fst (fst u))) (series_uses d)
                       && forallb (fun l => forallb (fun f => negb (mem_str f reserved)) (line_calls l)) (sbody d))
             (aseries alg)
  && forallb known (aoutputs alg).

Lemma regular_inputs_plain alg inputs :
  regular alg inputs = true -> forall x, In x inputs -> has_at x = false.
Proof.
  unfold regular. intros H x Hx.
  (* the conjunct on "@" is the fourth of eight *)
  do 4 (apply andb_true_iff in H; destruct H as [H _]). apply andb_true_iff in H. destruct H as [_ H].
  rewrite forallb_forall in H. apply negb_true_iff, (H x), in_or_app. now right.
Qed.

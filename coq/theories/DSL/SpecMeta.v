(** DSL/SpecMeta.v - the specification [interp] is a well-behaved partial function: more fuel
    never loses a value and never changes it (up to the equality of the coefficient
    structure), hence the values obtained with any two fuels agree.

    Needs the zero test [vis0] to respect the equality (it is sound by [l_is0]; here it is
    also assumed complete) and the scope functions to respect it. *)
From Coq Require Import String List ZArith Bool Arith.
From PV.DSL Require Import Syntax SyntaxAux Values Interp Laws.
Import ListNotations.
Set Implicit Arguments.

Section Meta.
  Variable V : Type.
  Variable O : vops V.
  Variable eqv : V -> V -> Prop.
  Variable L : vlaws O eqv.
  Variable alg : algorithm.
  Variable W : sworld V.

  Local Infix "==" := eqv (at level 70, no associativity).

  Hypothesis fn_proper : forall f l l' ix, Forall2 eqv l l' -> sw_fn W f l ix == sw_fn W f l' ix.
  Hypothesis vis0_complete : forall a, a == v0 O -> vis0 O a = true.

  Lemma vis0_proper a b : a == b -> vis0 O a = vis0 O b.
  Proof.
    intros E.
    destruct (vis0 O a) eqn:A, (vis0 O b) eqn:B; auto.
    - apply (l_is0 L) in A. rewrite <- B. symmetry. apply vis0_complete. now rewrite <- E.
    - apply (l_is0 L) in B. rewrite <- A. apply vis0_complete. now rewrite E.
  Qed.


  Definition sle (s1 s2 : key -> index -> option V) : Prop :=
    forall k ix, orel eqv (s1 k ix) (s2 k ix).

  Section Step.
    Variables s1 s2 : key -> index -> option V.
    Hypothesis Hs : sle s1 s2.
    Variable idx : index.

    Lemma iseries_arg_mono f s : orel eqv (iseries_arg O W s1 idx f s) (iseries_arg O W s2 idx f s).
    Proof. unfold iseries_arg. destruct (sw_access W f idx); [apply Hs | apply (orel_refl L)]. Qed.

    Lemma iexpr_mono e : orel eqv (iexpr O W s1 idx e) (iexpr O W s2 idx e).
    Proof.
      induction e using expr_ind'; cbn [iexpr].
      - apply Hs.
      - apply orel_map with (R := eqv); [intros a b E; now rewrite E | apply Hs].
      - apply (orel_refl L).
      - apply orel_map with (R := eqv); [intros a b E; now rewrite E | exact IHe].
      - apply orel_bind with (R := eqv); [exact IHe1|]. intros x x' Hx.
        apply orel_bind with (R := eqv); [exact IHe2|]. intros y y' Hy. apply orel_some. now rewrite Hx, Hy.
      - apply orel_bind with (R := eqv); [exact IHe1|]. intros x x' Hx.
        apply orel_bind with (R := eqv); [exact IHe2|]. intros y y' Hy. apply orel_some. now rewrite Hx, Hy.
      - apply orel_map with (R := eqv); [intros a b E; now apply (l_div_proper L k) | exact IHe].
      - apply orel_map with (R := Forall2 eqv); [intros vs vs' E; now apply fn_proper|].
        induction H as [|a r Ha Hr IH]; [apply orel_some; constructor|].
        apply orel_bind with (R := eqv).
        + destruct (arg_series a) as [s|]; [apply iseries_arg_mono|].
          destruct a as [s|e']; [apply iseries_arg_mono | exact Ha].
        + intros x x' Hx. apply orel_bind with (R := Forall2 eqv); [exact IH|].
          intros xs xs' Hxs. apply orel_some. now constructor.
      - destruct (flag_value W c idx); auto.
    Qed.

    Lemma iwrapped_mono f e : orel eqv (iwrapped O W s1 idx f e) (iwrapped O W s2 idx f e).
    Proof.
      apply orel_map with (R := eqv); [intros a b E; apply fn_proper; now constructor|].
      destruct e; try apply iexpr_mono. apply iseries_arg_mono.
    Qed.

    Lemma ibody_mono name lines :
      forall acc acc', acc' == acc -> orel eqv (ibody O W s1 idx name lines acc) (ibody O W s2 idx name lines acc').
    Proof.
      induction lines as [|l r IH]; intros acc acc' Ha; cbn [ibody].
      { now apply orel_some. }
      assert (STEP : forall o1 o2, orel eqv o1 o2 ->
                orel eqv (obind o1 (fun x => ibody O W s1 idx name r (vadd O acc x)))
                        (obind o2 (fun x => ibody O W s2 idx name r (vadd O acc' x)))).
      { intros o1 o2 Ho. apply orel_bind with (R := eqv); [exact Ho|]. intros x x' Hx. apply IH. now rewrite Ha, Hx. }
      destruct l as [[| |] e|h].
      - apply STEP, iexpr_mono.
      - destruct (Nat.eqb (idx_i idx) (idx_j idx)); [apply STEP, iwrapped_mono | now apply IH].
      - destruct (negb (Nat.eqb (idx_i idx) (idx_j idx))); [apply STEP, iexpr_mono|].
        destruct (sw_hasoff W); [apply STEP, iwrapped_mono | now apply IH].
      - destruct (Nat.ltb (idx_j idx) (idx_i idx)); [|now apply IH].
        apply orel_map with (R := eqv); [|apply Hs]. intros a a' Hx. destruct h; now rewrite Ha, Hx.
    Qed.

    (** a lazily evaluated term stays defined, with an equal contribution, when its factors
        become more defined *)
    Lemma lazy_mono c (oa ob oa' ob' : option V) r :
      orel eqv oa oa' -> orel eqv ob ob' ->
      lazy_term O c (fun _ => oa) (fun _ => ob) = Some r ->
      exists r', lazy_term O c (fun _ => oa') (fun _ => ob') = Some r' /\ contrib O r' == contrib O r.
    Proof.
      intros Ha Hb E. unfold lazy_term in *.
      assert (Z0 : forall x, vis0 O x = true -> x == v0 O) by apply (l_is0 L).
      destruct c.
      - destruct oa as [a|].
        + destruct (Ha _ eq_refl) as (a' & -> & Haa). rewrite (vis0_proper Haa).
          destruct (vis0 O a) eqn:Za.
          * inversion E; subst. exists None. split; auto. reflexivity.
          * destruct ob as [b|]; [|discriminate]. inversion E; subst.
            destruct (Hb _ eq_refl) as (b' & -> & Hbb). eexists. split; [reflexivity|]. cbn. now rewrite Haa, Hbb.
        + destruct ob as [b|]; [|discriminate]. destruct (vis0 O b) eqn:Zb; [|discriminate].
          inversion E; subst. destruct (Hb _ eq_refl) as (b' & -> & Hbb).
          destruct oa' as [a'|].
          * destruct (vis0 O a') eqn:Za'; [exists None; split; auto; reflexivity|].
            eexists. split; [reflexivity|]. cbn. rewrite Hbb, (Z0 _ Zb). apply (l_mul_0_r L).
          * rewrite (vis0_proper Hbb), Zb. exists None. split; auto. reflexivity.
      - destruct ob as [b|].
        + destruct (Hb _ eq_refl) as (b' & -> & Hbb). rewrite (vis0_proper Hbb).
          destruct (vis0 O b) eqn:Zb.
          * inversion E; subst. exists None. split; auto. reflexivity.
          * destruct oa as [a|]; [|discriminate]. inversion E; subst.
            destruct (Ha _ eq_refl) as (a' & -> & Haa). eexists. split; [reflexivity|]. cbn. now rewrite Haa, Hbb.
        + destruct oa as [a|]; [|discriminate]. destruct (vis0 O a) eqn:Za; [|discriminate].
          inversion E; subst. destruct (Ha _ eq_refl) as (a' & -> & Haa).
          destruct ob' as [b'|].
          * destruct (vis0 O b') eqn:Zb'; [exists None; split; auto; reflexivity|].
            eexists. split; [reflexivity|]. cbn. rewrite Haa, (Z0 _ Za). apply (l_mul_0_l L).
          * rewrite (vis0_proper Haa), Za. exists None. split; auto. reflexivity.
    Qed.

    Lemma iprod_loop_mono half k1 k2 l :
      forall acc acc', acc' == acc ->
        forall w, iprod_loop O s1 idx half k1 k2 l acc = Some w ->
                  exists w', iprod_loop O s2 idx half k1 k2 l acc' = Some w' /\ w' == w.
    Proof.
      induction l as [|[mid m1] r IH]; intros acc acc' Ha w E; cbn [iprod_loop] in *.
      - inversion E; subst. eauto.
      - destruct (half && lex_gt m1 (lsub (idx_n idx) m1)); [eauto|].
        match type of E with match lazy_term O ?c (fun _ => ?oa) (fun _ => ?ob) with _ => _ end = _ =>
          destruct (lazy_term O c (fun _ => oa) (fun _ => ob)) as [r1|] eqn:E1; [|discriminate];
          destruct (@lazy_mono c oa ob (s2 k1 (idx_i idx, mid, m1)) (s2 k2 (mid, idx_j idx, lsub (idx_n idx) m1)) r1
                      (@Hs _ _) (@Hs _ _) E1) as (r2 & E2 & Hr) end.
        rewrite E2. destruct r1 as [t1|], r2 as [t2|]; cbn [contrib] in Hr.
        + destruct (half && negb (lnat_eqb m1 (lsub (idx_n idx) m1))); (eapply IH; [|exact E]); now rewrite Ha, Hr.
        + (* newly a product which is zero *)
          assert (Z : t1 == v0 O) by (now rewrite <- Hr).
          destruct (half && negb (lnat_eqb m1 (lsub (idx_n idx) m1))); (eapply IH; [|exact E]);
            rewrite Ha, Z, ?(l_adj_0 L), ?(add_0_r L); reflexivity.
        + assert (Z : t2 == v0 O) by exact Hr.
          destruct (half && negb (lnat_eqb m1 (lsub (idx_n idx) m1))); (eapply IH; [|exact E]);
            rewrite Ha, Z, ?(l_adj_0 L), ?(add_0_r L); reflexivity.
        + eapply IH; [|exact E]. exact Ha.
    Qed.
  End Step.

  Lemma rhs_mono s1 s2 idx k : sle s1 s2 -> orel eqv (rhs O alg W s1 idx k) (rhs O alg W s2 idx k).
  Proof.
    intros Hs w E. unfold rhs in *. destruct k as [s|pn k'].
    - destruct (kind_of alg (sw_inputs W) s) as [|d|p|]; try discriminate.
      + exists w. split; auto. reflexivity.
      + destruct (spec_start O W d idx); [exists w; split; auto; reflexivity|].
        eapply ibody_mono; eauto. reflexivity.
      + destruct (Nat.leb 2 (length (pfactors p))); [|discriminate].
        unfold iprod, iprod_gen in *. eapply iprod_loop_mono; eauto. reflexivity.
    - destruct (find_pdef pn (aproducts alg)); [|discriminate].
      destruct (Nat.leb 2 k' && Nat.ltb k' (length (pfactors p))); [|discriminate].
      unfold iprod, iprod_gen in *. eapply iprod_loop_mono; eauto. reflexivity.
  Qed.

  Notation spec := (interp O alg W).

  Lemma interp_step f : sle (spec f) (spec (S f)).
  Proof.
    induction f as [|f IH]; intros k ix w E.
    - discriminate.
    - cbn [interp] in *. eapply rhs_mono; eauto.
  Qed.

  (** more fuel: still defined, same value *)
  Theorem interp_mono f f' k ix w :
    f <= f' -> spec f k ix = Some w -> exists w', spec f' k ix = Some w' /\ w' == w.
  Proof.
    induction 1 as [|f' Hle IH]; intros E.
    - exists w. split; auto. reflexivity.
    - destruct (IH E) as (w1 & E1 & H1). destruct (@interp_step f' k ix w1 E1) as (w2 & E2 & H2).
      exists w2. split; auto. now rewrite H2.
  Qed.

  (** the values obtained with two fuels agree *)
  Theorem interp_coh f f' k ix w w' :
    spec f k ix = Some w -> spec f' k ix = Some w' -> w == w'.
  Proof.
    intros E E'. destruct (Nat.le_ge_cases f f') as [H|H].
    - destruct (@interp_mono f f' k ix w H E) as (w1 & E1 & H1). rewrite E' in E1. inversion E1; subst. now symmetry.
    - destruct (@interp_mono f' f k ix w' H E') as (w1 & E1 & H1). rewrite E in E1. inversion E1; subst. exact H1.
  Qed.
End Meta.

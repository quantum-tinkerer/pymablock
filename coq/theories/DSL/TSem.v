(** DSL/TSem.v - the mathematical meaning of generated code (target expressions), without
    caches or sentinels, and the proof that [cexpr] (the composition of the four expression
    transformers of algorithm_parsing.py) preserves the meaning of source expressions:
    flattening of sums, negation of subtracted arguments with cancellation of double
    negation, [_safe_divide], series arguments, un-transposed adjoints on diagonal lines. *)
From Coq Require Import String List ZArith Bool Arith.
From PV.DSL Require Import Syntax SyntaxAux Values Target Compile Interp Laws.
Import ListNotations.
Set Implicit Arguments.

Section TSem.
  Variable V : Type.
  Variable O : vops V.
  Variable eqv : V -> V -> Prop.
  Variable L : vlaws O eqv.
  Variable W : sworld V.
  Variable sub : key -> index -> option V.
  Variable idx : index.

  Local Infix "==" := eqv (at level 70, no associativity).

  Fixpoint tden (racc : V) (t : texpr) : option V :=
    match t with
    | TResult => Some racc
    | TZero => Some (v0 O)
    | TGet s tr => sub (KN s) (if tr then transp idx else idx)
    | TDagger a => option_map (vadj O) (tden racc a)
    | TNeg a => option_map (vneg O) (tden racc a)
    | TZeroSum l => option_map (vsum O) (olist (map (tden racc) l))
    | TSafeDiv a k => option_map (fun x => vdiv O x k) (tden racc a)
    | TCall f args =>
        option_map (fun vs => sw_fn W f vs idx)
          (olist (map (fun a => match a with
                                | TASeries s => iseries_arg O W sub idx f s
                                | TAExpr e => tden racc e
                                end) args))
    | TIfExp c a b => if flag_value W c idx then tden racc a else tden racc b
    end.

  Definition tden_list (racc : V) (l : list texpr) : option (list V) := olist (map (tden racc) l).

  Definition tden_arg (racc : V) (f : string) (a : targ) : option V :=
    match a with
    | TASeries s => iseries_arg O W sub idx f s
    | TAExpr e => tden racc e
    end.

  Definition tden_args (racc : V) (f : string) (l : list targ) : option (list V) :=
    olist (map (tden_arg racc f) l).

  Lemma tden_zsum racc l : tden racc (TZeroSum l) = option_map (vsum O) (tden_list racc l).
  Proof. reflexivity. Qed.

  Lemma tden_call racc f args :
    tden racc (TCall f args) = option_map (fun vs => sw_fn W f vs idx) (tden_args racc f args).
  Proof. reflexivity. Qed.

  Lemma tden_list_app racc l1 l2 ws1 ws2 :
    tden_list racc l1 = Some ws1 -> tden_list racc l2 = Some ws2 ->
    tden_list racc (l1 ++ l2) = Some (ws1 ++ ws2).
  Proof. unfold tden_list. intros E1 E2. now rewrite map_app, olist_app, E1, E2. Qed.

  Lemma flat_sound racc t w :
    tden racc t = Some w -> exists ws, tden_list racc (flat t) = Some ws /\ vsum O ws == w.
  Proof.
    intros E.
    assert (G : flat t = [t] -> exists ws, tden_list racc (flat t) = Some ws /\ vsum O ws == w).
    { intros F. rewrite F. exists [w]. cbn [tden_list map olist]. rewrite E. cbn [obind]. split; [reflexivity|].
      rewrite (vsum_cons L), (vsum_nil L). apply (add_0_r L). }
    destruct t; try (apply G; reflexivity).
    rewrite tden_zsum in E. cbn [flat].
    destruct (tden_list racc l) as [ws|]; cbn in E; [|discriminate].
    inversion E; subst. exists ws. split; auto. reflexivity.
  Qed.

  Lemma negate_sound racc t w :
    tden racc t = Some w -> exists w', tden racc (negate t) = Some w' /\ w' == vneg O w.
  Proof.
    intros E.
    assert (G : negate t = TNeg t -> exists w', tden racc (negate t) = Some w' /\ w' == vneg O w).
    { intros F. rewrite F. exists (vneg O w). cbn [tden]. rewrite E. cbn. split; reflexivity. }
    destruct t; try (apply G; reflexivity).
    cbn [negate]. cbn [tden] in E.
    destruct (tden racc t) as [y|]; cbn in E; [|discriminate]. inversion E; subst.
    exists y. split; auto. symmetry. apply (l_neg_neg L).
  Qed.

  Lemma negate_list_sound racc l ws :
    tden_list racc l = Some ws ->
    exists ws', tden_list racc (map negate l) = Some ws' /\ Forall2 (fun a b => b == vneg O a) ws ws'.
  Proof.
    unfold tden_list. revert ws. induction l as [|a r IH]; cbn [map olist]; intros ws E.
    - injection E as <-. exists []. split; auto.
    - destruct (tden racc a) as [x|] eqn:Ea; cbn [obind] in E; [|discriminate].
      destruct (olist (map (tden racc) r)) as [xs|]; cbn [obind] in E; [|discriminate].
      injection E as <-. destruct (negate_sound _ _ Ea) as (x' & Ex & Hx).
      destruct (IH _ eq_refl) as (xs' & Exs & Hxs).
      exists (x' :: xs'). rewrite Ex, Exs. cbn [obind]. split; auto.
  Qed.

  Hypothesis sfn_proper :
    forall f l l' ix, Forall2 eqv l l' -> sw_fn W f l ix == sw_fn W f l' ix.

  (** [dg]: the expression is compiled for a [diagonal] line, which is executed only on
      diagonal blocks *)
  Lemma cexpr_sound racc dg e :
    (dg = true -> idx_i idx = idx_j idx) ->
    orel eqv (iexpr O W sub idx e) (tden racc (cexpr dg e)).
  Proof.
    intros Hdg. induction e using expr_ind'; cbn [iexpr cexpr].
    - apply (orel_refl L).
    - cbn [tden]. replace (if negb dg then transp idx else idx) with (transp idx); [apply (orel_refl L)|].
      destruct dg; [|reflexivity]. specialize (Hdg eq_refl). destruct idx as [[i j] n]. cbn in *. now subst.
    - apply (orel_refl L).
    - apply orel_map with (R := eqv); [intros a b E; now rewrite E | exact IHe].
    - intros w E. destruct (iexpr O W sub idx e1) as [x|]; cbn in E; [|discriminate].
      destruct (iexpr O W sub idx e2) as [y|]; cbn in E; [|discriminate]. inversion E; subst.
      destruct (IHe1 _ eq_refl) as (x' & Ex & Hx). destruct (IHe2 _ eq_refl) as (y' & Ey & Hy).
      destruct (flat_sound _ _ Ex) as (wx & Fx & Sx). destruct (flat_sound _ _ Ey) as (wy & Fy & Sy).
      rewrite tden_zsum, (tden_list_app _ _ _ Fx Fy). cbn.
      eexists. split; [reflexivity|]. rewrite (vsum_app L), Sx, Sy, Hx, Hy. reflexivity.
    - intros w E. destruct (iexpr O W sub idx e1) as [x|]; cbn in E; [|discriminate].
      destruct (iexpr O W sub idx e2) as [y|]; cbn in E; [|discriminate]. inversion E; subst.
      destruct (IHe1 _ eq_refl) as (x' & Ex & Hx). destruct (IHe2 _ eq_refl) as (y' & Ey & Hy).
      destruct (flat_sound _ _ Ex) as (wx & Fx & Sx). destruct (flat_sound _ _ Ey) as (wy & Fy & Sy).
      destruct (negate_list_sound _ _ Fy) as (wy' & Fy' & Ny).
      rewrite tden_zsum, (tden_list_app _ _ _ Fx Fy'). cbn.
      eexists. split; [reflexivity|]. rewrite (vsum_app L), (vsum_neg L Ny), Sx, Sy, Hx, Hy. reflexivity.
    - apply orel_map with (R := eqv); [intros a b E; now apply (l_div_proper L k) | exact IHe].
    - rewrite tden_call. apply orel_map with (R := Forall2 eqv); [intros vs vs' E; now apply sfn_proper|].
      induction H as [|a r Ha Hr IH]; [apply orel_some; constructor|]. cbn [tden_args].
      apply orel_bind with (R := eqv).
      + destruct (arg_series a) as [s|]; [apply (orel_refl L)|]. destruct a as [s|e']; [apply (orel_refl L) | exact Ha].
      + intros x x' Hx. apply orel_bind with (R := Forall2 eqv); [exact IH|].
        intros xs xs' Hxs. apply orel_some. now constructor.
    - cbn [tden]. destruct (flag_value W c idx); auto.
  Qed.

  Local Notation "a + b" := (vadd O a b).

  (** [result = _zero_sum(result, <line>)] adds the value of the line *)
  Lemma ctop_sound r0 e x :
    iexpr O W sub idx e = Some x ->
    exists w, tden r0 (ctop false e) = Some w /\ w == r0 + x.
  Proof.
    intros E. destruct (@cexpr_sound r0 false e ltac:(discriminate) _ E) as (x' & Ex & Hx).
    destruct (flat_sound _ _ Ex) as (ws & Fw & Sw).
    unfold ctop. rewrite tden_zsum. cbn [tden_list map olist tden obind]. fold (tden_list r0 (flat (cexpr false e))). rewrite Fw. cbn [obind option_map].
    eexists. split; [reflexivity|]. rewrite (vsum_cons L), Sw, Hx. reflexivity.
  Qed.

  Lemma cwrap_sound r0 dg f e x :
    (dg = true -> idx_i idx = idx_j idx) ->
    iwrapped O W sub idx f e = Some x ->
    exists w, tden r0 (TZeroSum [TResult; TCall f [cwrap_arg dg e]]) = Some w /\ w == r0 + x.
  Proof.
    intros Hdg E. unfold iwrapped in E.
    assert (exists y, tden_arg r0 f (cwrap_arg dg e) = Some y /\ sw_fn W f [y] idx == x) as (y & Ey & Hy).
    { destruct e; cbn [cwrap_arg tden_arg];
        try (match type of E with option_map _ ?g = _ => destruct g as [z|] eqn:G; cbn in E; [|discriminate] end;
             inversion E; subst;
             destruct (@cexpr_sound r0 dg _ Hdg _ G) as (z' & Ez & Hz);
             exists z'; split; [exact Ez | apply sfn_proper; constructor; auto]).
      destruct (iseries_arg O W sub idx f s) as [z|] eqn:G; cbn in E; [|discriminate].
      inversion E; subst. exists z. split; auto. reflexivity. }
    rewrite tden_zsum. cbn [tden_list map olist]. rewrite tden_call. change (tden r0 TResult) with (Some r0).
    cbn [tden_args map olist obind]. rewrite Ey. cbn [obind option_map]. eexists. split; [reflexivity|].
    rewrite (vsum_cons L), (vsum_cons L), (vsum_nil L), (add_0_r L), Hy. reflexivity.
  Qed.

  Lemma cmarker_sound r0 name h a :
    sub (KN name) (transp idx) = Some a ->
    exists w,
      tden r0 (TZeroSum [TResult; match h with Herm => TDagger (TGet name true) | AntiHerm => TNeg (TDagger (TGet name true)) end]) = Some w
      /\ w == r0 + match h with Herm => vadj O a | AntiHerm => vneg O (vadj O a) end.
  Proof.
    intros E. rewrite tden_zsum. cbn [tden_list map olist obind]. cbn [tden].
    destruct h; cbn [tden]; rewrite E; cbn [obind option_map]; eexists; (split; [reflexivity|]);
      rewrite (vsum_cons L), (vsum_cons L), (vsum_nil L), (add_0_r L); reflexivity.
  Qed.
End TSem.

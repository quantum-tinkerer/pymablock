(** DSL/HermValid.v - when the Hermitian shortcuts of cauchy_dot_product(hermitian=True) are
    valid, in the sense of the specification.

    General lemma: let P = K1 @ K2 be a two-factor product such that, at every multi-order m
    strictly inside 0 < m < n, the element (k,i,m) of K2 is the adjoint partner of the
    element (i,k,m) of K1 (whenever both are defined), and the order-0 elements of both
    factors are 0.  Then at order n
      - P(i,j,n) is the adjoint of P(j,i,n)                         ([prod_adjoint]),
      - on a diagonal block the half-sum equals the full sum          ([half_sum_valid]).
    Everything is stated for arbitrary fuels (the two sides may be evaluated with different
    fuels). *)
From Coq Require Import String List ZArith Bool Arith Lia.
From PV.DSL Require Import Syntax Values Interp Laws Sound HermSums.
Import ListNotations.
Set Implicit Arguments.

Section General.
  Variable V : Type.
  Variable O : vops V.
  Variable eqv : V -> V -> Prop.
  Variable L : vlaws O eqv.

  Local Infix "==" := eqv (at level 70, no associativity).
  Local Notation "a + b" := (vadd O a b).
  Local Notation vz := (v0 O).
  Local Notation sum := (vsum O).

  (** a term one of whose factors is 0 (if defined) contributes 0 *)
  Lemma lazy_zero_r c oa ob r :
    lazy_term O c (fun _ => oa) (fun _ => ob) = Some r -> (forall y, ob = Some y -> y == vz) -> contrib O r == vz.
  Proof.
    intros E Z. apply (lazy_char L) in E. destruct oa as [a|], ob as [b|]; try tauto.
    rewrite E, (Z b eq_refl). apply (l_mul_0_r L).
  Qed.

  Lemma lazy_zero_l c oa ob r :
    lazy_term O c (fun _ => oa) (fun _ => ob) = Some r -> (forall x, oa = Some x -> x == vz) -> contrib O r == vz.
  Proof.
    intros E Z. apply (lazy_char L) in E. destruct oa as [a|], ob as [b|]; try tauto.
    rewrite E, (Z a eq_refl). apply (l_mul_0_l L).
  Qed.

  (** the adjoint of a term is the mirrored term, when the factors are adjoint partners *)
  Lemma lazy_reflect c1 c2 (a1 b1 a2 b2 : option V) r1 r2 :
    lazy_term O c1 (fun _ => a1) (fun _ => b1) = Some r1 ->
    lazy_term O c2 (fun _ => a2) (fun _ => b2) = Some r2 ->
    (forall x y, a1 = Some x -> b2 = Some y -> x == vadj O y) ->
    (forall x y, a2 = Some x -> b1 = Some y -> x == vadj O y) ->
    vadj O (contrib O r1) == contrib O r2.
  Proof.
    intros E1 E2 C1 C2. apply (lazy_char L) in E1, E2.
    assert (A0 : vadj O vz == vz) by apply (l_adj_0 L).
    destruct a1 as [x1|], b1 as [y1|]; try tauto.
    - destruct a2 as [x2|], b2 as [y2|]; try tauto.
      + rewrite E1, E2, (l_adj_mul L), (C1 _ _ eq_refl eq_refl), (C2 _ _ eq_refl eq_refl), (l_adj_adj L). reflexivity.
      + destruct E2 as [Z2 ->]. rewrite E1, (l_adj_mul L), <- (C2 _ _ eq_refl eq_refl), Z2. apply (l_mul_0_l L).
      + destruct E2 as [Z2 ->]. rewrite E1, (C1 _ _ eq_refl eq_refl), Z2, A0, (l_mul_0_l L). exact A0.
    - destruct E1 as [Z1 ->]. rewrite A0. symmetry.
      destruct a2 as [x2|], b2 as [y2|]; try tauto; try apply E2.
      rewrite E2. assert (y2 == vz) as ->.
      { rewrite <- (l_adj_adj L y2), <- (C1 _ _ eq_refl eq_refl), Z1. exact A0. }
      apply (l_mul_0_r L).
    - destruct E1 as [Z1 ->]. rewrite A0. symmetry.
      destruct a2 as [x2|], b2 as [y2|]; try tauto; try apply E2.
      rewrite E2, (C2 _ _ eq_refl eq_refl), Z1, A0. apply (l_mul_0_l L).
  Qed.

  Section Loop.
    Variable sub : key -> index -> option V.
    Variables (i j : nat) (n : list nat) (k1 k2 : key).

    Definition tvo (p : nat * list nat) : option (option V) :=
      lazy_term O (Nat.leb (cost (snd p)) (cost (lsub n (snd p))))
                (fun _ => sub k1 (i, fst p, snd p)) (fun _ => sub k2 (fst p, j, lsub n (snd p))).

    Definition tv (p : nat * list nat) : V := match tvo p with Some r => contrib O r | None => vz end.

    Lemma loop_full l : forall acc w,
      iprod_loop O sub (i, j, n) false k1 k2 l acc = Some w ->
      (forall p, In p l -> tvo p <> None) /\ w == acc + sum (map tv l).
    Proof.
      induction l as [|[mid m] r IH]; intros acc w E; cbn [iprod_loop] in E.
      - inversion E; subst. split; [intros p []|]. rewrite (vsum_nil L). symmetry. apply (add_0_r L).
      - cbn [andb idx_i idx_j idx_n fst snd] in E.
        change (lazy_term O _ _ _) with (tvo (mid, m)) in E.
        destruct (tvo (mid, m)) as [[t|]|] eqn:T; [| |discriminate]; destruct (IH _ _ E) as [D S].
        + split; [intros p [<-|Hp]; [congruence | auto]|].
          cbn [map]. rewrite (vsum_cons L), S. unfold tv at 2. rewrite T. cbn [contrib]. apply (l_add_assoc L).
        + split; [intros p [<-|Hp]; [congruence | auto]|].
          cbn [map]. rewrite (vsum_cons L), S. unfold tv at 2. rewrite T. cbn [contrib]. now rewrite (l_add_0_l L).
    Qed.

    Definition hterm (p : nat * list nat) : V := half_term O n (fun m => tv (fst p, m)) (snd p).

    Lemma loop_half l : forall acc w,
      iprod_loop O sub (i, j, n) true k1 k2 l acc = Some w ->
      (forall p, In p l -> lex_gt (snd p) (lsub n (snd p)) = false -> tvo p <> None) /\
      w == acc + sum (map hterm l).
    Proof.
      induction l as [|[mid m] r IH]; intros acc w E; cbn [iprod_loop] in E.
      - inversion E; subst. split; [intros p []|]. rewrite (vsum_nil L). symmetry. apply (add_0_r L).
      - cbn [andb idx_i idx_j idx_n fst snd] in E.
        change (lazy_term O _ _ _) with (tvo (mid, m)) in E.
        cbn [map]. rewrite (vsum_cons L). unfold hterm at 1, half_term. cbn [fst snd].
        destruct (lex_gt m (lsub n m)) eqn:G.
        + destruct (IH _ _ E) as [D S]. split; [intros p [<-|Hp]; [cbn; congruence | auto]|].
          now rewrite S, (l_add_0_l L).
        + destruct (tvo (mid, m)) as [[t|]|] eqn:T; [| |discriminate].
          * assert (Tv : tv (mid, m) = t) by (unfold tv; now rewrite T).
            destruct (lnat_eqb m (lsub n m)) eqn:Q; cbn [negb] in E; destruct (IH _ _ E) as [D S];
              (split; [intros p [<-|Hp]; [congruence | auto]|]); rewrite S, Tv.
            -- apply (l_add_assoc L).
            -- rewrite !(l_add_assoc L). reflexivity.
          * assert (Tv : tv (mid, m) = vz) by (unfold tv; now rewrite T).
            destruct (IH _ _ E) as [D S]. split; [intros p [<-|Hp]; [congruence | auto]|].
            rewrite S, Tv. destruct (lnat_eqb m (lsub n m)); rewrite ?(l_adj_0 L), !(l_add_0_l L); reflexivity.
    Qed.
  End Loop.

  Section Product.
    Variable alg : algorithm.
    Variable W : sworld V.
    Variables k1 k2 : key.
    Variable n : list nat.
    Notation spec := (interp O alg W).
    Notation nb := (sw_nb W).
    Notation zeros := (lsub n n).

    (** adjoint partners strictly inside the cone, for the block row [i] *)
    Definition partners (i : nat) : Prop :=
      forall mid m, mid < nb -> ole m n -> m <> n -> m <> zeros ->
        forall f f' x y, spec f k1 (i, mid, m) = Some x -> spec f' k2 (mid, i, m) = Some y -> x == vadj O y.

    (** order-0 elements of both factors are 0 *)
    Definition zero0 (i : nat) : Prop :=
      forall mid, mid < nb ->
        (forall f x, spec f k1 (i, mid, zeros) = Some x -> x == vz) /\
        (forall f y, spec f k2 (mid, i, zeros) = Some y -> y == vz).

    Lemma ole_zeros m : ole m n -> lsub n m = n -> m = zeros.
    Proof. intros H E. rewrite <- (@lsub_invol n m H). now rewrite E. Qed.

    (** term-wise reflection between P(j,i,n) [fuel f] and P(i,j,n) [fuel f'] *)
    Lemma term_reflect i j f f' mid m r r' :
      partners i -> partners j -> zero0 i -> zero0 j -> mid < nb -> ole m n ->
      tvo (spec f) j i n k1 k2 (mid, m) = Some r ->
      tvo (spec f') i j n k1 k2 (mid, lsub n m) = Some r' ->
      vadj O (contrib O r) == contrib O r'.
    Proof.
      intros Pi Pj Zi Zj Hmid Hm E E'. unfold tvo in E, E'. cbn [fst snd] in E, E'.
      rewrite (@lsub_invol n m Hm) in E'.
      assert (Hr : ole (lsub n m) n) by (apply splits_ok; now apply splits_complete).
      destruct (list_eq_dec Nat.eq_dec m n) as [En|Nn].
      { (* m = n: the second factor of the first term and the first factor of the mirror are of order 0 *)
        subst m. rewrite (@lazy_zero_r _ _ _ _ E), (@lazy_zero_l _ _ _ _ E'); [apply (l_adj_0 L)| |].
        - intros x Hx. eapply (proj1 (Zi mid Hmid)); eauto.
        - intros y Hy. eapply (proj2 (Zi mid Hmid)); eauto. }
      destruct (list_eq_dec Nat.eq_dec m zeros) as [Ez|Nz].
      { assert (lsub n m = n) as Er by (rewrite Ez; apply lsub_invol, ole_refl).
        rewrite (@lazy_zero_l _ _ _ _ E), (@lazy_zero_r _ _ _ _ E'); [apply (l_adj_0 L)| |].
        - intros y Hy. rewrite Ez in Hy. eapply (proj2 (Zj mid Hmid)); eauto.
        - intros x Hx. rewrite Ez in Hx. eapply (proj1 (Zj mid Hmid)); eauto. }
      eapply (@lazy_reflect _ _ _ _ _ _ _ _ E E').
      - intros x y Hx Hy. eapply (Pj mid m); eauto.
      - intros x y Hx Hy. eapply (Pi mid (lsub n m)); eauto.
        + intros F. apply Nz. now apply ole_zeros.
        + intros F. apply Nn. rewrite <- (@lsub_invol n m Hm), F. apply lsub_invol, ole_refl.
    Qed.

    (** the same on term values, for terms that are defined *)
    Lemma tv_reflect i j f f' mid m :
      partners i -> partners j -> zero0 i -> zero0 j -> mid < nb -> In m (splits n) ->
      tvo (spec f) j i n k1 k2 (mid, m) <> None -> tvo (spec f') i j n k1 k2 (mid, lsub n m) <> None ->
      vadj O (tv (spec f) j i n k1 k2 (mid, m)) == tv (spec f') i j n k1 k2 (mid, lsub n m).
    Proof.
      intros Pi Pj Zi Zj Hmid Hm D D'. unfold tv.
      destruct (tvo (spec f) j i n k1 k2 (mid, m)) as [r|] eqn:T; [|contradiction].
      destruct (tvo (spec f') i j n k1 k2 (mid, lsub n m)) as [r'|] eqn:T'; [|contradiction].
      exact (@term_reflect i j f f' mid m r r' Pi Pj Zi Zj Hmid (proj1 (splits_ok _ _ Hm)) T T').
    Qed.

    Lemma in_space mid m : mid < nb -> In m (splits n) ->
      In (mid, m) (pbo_space nb n) /\ In (mid, lsub n m) (pbo_space nb n).
    Proof. intros H1 H2. split; apply in_pbo_space; auto using splits_refl. Qed.

    (** P(i,j,n) is the adjoint of P(j,i,n) *)
    Theorem prod_adjoint i j f f' w w' :
      partners i -> partners j -> zero0 i -> zero0 j ->
      iprod_gen O W (spec f) (i, j, n) false k1 k2 = Some w ->
      iprod_gen O W (spec f') (j, i, n) false k1 k2 = Some w' ->
      w == vadj O w'.
    Proof.
      intros Pi Pj Zi Zj E E'. unfold iprod_gen in E, E'. cbn [idx_n] in E, E'.
      destruct (loop_full _ _ _ _ _ _ _ _ E) as [D S]. destruct (loop_full _ _ _ _ _ _ _ _ E') as [D' S'].
      rewrite S, S', !(l_add_0_l L), (vsum_adj L).
      unfold pbo_space. rewrite !(vsum_flat_map L). apply (vsum_ext L). intros mid Hmid. apply in_seq in Hmid.
      rewrite !map_map. cbn beta.
      rewrite <- (refl_sum L n (fun m => tv (spec f) i j n k1 k2 (mid, m))).
      apply (vsum_ext L). intros m Hm. symmetry.
      destruct (@in_space mid m ltac:(lia) Hm) as [I1 I2].
      apply tv_reflect; auto; lia.
    Qed.

    (** on a diagonal block the half-sum of product_by_order equals the full sum *)
    Theorem half_sum_valid i f f' w w' :
      partners i -> zero0 i ->
      iprod_gen O W (spec f) (i, i, n) false k1 k2 = Some w ->
      iprod_gen O W (spec f') (i, i, n) true k1 k2 = Some w' ->
      w' == w.
    Proof.
      intros Pi Zi E E'. unfold iprod_gen in E, E'. cbn [idx_n] in E, E'.
      destruct (loop_full _ _ _ _ _ _ _ _ E) as [D S]. destruct (loop_half _ _ _ _ _ _ _ _ E') as [D' S'].
      rewrite S, S', !(l_add_0_l L).
      unfold pbo_space. rewrite !(vsum_flat_map L). apply (vsum_ext L). intros mid Hmid. apply in_seq in Hmid.
      rewrite !map_map. cbn beta. assert (Hlt : mid < nb) by lia.
      (* reflection of the terms of the full sum (one fuel) *)
      assert (R : forall m, In m (splits n) ->
                    vadj O (tv (spec f) i i n k1 k2 (mid, m)) == tv (spec f) i i n k1 k2 (mid, lsub n m)).
      { intros m Hm. destruct (@in_space mid m Hlt Hm) as [I1 I2]. apply tv_reflect; auto. }
      rewrite <- (half_full L n (fun m => tv (spec f) i i n k1 k2 (mid, m)) R).
      apply (vsum_ext L). intros m Hm. unfold hterm, half_term. cbn [fst snd].
      destruct (lex_gt m (lsub n m)) eqn:G; [reflexivity|].
      (* a term of the half-sum (fuel f') equals the same term of the full sum (fuel f) *)
      assert (C : tv (spec f') i i n k1 k2 (mid, m) == tv (spec f) i i n k1 k2 (mid, m)).
      { destruct (@in_space mid m Hlt Hm) as [I1 I2].
        rewrite <- (l_adj_adj L (tv (spec f') i i n k1 k2 (mid, m))).
        rewrite (@tv_reflect i i f' f mid m Pi Pi Zi Zi Hlt Hm (D' _ I1 G) (D _ I2)), (R _ (splits_refl _ _ Hm)).
        rewrite lsub_invol by (now apply splits_ok). reflexivity. }
      destruct (lnat_eqb m (lsub n m)); now rewrite C.
    Qed.
  End Product.
End General.

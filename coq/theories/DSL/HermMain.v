(** DSL/HermMain.v - the Hermitian shortcuts are valid for the shipped Hermitian algorithm.

    The only product declared [hermitian] in [main_alg] is "U'† @ U'" where U'† = W - V and
    U' = W + V with W marked hermitian and V antihermitian, all with start = 0.  By induction
    on the total order: U'†(i,k,m) is the adjoint of U'(k,i,m), hence (DSL/HermValid.v) the
    product is self-adjoint, hence W is Hermitian at the next order, and so on.

    Hypotheses on the scope: no [offdiag] (plain block diagonalization; with it the diagonal
    blocks of V are offdiag(-solve_sylvester(...)), antihermitian only for suitable solvers),
    and [diag] commutes with the adjoint on diagonal blocks. *)
From Coq Require Import String List ZArith Bool Arith Lia.
From PV.DSL Require Import Syntax Values Compile Interp Exec Laws Sound SpecMeta HermSums HermValid Main.
From PV.Gen Require Import Algorithms_gen.
Import ListNotations.
Open Scope string_scope.

Definition total (m : list nat) : nat := fold_right Nat.add 0 m.

Lemma ole_total m n : ole m n -> total m <= total n.
Proof.
  revert n. induction m as [|x m IH]; destruct n as [|y n]; cbn [ole total fold_right]; intros H; try contradiction.
  - lia.
  - destruct H as [H1 H2]. specialize (IH _ H2). unfold total in IH. lia.
Qed.

Lemma ole_total_lt m n : ole m n -> m <> n -> total m < total n.
Proof.
  revert n. induction m as [|x m IH]; destruct n as [|y n]; cbn [ole total fold_right]; intros H N; try contradiction.
  destruct H as [H1 H2]. destruct (Nat.eq_dec x y) as [->|D].
  - assert (m <> n) as Hn by congruence. specialize (IH _ H2 Hn). unfold total in IH. lia.
  - pose proof (ole_total _ _ H2) as T. unfold total in T. lia.
Qed.

Lemma all_zero_lsub n : all_zero (lsub n n) = true.
Proof. induction n as [|x n IH]; cbn; auto. now rewrite Nat.sub_diag, IH. Qed.

Lemma length_lsub n m : length m = length n -> length (lsub n m) = length n.
Proof. revert m. induction n as [|x n IH]; destruct m; cbn; try discriminate; auto. Qed.

Lemma all_zero_unique a b : length a = length b -> all_zero a = true -> all_zero b = true -> a = b.
Proof. intros Hl Ha Hb. rewrite (@all_zero_repeat a Ha), (@all_zero_repeat b Hb), Hl. reflexivity. Qed.

Section HermMain.
  Variable V : Type.
  Variable O : vops V.
  Variable eqv : V -> V -> Prop.
  Variable L : vlaws O eqv.
  Variable W : sworld V.

  Local Infix "==" := eqv (at level 70, no associativity).
  Local Notation "a + b" := (vadd O a b).
  Local Notation vz := (v0 O).
  Local Notation "- a" := (vneg O a).
  Local Notation adj := (vadj O).
  Notation spec := (interp O main_alg W).
  Notation nb := (sw_nb W).

  Hypothesis fn_proper : forall f l l' ix, Forall2 eqv l l' -> sw_fn W f l ix == sw_fn W f l' ix.
  Hypothesis vis0_complete : forall a, a == vz -> vis0 O a = true.
  Hypothesis no_offdiag : sw_hasoff W = false.
  Hypothesis diag_adj : forall x i n, adj (sw_fn W "diag" [x] (i, i, n)) == sw_fn W "diag" [adj x] (i, i, n).

  Definition Ud := "U'†".
  Definition Up := "U'".
  Definition Pn := "U'† @ U'".

  Definition swf (ix : index) : Prop :=
    idx_i ix < nb /\ idx_j ix < nb /\ length (idx_n ix) = sw_np W.

  Lemma start_wf i j m : swf (i, j, m) -> is_start_index W (i, j, m) = all_zero m.
  Proof.
    intros (Hi & Hj & Hl). unfold is_start_index. cbn [idx_i idx_j idx_n fst snd] in *.
    apply Nat.ltb_lt in Hi, Hj. apply Nat.eqb_eq in Hl. rewrite Hi, Hj, Hl. now rewrite !andb_true_r.
  Qed.

  Lemma coh f f' k ix w w' : spec f k ix = Some w -> spec f' k ix = Some w' -> w == w'.
  Proof. apply (interp_coh L main_alg W fn_proper vis0_complete). Qed.

  (** the definitions of W, V, U', U'† and the product as they stand in Gen/Algorithms_gen.v, which
      is generated from algorithms.py: an edit there breaks these five lemmas first *)
  Lemma kW : kind_of main_alg (sw_inputs W) "W" = KSeries {| sname := "W"; sstart := StartZero; sbody := [
        Marker Herm;
        Line Diagonal (DivInt (Lit "U'† @ U'") (-2)%Z);
        Line Offdiagonal (IfFlag (FlagGlobal "two_block_optimized") EZero (DivInt (Lit "U'† @ U'") (-2)%Z)) ] |}.
  Proof. reflexivity. Qed.
  Lemma kV : kind_of main_alg (sw_inputs W) "V" = KSeries {| sname := "V"; sstart := StartZero; sbody := [
        Marker AntiHerm;
        Line Offdiagonal (Neg (Call "solve_sylvester" [(ArgExpr (Sub (Sub (Adj "Yadj") (Lit "V @ H'_diag")) (Adj "V @ H'_diag")))])) ] |}.
  Proof. reflexivity. Qed.
  Lemma kUp : kind_of main_alg (sw_inputs W) Up = KSeries {| sname := "U'"; sstart := StartZero; sbody := [
        Line Default (Add (Lit "W") (Lit "V")) ] |}.
  Proof. reflexivity. Qed.
  Lemma kUd : kind_of main_alg (sw_inputs W) Ud = KSeries {| sname := "U'†"; sstart := NoStart; sbody := [
        Line Default (Sub (Lit "W") (Lit "V")) ] |}.
  Proof. reflexivity. Qed.
  Lemma kP : kind_of main_alg (sw_inputs W) Pn = KProduct {| pfactors := ["U'†"; "U'"]; pherm := true |}.
  Proof. reflexivity. Qed.

  Lemma uW0 f ix : is_start_index W ix = true -> spec (S f) (KN "W") ix = Some vz.
  Proof. intros S. cbn [interp]. unfold rhs. rewrite kW. unfold spec_start. now rewrite S. Qed.
  Lemma uV0 f ix : is_start_index W ix = true -> spec (S f) (KN "V") ix = Some vz.
  Proof. intros S. cbn [interp]. unfold rhs. rewrite kV. unfold spec_start. now rewrite S. Qed.
  Lemma uUp0 f ix : is_start_index W ix = true -> spec (S f) (KN Up) ix = Some vz.
  Proof. intros S. cbn [interp]. unfold rhs. rewrite kUp. unfold spec_start. now rewrite S. Qed.

  Lemma uWl f i j m : j < i -> is_start_index W (i, j, m) = false ->
    spec (S f) (KN "W") (i, j, m) = option_map (fun a => vz + adj a) (spec f (KN "W") (j, i, m)).
  Proof.
    intros H S. apply Nat.ltb_lt in H. cbn [interp]. unfold rhs. rewrite kW. unfold spec_start. rewrite S.
    cbn [sbody sname ibody idx_i idx_j fst snd]. rewrite H. reflexivity.
  Qed.

  Lemma uVl f i j m : j < i -> is_start_index W (i, j, m) = false ->
    spec (S f) (KN "V") (i, j, m) = option_map (fun a => vz + - adj a) (spec f (KN "V") (j, i, m)).
  Proof.
    intros H S. apply Nat.ltb_lt in H. cbn [interp]. unfold rhs. rewrite kV. unfold spec_start. rewrite S.
    cbn [sbody sname ibody idx_i idx_j fst snd]. rewrite H. reflexivity.
  Qed.

  Lemma uVd f i m : is_start_index W (i, i, m) = false -> spec (S f) (KN "V") (i, i, m) = Some vz.
  Proof.
    intros S. cbn [interp]. unfold rhs. rewrite kV. unfold spec_start. rewrite S.
    cbn [sbody sname ibody idx_i idx_j fst snd]. rewrite Nat.ltb_irrefl, Nat.eqb_refl. cbn [negb].
    now rewrite no_offdiag.
  Qed.

  Lemma uWd f i m : is_start_index W (i, i, m) = false ->
    spec (S f) (KN "W") (i, i, m) =
    option_map (fun p => vz + sw_fn W "diag" [vdiv O p (-2)%Z] (i, i, m)) (spec f (KN Pn) (i, i, m)).
  Proof.
    intros S. cbn [interp]. unfold rhs. rewrite kW. unfold spec_start. rewrite S.
    cbn [sbody sname ibody idx_i idx_j fst snd]. rewrite Nat.ltb_irrefl, Nat.eqb_refl. cbn [negb].
    rewrite no_offdiag. unfold iwrapped. cbn [iexpr]. fold Pn.
    destruct (spec f (KN Pn) (i, i, m)); reflexivity.
  Qed.

  Lemma uUd f ix :
    spec (S f) (KN Ud) ix =
    obind (spec f (KN "W") ix) (fun x => obind (spec f (KN "V") ix) (fun y => Some (vz + (x + - y)))).
  Proof.
    cbn [interp]. unfold rhs. rewrite kUd. unfold spec_start. cbn [sstart].
    destruct (is_start_index W ix);
      cbn [sbody sname ibody iexpr]; (destruct (spec f (KN "W") ix); cbn; auto; destruct (spec f (KN "V") ix); reflexivity).
  Qed.

  Lemma uUp f ix : is_start_index W ix = false ->
    spec (S f) (KN Up) ix =
    obind (spec f (KN "W") ix) (fun x => obind (spec f (KN "V") ix) (fun y => Some (vz + (x + y)))).
  Proof.
    intros S. cbn [interp]. unfold rhs. rewrite kUp. unfold spec_start. rewrite S.
    cbn [sbody sname ibody iexpr]. destruct (spec f (KN "W") ix); cbn; auto. destruct (spec f (KN "V") ix); reflexivity.
  Qed.

  Lemma uP f ix : spec (S f) (KN Pn) ix = iprod_gen O W (spec f) ix false (KN Ud) (KN Up).
  Proof. cbn [interp]. unfold rhs. rewrite kP. reflexivity. Qed.

  Lemma Up_zero f i j m x : swf (i, j, m) -> all_zero m = true -> spec f (KN Up) (i, j, m) = Some x -> x == vz.
  Proof.
    intros Hwf Z E. destruct f as [|f]; [discriminate|]. rewrite uUp0 in E by (now rewrite start_wf).
    inversion E; subst. reflexivity.
  Qed.

  Lemma Ud_zero f i j m x : swf (i, j, m) -> all_zero m = true -> spec f (KN Ud) (i, j, m) = Some x -> x == vz.
  Proof.
    intros Hwf Z E. destruct f as [|f]; [discriminate|]. rewrite uUd in E.
    destruct (spec f (KN "W") (i, j, m)) as [a|] eqn:Ea; cbn in E; [|discriminate].
    destruct (spec f (KN "V") (i, j, m)) as [b|] eqn:Eb; cbn in E; [|discriminate].
    inversion E; subst. destruct f as [|f]; [discriminate|].
    rewrite uW0 in Ea by (now rewrite start_wf). rewrite uV0 in Eb by (now rewrite start_wf).
    inversion Ea; inversion Eb; subst. rewrite (l_neg_0 L), !(l_add_0_l L). reflexivity.
  Qed.

  (** U'†(i,k,m) is the adjoint of U'(k,i,m) *)
  Definition PR (m : list nat) : Prop :=
    forall i k, i < nb -> k < nb ->
    forall f f' x y, spec f (KN Ud) (i, k, m) = Some x -> spec f' (KN Up) (k, i, m) = Some y -> x == adj y.

  Lemma partners_of n :
    length n = sw_np W ->
    (forall m, total m < total n -> length m = sw_np W -> all_zero m = false -> PR m) ->
    forall i, i < nb -> partners O eqv main_alg W (KN Ud) (KN Up) n i.
  Proof.
    intros Hl IH i Hi mid m Hmid Hm Nn Nz f f' x y Ex Ey.
    assert (H1 : total m < total n) by (now apply ole_total_lt).
    assert (H2 : length m = sw_np W) by (rewrite (@ole_length m n Hm); exact Hl).
    assert (H3 : all_zero m = false).
    { destruct (all_zero m) eqn:Z; auto. exfalso. apply Nz.
      apply all_zero_unique; auto using all_zero_lsub.
      rewrite length_lsub; auto. now apply ole_length. }
    exact (IH m H1 H2 H3 i mid Hi Hmid f f' x y Ex Ey).
  Qed.

  Lemma zero0_of n : length n = sw_np W -> forall i, i < nb -> zero0 O eqv main_alg W (KN Ud) (KN Up) n i.
  Proof.
    intros Hl i Hi mid Hmid. split.
    - intros f x E. eapply Ud_zero; eauto using all_zero_lsub.
      repeat split; cbn; auto. now rewrite length_lsub.
    - intros f y E. eapply Up_zero; eauto using all_zero_lsub.
      repeat split; cbn; auto. now rewrite length_lsub.
  Qed.

  (** the product is self-adjoint on the diagonal once the factors are partners below *)
  Lemma P_selfadj n i f p :
    length n = sw_np W -> i < nb ->
    (forall m, total m < total n -> length m = sw_np W -> all_zero m = false -> PR m) ->
    spec f (KN Pn) (i, i, n) = Some p -> p == adj p.
  Proof.
    intros Hl Hi IH E. destruct f as [|f]; [discriminate|]. rewrite uP in E.
    exact (prod_adjoint L f f (partners_of n Hl IH i Hi) (partners_of n Hl IH i Hi) (zero0_of n Hl i Hi) (zero0_of n Hl i Hi) E E).
  Qed.

  Lemma W_herm m :
    length m = sw_np W -> all_zero m = false ->
    (forall m', total m' < total m -> length m' = sw_np W -> all_zero m' = false -> PR m') ->
    forall i k, i < nb -> k < nb ->
    forall f f' a b, spec f (KN "W") (i, k, m) = Some a -> spec f' (KN "W") (k, i, m) = Some b -> a == adj b.
  Proof.
    intros Hl Z IH i k Hi Hk f f' a b Ea Eb.
    assert (S1 : is_start_index W (i, k, m) = false) by (rewrite start_wf; [auto | repeat split; auto]).
    assert (S2 : is_start_index W (k, i, m) = false) by (rewrite start_wf; [auto | repeat split; auto]).
    destruct (lt_eq_lt_dec i k) as [[Hlt|Heq]|Hgt].
    - (* i < k : W(k,i) is defined by the marker *)
      destruct f' as [|f']; [discriminate|]. rewrite uWl in Eb by auto.
      destruct (spec f' (KN "W") (i, k, m)) as [b'|] eqn:Eb'; cbn in Eb; [|discriminate]. inversion Eb; subst.
      rewrite (l_adj_add L), (l_adj_0 L), (l_adj_adj L), (l_add_0_l L). exact (@coh _ _ _ _ _ _ Ea Eb').
    - subst k.
      assert (a == b) as Hab by exact (@coh _ _ _ _ _ _ Ea Eb). rewrite <- Hab.
      destruct f as [|f]; [discriminate|]. rewrite uWd in Ea by auto.
      destruct (spec f (KN Pn) (i, i, m)) as [p|] eqn:Ep; cbn in Ea; [|discriminate]. inversion Ea; subst.
      pose proof (P_selfadj m i f p Hl Hi IH Ep) as Hp.
      rewrite (l_adj_add L), (l_adj_0 L), diag_adj. apply (l_add_proper L); [reflexivity|].
      apply fn_proper. constructor; [|constructor].
      rewrite (l_adj_div L). apply (l_div_proper L). exact Hp.
    - destruct f as [|f]; [discriminate|]. rewrite uWl in Ea by auto.
      destruct (spec f (KN "W") (k, i, m)) as [a'|] eqn:Ea'; cbn in Ea; [|discriminate]. inversion Ea; subst.
      rewrite (l_add_0_l L). apply (l_adj_proper L). exact (@coh _ _ _ _ _ _ Ea' Eb).
  Qed.

  Lemma V_antiherm m :
    length m = sw_np W -> all_zero m = false ->
    forall i k, i < nb -> k < nb ->
    forall f f' a b, spec f (KN "V") (i, k, m) = Some a -> spec f' (KN "V") (k, i, m) = Some b -> - a == adj b.
  Proof.
    intros Hl Z i k Hi Hk f f' a b Ea Eb.
    assert (S1 : is_start_index W (i, k, m) = false) by (rewrite start_wf; [auto | repeat split; auto]).
    assert (S2 : is_start_index W (k, i, m) = false) by (rewrite start_wf; [auto | repeat split; auto]).
    destruct (lt_eq_lt_dec i k) as [[Hlt|Heq]|Hgt].
    - destruct f' as [|f']; [discriminate|]. rewrite uVl in Eb by auto.
      destruct (spec f' (KN "V") (i, k, m)) as [b'|] eqn:Eb'; cbn in Eb; [|discriminate]. inversion Eb; subst.
      rewrite (l_adj_add L), (l_adj_0 L), (l_adj_neg L), (l_adj_adj L), (l_add_0_l L).
      apply (l_neg_proper L). exact (@coh _ _ _ _ _ _ Ea Eb').
    - subst k. destruct f as [|f]; [discriminate|]. destruct f' as [|f']; [discriminate|].
      rewrite uVd in Ea, Eb by auto. inversion Ea; inversion Eb; subst.
      rewrite (l_neg_0 L), (l_adj_0 L). reflexivity.
    - destruct f as [|f]; [discriminate|]. rewrite uVl in Ea by auto.
      destruct (spec f (KN "V") (k, i, m)) as [a'|] eqn:Ea'; cbn in Ea; [|discriminate]. inversion Ea; subst.
      rewrite (l_neg_add L), (l_neg_0 L), (l_neg_neg L), (l_add_0_l L).
      apply (l_adj_proper L). exact (@coh _ _ _ _ _ _ Ea' Eb).
  Qed.

  Theorem PR_all : forall t m, total m = t -> length m = sw_np W -> all_zero m = false -> PR m.
  Proof.
    induction t as [t IHt] using lt_wf_ind. intros m Ht Hl Z i k Hi Hk f f' x y Ex Ey.
    assert (IH : forall m', total m' < total m -> length m' = sw_np W -> all_zero m' = false -> PR m').
    { intros m' Hlt Hl' Z'. eapply (IHt (total m')); eauto. lia. }
    destruct f as [|f]; [discriminate|]. destruct f' as [|f']; [discriminate|].
    rewrite uUd in Ex. rewrite uUp in Ey by (rewrite start_wf; [auto | repeat split; auto]).
    destruct (spec f (KN "W") (i, k, m)) as [wa|] eqn:Wa; cbn in Ex; [|discriminate].
    destruct (spec f (KN "V") (i, k, m)) as [va|] eqn:Va; cbn in Ex; [|discriminate].
    destruct (spec f' (KN "W") (k, i, m)) as [wb|] eqn:Wb; cbn in Ey; [|discriminate].
    destruct (spec f' (KN "V") (k, i, m)) as [vb|] eqn:Vb; cbn in Ey; [|discriminate].
    inversion Ex; inversion Ey; subst.
    rewrite (l_adj_add L), (l_adj_0 L), (l_adj_add L).
    rewrite (W_herm m Hl Z IH i k Hi Hk _ _ _ _ Wa Wb), (V_antiherm m Hl Z i k Hi Hk _ _ _ _ Va Vb). reflexivity.
  Qed.

  Lemma PR_any m : length m = sw_np W -> all_zero m = false -> PR m.
  Proof. intros. eapply PR_all; eauto. Qed.

  Lemma partners_main n i : length n = sw_np W -> i < nb -> partners O eqv main_alg W (KN Ud) (KN Up) n i.
  Proof. intros Hl Hi. apply partners_of; auto. intros m _ Hm Z. now apply PR_any. Qed.

  Definition defd (k : key) (ix : index) : Prop := exists f w, spec f k ix = Some w.

  Lemma lift f F k ix w : f <= F -> spec f k ix = Some w -> exists w', spec F k ix = Some w' /\ w' == w.
  Proof. intros H E. exact (@interp_mono V O eqv L main_alg W fn_proper vis0_complete f F k ix w H E). Qed.
  Arguments lift [f] F [k ix w] _ _.

  (** a series with start 0 whose lower blocks are given by a marker is defined at (k,i) if it is at (i,k) *)
  Lemma marked_def_sym (s : string) (g : V -> V) :
    (forall f ix, is_start_index W ix = true -> spec (S f) (KN s) ix = Some vz) ->
    (forall f i j m, j < i -> is_start_index W (i, j, m) = false ->
                     spec (S f) (KN s) (i, j, m) = option_map g (spec f (KN s) (j, i, m))) ->
    forall i k m, swf (i, k, m) -> defd (KN s) (i, k, m) -> defd (KN s) (k, i, m).
  Proof.
    intros u0 ul i k m (Hi & Hk & Hl) (f & a & E). cbn [idx_i idx_j idx_n fst snd] in *.
    assert (Wf' : swf (k, i, m)) by (repeat split; auto).
    destruct (all_zero m) eqn:Z.
    { exists 1, vz. apply u0. now rewrite start_wf. }
    assert (S1 : is_start_index W (i, k, m) = false) by (rewrite start_wf; [auto | repeat split; auto]).
    assert (S2 : is_start_index W (k, i, m) = false) by (rewrite start_wf; auto).
    destruct (lt_eq_lt_dec i k) as [[Hlt|Heq]|Hgt].
    - exists (S f). rewrite ul, E by auto. cbn. eauto.
    - subst. now exists f, a.
    - destruct f as [|f]; [discriminate|]. rewrite ul in E by auto.
      destruct (spec f (KN s) (k, i, m)) as [b|] eqn:Eb; [|discriminate]. now exists f, b.
  Qed.

  Lemma Wdef_sym i k m : swf (i, k, m) -> defd (KN "W") (i, k, m) -> defd (KN "W") (k, i, m).
  Proof. exact (marked_def_sym _ _ uW0 uWl i k m). Qed.

  Lemma Vdef_sym i k m : swf (i, k, m) -> defd (KN "V") (i, k, m) -> defd (KN "V") (k, i, m).
  Proof. exact (marked_def_sym _ _ uV0 uVl i k m). Qed.

  Lemma WV_def_Ud i k m : defd (KN "W") (i, k, m) -> defd (KN "V") (i, k, m) -> defd (KN Ud) (i, k, m).
  Proof.
    intros (f1 & a & E1) (f2 & b & E2).
    destruct (lift (Nat.max f1 f2) (Nat.le_max_l f1 f2) E1) as (a' & E1' & _).
    destruct (lift (Nat.max f1 f2) (Nat.le_max_r f1 f2) E2) as (b' & E2' & _).
    exists (S (Nat.max f1 f2)). rewrite uUd, E1', E2'. cbn. eauto.
  Qed.

  Lemma WV_def_Up i k m : defd (KN "W") (i, k, m) -> defd (KN "V") (i, k, m) -> defd (KN Up) (i, k, m).
  Proof.
    intros (f1 & a & E1) (f2 & b & E2).
    destruct (is_start_index W (i, k, m)) eqn:Hs.
    { exists 1, vz. now apply uUp0. }
    destruct (lift (Nat.max f1 f2) (Nat.le_max_l f1 f2) E1) as (a' & E1' & _).
    destruct (lift (Nat.max f1 f2) (Nat.le_max_r f1 f2) E2) as (b' & E2' & _).
    exists (S (Nat.max f1 f2)). rewrite uUp, E1', E2' by auto. cbn. eauto.
  Qed.

  Lemma Ud_def_WV i k m : defd (KN Ud) (i, k, m) -> defd (KN "W") (i, k, m) /\ defd (KN "V") (i, k, m).
  Proof.
    intros (f & x & E). destruct f as [|f]; [discriminate|]. rewrite uUd in E.
    destruct (spec f (KN "W") (i, k, m)) as [a|] eqn:Ea; cbn in E; [|discriminate].
    destruct (spec f (KN "V") (i, k, m)) as [b|] eqn:Eb; cbn in E; [|discriminate].
    split; [now exists f, a | now exists f, b].
  Qed.

  Lemma Up_def_WV i k m : defd (KN Up) (i, k, m) -> defd (KN "W") (i, k, m) /\ defd (KN "V") (i, k, m).
  Proof.
    intros (f & x & E). destruct (is_start_index W (i, k, m)) eqn:Hs.
    { split; [exists 1, vz; now apply uW0 | exists 1, vz; now apply uV0]. }
    destruct f as [|f]; [discriminate|]. rewrite uUp in E by auto.
    destruct (spec f (KN "W") (i, k, m)) as [a|] eqn:Ea; cbn in E; [|discriminate].
    destruct (spec f (KN "V") (i, k, m)) as [b|] eqn:Eb; cbn in E; [|discriminate].
    split; [now exists f, a | now exists f, b].
  Qed.

  Lemma swf_transp i k m : swf (i, k, m) -> swf (k, i, m).
  Proof. intros (A & B & C). repeat split; auto. Qed.

  Lemma Up_def_Ud i k m : swf (k, i, m) -> defd (KN Up) (k, i, m) -> defd (KN Ud) (i, k, m).
  Proof.
    intros Hwf D. destruct (Up_def_WV _ _ _ D) as [DW DV].
    apply WV_def_Ud; [now apply Wdef_sym | now apply Vdef_sym].
  Qed.

  Lemma Ud_def_Up i k m : swf (i, k, m) -> defd (KN Ud) (i, k, m) -> defd (KN Up) (k, i, m).
  Proof.
    intros Hwf D. destruct (Ud_def_WV _ _ _ D) as [DW DV].
    apply WV_def_Up; [now apply Wdef_sym | now apply Vdef_sym].
  Qed.

  (** a lazily evaluated term is defined as soon as both factors are, or one is a zero *)
  Lemma lazy_def_both c (a b : V) : lazy_term O c (fun _ => Some a) (fun _ => Some b) <> None.
  Proof. unfold lazy_term. destruct c; [destruct (vis0 O a) | destruct (vis0 O b)]; discriminate. Qed.

  Lemma lazy_def_l c (a : V) ob : vis0 O a = true -> lazy_term O c (fun _ => Some a) (fun _ => ob) <> None.
  Proof.
    intros Z. unfold lazy_term. destruct c; rewrite ?Z; try discriminate.
    destruct ob as [b|]; [destruct (vis0 O b)|]; discriminate.
  Qed.

  Lemma lazy_def_r c oa (b : V) : vis0 O b = true -> lazy_term O c (fun _ => oa) (fun _ => Some b) <> None.
  Proof.
    intros Z. unfold lazy_term. destruct c; rewrite ?Z; try discriminate.
    destruct oa as [a|]; [destruct (vis0 O a)|]; discriminate.
  Qed.

  Lemma zero_stays f F k ix w : f <= F -> spec f k ix = Some w -> w == vz ->
    exists w', spec F k ix = Some w' /\ vis0 O w' = true.
  Proof.
    intros H E Z. destruct (lift F H E) as (w' & E' & Hw). exists w'. split; auto. apply vis0_complete. now rewrite Hw.
  Qed.
  Arguments zero_stays [f F k ix w] _ _ _.

  (** if a term of P(i,j,n) is defined, the mirrored term of P(j,i,n) is defined for all large fuels *)
  Lemma mirror_term n i j mid m f :
    length n = sw_np W -> i < nb -> j < nb -> mid < nb -> ole m n ->
    tvo O (spec f) i j n (KN Ud) (KN Up) (mid, lsub n m) <> None ->
    exists F0, forall F, F0 <= F -> tvo O (spec F) j i n (KN Ud) (KN Up) (mid, m) <> None.
  Proof.
    intros Hl Hi Hj Hmid Hm T. unfold tvo in *. cbn [fst snd] in *.
    rewrite (@lsub_invol n m Hm) in T.
    assert (Lm : length m = sw_np W) by (rewrite (@ole_length m n Hm); exact Hl).
    assert (Hr : ole (lsub n m) n) by (apply splits_ok; now apply splits_complete).
    assert (Lr : length (lsub n m) = sw_np W) by (rewrite (@ole_length _ n Hr); exact Hl).
    assert (W1 : swf (i, mid, lsub n m)) by (repeat split; auto).
    assert (W2 : swf (mid, j, m)) by (repeat split; auto).
    destruct (lazy_term O _ _ _) as [r|] eqn:E; [clear T|congruence].
    apply (lazy_char L) in E.
    destruct (spec f (KN Ud) (i, mid, lsub n m)) as [a|] eqn:Ea, (spec f (KN Up) (mid, j, m)) as [b|] eqn:Eb; try tauto.
    - (* both factors defined: so are their partners *)
      destruct (Up_def_Ud j mid m W2 (ex_intro _ f (ex_intro _ b Eb))) as (f1 & x & Ex).
      destruct (Ud_def_Up i mid (lsub n m) W1 (ex_intro _ f (ex_intro _ a Ea))) as (f2 & y & Ey).
      exists (Nat.max f1 f2). intros F HF.
      assert (H1 : f1 <= F) by lia. assert (H2 : f2 <= F) by lia.
      destruct (lift F H1 Ex) as (x' & -> & _). destruct (lift F H2 Ey) as (y' & -> & _).
      apply lazy_def_both.
    - (* Ud(i,mid,n-m) is zero: so is its partner Up(mid,i,n-m) *)
      destruct E as [Za _].
      destruct (Ud_def_Up i mid (lsub n m) W1 (ex_intro _ f (ex_intro _ a Ea))) as (f2 & y & Ey).
      assert (Zy : y == vz).
      { destruct (all_zero (lsub n m)) eqn:Z.
        - exact (Up_zero f2 mid i (lsub n m) y (swf_transp _ _ _ W1) Z Ey).
        - rewrite <- (l_adj_adj L y), <- (PR_any (lsub n m) Lr Z i mid Hi Hmid _ _ _ _ Ea Ey), Za. apply (l_adj_0 L). }
      exists f2. intros F HF. destruct (zero_stays HF Ey Zy) as (y' & -> & Zv). now apply lazy_def_r.
    - destruct E as [Zb _].
      destruct (Up_def_Ud j mid m W2 (ex_intro _ f (ex_intro _ b Eb))) as (f1 & x & Ex).
      assert (Zx : x == vz).
      { destruct (all_zero m) eqn:Z.
        - exact (Ud_zero f1 j mid m x (swf_transp _ _ _ W2) Z Ex).
        - rewrite (PR_any m Lm Z j mid Hj Hmid _ _ _ _ Ex Eb), Zb. apply (l_adj_0 L). }
      exists f1. intros F HF. destruct (zero_stays HF Ex Zx) as (x' & -> & Zv). now apply lazy_def_l.
  Qed.

  Lemma all_large {A} (Q : nat -> A -> Prop) l :
    (forall a, In a l -> exists F0, forall F, F0 <= F -> Q F a) ->
    exists F0, forall F, F0 <= F -> forall a, In a l -> Q F a.
  Proof.
    induction l as [|a l IH]; intros H.
    - exists 0. intros F _ a [].
    - destruct (H a (or_introl eq_refl)) as (F1 & H1). destruct IH as (F2 & H2); [intros b Hb; apply H; now right|].
      exists (Nat.max F1 F2). intros F HF b [<-|Hb]; [apply H1; lia | apply H2; auto; lia].
  Qed.

  Lemma loop_defined sub i j n k1 k2 l :
    (forall p, In p l -> tvo O sub i j n k1 k2 p <> None) ->
    forall acc, exists w, iprod_loop O sub (i, j, n) false k1 k2 l acc = Some w.
  Proof.
    induction l as [|[mid m] r IH]; intros H acc; cbn [iprod_loop]; [eauto|].
    cbn [andb idx_i idx_j idx_n fst snd].
    change (lazy_term O _ _ _) with (tvo O sub i j n k1 k2 (mid, m)).
    destruct (tvo O sub i j n k1 k2 (mid, m)) as [[t|]|] eqn:T.
    - apply IH. intros p Hp. apply H. now right.
    - apply IH. intros p Hp. apply H. now right.
    - exfalso. apply (H (mid, m)); [now left | exact T].
  Qed.

  (** P(i,j,n) defined  =>  P(j,i,n) defined *)
  Lemma P_transp_defined i j n f w :
    swf (i, j, n) -> spec f (KN Pn) (i, j, n) = Some w -> exists f' w', spec f' (KN Pn) (j, i, n) = Some w'.
  Proof.
    intros (Hi & Hj & Hl) E. cbn [idx_i idx_j idx_n fst snd] in *.
    destruct f as [|f]; [discriminate|]. rewrite uP in E. unfold iprod_gen in E. cbn [idx_n] in E.
    destruct (loop_full L _ _ _ _ _ _ _ _ E) as [D _].
    destruct (@all_large _ (fun F p => tvo O (spec F) j i n (KN Ud) (KN Up) p <> None) (pbo_space nb n)) as (F0 & HF0).
    { intros [mid m] Hp. apply in_pbo_space in Hp. destruct Hp as [Hmid Hm].
      apply (mirror_term n i j mid m f Hl Hi Hj Hmid (proj1 (splits_ok _ _ Hm))).
      apply D, in_pbo_space. auto using splits_refl. }
    destruct (loop_defined (spec F0) j i n (KN Ud) (KN Up) (pbo_space nb n) (HF0 F0 (le_n _)) vz) as (w' & E').
    exists (S F0), w'. rewrite uP. exact E'.
  Qed.

  Theorem main_low i j n x fu w :
    swf (i, j, n) ->
    (forall fu' w', spec fu' (KN Pn) (j, i, n) = Some w' -> x == w') ->
    spec fu (KN Pn) (i, j, n) = Some w -> adj x == w.
  Proof.
    intros Hwf Hx E. destruct (P_transp_defined i j n fu w Hwf E) as (f' & w' & E').
    rewrite (Hx _ _ E'). destruct Hwf as (Hi & Hj & Hl). cbn [idx_i idx_j idx_n fst snd] in *.
    destruct fu as [|fu]; [discriminate|]. destruct f' as [|f']; [discriminate|]. rewrite uP in E, E'.
    symmetry.
    exact (prod_adjoint L fu f' (partners_main n i Hl Hi) (partners_main n j Hl Hj) (zero0_of n Hl i Hi) (zero0_of n Hl j Hj) E E').
  Qed.

  Theorem main_diag i n fu fu' w w' :
    swf (i, i, n) ->
    iprod_gen O W (spec fu) (i, i, n) false (KN Ud) (KN Up) = Some w ->
    iprod_gen O W (spec fu') (i, i, n) true (KN Ud) (KN Up) = Some w' ->
    w' == w.
  Proof.
    intros (Hi & _ & Hl) E E'. cbn [idx_i idx_j idx_n fst snd] in *.
    exact (half_sum_valid L fu fu' (partners_main n i Hl Hi) (zero0_of n Hl i Hi) E E').
  Qed.
End HermMain.

(** the hypotheses [herm_low] / [herm_diag] of [world_ok] hold for the shipped Hermitian
    algorithm (no offdiag in the scope, diag commuting with the adjoint) *)
Section MainWorld.
  Variable V : Type.
  Variable O : vops V.
  Variable eqv : V -> V -> Prop.
  Variable L : vlaws O eqv.
  Variable W : xworld V.
  Variable sfn : string -> list V -> index -> V.

  Hypothesis inputs_plain : forall x, In x (xw_inputs W) -> has_at x = false.
  Hypothesis sfn_proper : forall f l l' ix, Forall2 eqv l l' -> eqv (sfn f l ix) (sfn f l' ix).
  Hypothesis fn_tie : forall f args ix r, xw_fn W f args ix = Ok r -> eqv (den O r) (sfn f (map (den O) args) ix).
  Hypothesis vis0_complete : forall a, eqv a (v0 O) -> vis0 O a = true.
  Hypothesis no_offdiag : xw_hasoff W = false.
  Hypothesis diag_adj : forall x i n, eqv (vadj O (sfn "diag" [x] (i, i, n))) (sfn "diag" [vadj O x] (i, i, n)).

  Lemma herm_product_main s p :
    kind_of main_alg (xw_inputs W) s = KProduct p -> pherm p = true ->
    s = Pn /\ p = {| pfactors := ["U'†"; "U'"]; pherm := true |}.
  Proof.
    intros K HP. pose proof (kind_of_spec main_alg (xw_inputs W) s) as F. rewrite K in F.
    destruct (find_pdef_spec _ _ F) as [Hn Hin]. unfold main_alg in Hin. cbn [aproducts In] in Hin.
    destruct Hin as [<-|[<-|[<-|[<-|[<-|[]]]]]]; cbn in HP; try discriminate.
    split; auto.
  Qed.

  Lemma wf_swf ix : wf_index W ix = true -> swf V (SW O W sfn) ix.
  Proof.
    destruct ix as [[i j] n]. intros H. now apply wf_index_iff in H.
  Qed.

  Theorem main_world_ok : world_ok O eqv main_alg W sfn.
  Proof.
    split; auto.
    - intros s p i j n K HP Hji Hwf x Hx fu w E.
      destruct (herm_product_main s p K HP) as [-> ->].
      exact (@main_low V O eqv L (SW O W sfn) sfn_proper vis0_complete no_offdiag diag_adj i j n x fu w (wf_swf _ Hwf) Hx E).
    - intros s p i n fu w K HP Hlen Hwf E fu' w' E'.
      destruct (herm_product_main s p K HP) as [-> ->].
      exact (@main_diag V O eqv L (SW O W sfn) sfn_proper vis0_complete no_offdiag diag_adj i n fu fu' w w' (wf_swf _ Hwf) E E').
  Qed.
End MainWorld.

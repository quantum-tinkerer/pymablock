(** DSL/Terminate.v - termination of the evaluator on stratified programs.

    For a program with [stratified alg = true] (DSL/Stratified.v) every request at a full
    index ix, run with fuel >= [fuel_bound alg ix], ends with a value or a Python exception -
    never with the model-internal OutOfFuel - whatever the fault plan, from every state that
    satisfies the invariant [SI] (the initial state does: [init_SI]).

    Measure of a cache key (table, name, (i,j,n)):  inputs: 0/1;  otherwise
        2 + 4 * (total n * R + rank name) + 2 * [j < i] + [table = lin]
    with the rank of G0 when total n = 0 and of G+ otherwise, R > every rank.  Every nested
    request made while evaluating an element is strictly smaller (or an input).  The two
    places where this needs more than the syntax: (i) a series whose order-0 elements are start
    data is never evaluated at order 0 (start data are never deleted), (ii) the highest-order
    element of a product factor is requested only if the order-0 element of the other factor
    is not the sentinel zero - and it IS the sentinel for [zero0] names. *)
From Coq Require Import String List ZArith Bool Arith Lia RelationClasses.
From PV.DSL Require Import Syntax SyntaxAux Values Target Compile Interp Exec Laws Sound CompileProps HermSums HermMain Stratified.
Import ListNotations.
Open Scope string_scope.
Open Scope list_scope.

Lemma total_zero n : total n = 0 <-> all_zero n = true.
Proof.
  induction n as [|x n IH]; cbn; [tauto|]. rewrite andb_true_iff, Nat.eqb_eq, <- IH. unfold total in *. lia.
Qed.

Lemma assoc_rank_le l s : assoc_rank l s <= fold_right Nat.max 0 (map snd l).
Proof.
  induction l as [|[n r] l IH]; cbn; [lia|]. destruct (String.eqb n s); lia.
Qed.

Fixpoint tment (t : texpr) : list (string * bool) :=
  match t with
  | TResult | TZero => []
  | TGet s tr => [(s, tr)]
  | TDagger a | TNeg a | TSafeDiv a _ => tment a
  | TZeroSum l => flat_map tment l
  | TCall _ args => flat_map (fun a => match a with TASeries s => [(s, false)] | TAExpr a => tment a end) args
  | TIfExp _ a b => tment a ++ tment b
  end.

Fixpoint tzero (z : string -> bool) (t : texpr) : bool :=
  match t with
  | TResult | TZero => true
  | TGet s _ => z s
  | TDagger a | TNeg a | TSafeDiv a _ => tzero z a
  | TZeroSum l => forallb (tzero z) l
  | TCall _ _ => false
  | TIfExp _ a b => tzero z a && tzero z b
  end.

Section SentinelFacts.
  Variable V : Type.
  Variable O : vops V.
  Lemma sadd_no_oof (a b : sval V) : sadd O a b <> OutOfFuel.
  Proof. destruct a, b; cbn; discriminate. Qed.
  Lemma sneg_no_oof (a : sval V) : sneg O a <> OutOfFuel.
  Proof. destruct a; cbn; discriminate. Qed.
  Lemma sdagger_no_oof (a : sval V) : sdagger O a <> OutOfFuel.
  Proof. destruct a; cbn; discriminate. Qed.
  Lemma sdivide_no_oof (a : sval V) k : sdivide O a k <> OutOfFuel.
  Proof. destruct a; cbn; discriminate. Qed.
  Lemma ssum_no_oof l : forall acc : sval V, ssum_from O acc l <> OutOfFuel.
  Proof.
    induction l as [|t r IH]; intros acc; cbn; [discriminate|].
    destruct (is_zero t); auto. destruct (sadd O acc t) eqn:E; auto; try discriminate.
    exfalso. eapply sadd_no_oof; eauto.
  Qed.
  Lemma ssum_zeros l : Forall (fun v : sval V => v = SZero) l -> ssum_from O SZero l = Ok SZero.
  Proof. induction 1 as [|x l Hx Hl IH]; cbn; auto. subst. cbn. exact IH. Qed.
End SentinelFacts.

Lemma tment_negate t : tment (negate t) = tment t.
Proof. destruct t; reflexivity. Qed.

Lemma tzero_negate z t : tzero z (negate t) = tzero z t.
Proof. destruct t; reflexivity. Qed.

Lemma tment_flat t : flat_map tment (flat t) = tment t.
Proof. destruct t; cbn [flat flat_map]; rewrite ?app_nil_r; reflexivity. Qed.

Lemma tzero_flat z t : forallb (tzero z) (flat t) = tzero z t.
Proof. destruct t; cbn [flat forallb]; rewrite ?andb_true_r; reflexivity. Qed.

Lemma flat_map_negate l : flat_map tment (map negate l) = flat_map tment l.
Proof. induction l as [|a r IH]; cbn; auto. now rewrite tment_negate, IH. Qed.

Lemma forallb_negate z l : forallb (tzero z) (map negate l) = forallb (tzero z) l.
Proof. induction l as [|a r IH]; cbn; auto. now rewrite tzero_negate, IH. Qed.

Lemma tment_cexpr dg e : forall p, In p (tment (cexpr dg e)) -> In (fst p) (map fst (uses_expr e)).
Proof.
  induction e using expr_ind'; intros p Hp; cbn [cexpr uses_expr] in *.
  - destruct Hp as [<-|[]]. now left.
  - destruct Hp as [<-|[]]. now left.
  - destruct Hp.
  - auto.
  - cbn [tment] in Hp. rewrite flat_map_app, !tment_flat in Hp. rewrite map_app. apply in_or_app.
    apply in_app_or in Hp. destruct Hp; [left | right]; auto.
  - cbn [tment] in Hp. rewrite flat_map_app, flat_map_negate, !tment_flat in Hp. rewrite map_app. apply in_or_app.
    apply in_app_or in Hp. destruct Hp; [left | right]; auto.
  - auto.
  - cbn [tment] in Hp. induction H as [|a r Ha Hr IH]; [destruct Hp|].
    destruct a as [s|e'].
    + cbn [arg_series] in Hp. cbn in Hp |- *. destruct Hp as [<-|Hp]; [now left | right; auto].
    + destruct (arg_series (ArgExpr e')) as [s|] eqn:As.
      * destruct e'; try discriminate. inversion As; subst. cbn in Hp |- *.
        destruct Hp as [<-|Hp]; [now left | right; auto].
      * rewrite map_app. apply in_or_app. apply in_app_or in Hp. destruct Hp as [Hp|Hp]; [left; now apply Ha | right; auto].
  - rewrite map_app. apply in_or_app. apply in_app_or in Hp. destruct Hp; [left | right]; auto.
Qed.

Lemma tzero_cexpr z dg e : zexpr z e = true -> tzero z (cexpr dg e) = true.
Proof.
  induction e using expr_ind'; intros Z; cbn [cexpr zexpr] in *.
  - exact Z.
  - exact Z.
  - reflexivity.
  - cbn [tzero]. auto.
  - apply andb_true_iff in Z. destruct Z as [Z1 Z2].
    cbn [tzero]. rewrite forallb_app, !tzero_flat. now rewrite IHe1, IHe2.
  - apply andb_true_iff in Z. destruct Z as [Z1 Z2].
    cbn [tzero]. rewrite forallb_app, forallb_negate, !tzero_flat. now rewrite IHe1, IHe2.
  - cbn [tzero]. auto.
  - discriminate.
  - apply andb_true_iff in Z. destruct Z as [Z1 Z2]. cbn [tzero]. now rewrite IHe1, IHe2.
Qed.

Definition costf (a i : nat) : nat := a * ((i + 1) * (i + 1)).

Lemma fl_ge m : forall a, a <= fold_left costf m a.
Proof. induction m as [|x m IH]; intros a; cbn; [lia|]. specialize (IH (costf a x)). unfold costf in *. nia. Qed.

Lemma fl_zero m : all_zero m = true -> forall a, fold_left costf m a = a.
Proof.
  induction m as [|x m IH]; intros Z a; cbn; auto. cbn in Z. apply andb_true_iff in Z. destruct Z as [Z1 Z2].
  apply Nat.eqb_eq in Z1. subst. rewrite (IH Z2). unfold costf. lia.
Qed.

Lemma fl_big m : all_zero m = false -> forall a, 4 * a <= fold_left costf m a.
Proof.
  induction m as [|x m IH]; intros Z a; cbn in *; [discriminate|].
  destruct (Nat.eqb x 0) eqn:E.
  - apply Nat.eqb_eq in E. subst. cbn in Z. specialize (IH Z (costf a 0)). unfold costf in *. lia.
  - apply Nat.eqb_neq in E. pose proof (fl_ge m (costf a x)). unfold costf in *. nia.
Qed.

Lemma cost_zero m : all_zero m = true -> cost m = 1.
Proof. intros Z. unfold cost. now apply (fl_zero m Z 1). Qed.

Lemma cost_big m : all_zero m = false -> 4 <= cost m.
Proof. intros Z. unfold cost. exact (fl_big m Z 1). Qed.

Lemma zexpr_mono (z z' : string -> bool) e :
  (forall s, z s = true -> z' s = true) -> zexpr z e = true -> zexpr z' e = true.
Proof.
  intros H. induction e using expr_ind'; cbn [zexpr]; auto; try discriminate;
    intros Z; apply andb_true_iff in Z; destruct Z; apply andb_true_iff; auto.
Qed.

Lemma zero0_step_mono alg (z z' : string -> bool) s :
  (forall t, z t = true -> z' t = true) -> zero0_step alg z s = true -> zero0_step alg z' s = true.
Proof.
  intros H. unfold zero0_step. destruct (find_pdef s (aproducts alg)) as [p|].
  - rewrite !existsb_exists. intros (t & Ht & Zt). exists t. auto.
  - destruct (find_sdef s (aseries alg)) as [d|]; auto. destruct (sstart d); auto;
      rewrite !forallb_forall; intros F l Hl; specialize (F l Hl); destruct l as [c e|h]; auto; destruct c; auto;
      cbn [zline] in *; eapply zexpr_mono; eauto.
Qed.

Lemma iter_chain alg n s :
  iter n (zero0_step alg) (fun _ => false) s = true -> iter (S n) (zero0_step alg) (fun _ => false) s = true.
Proof.
  revert s. induction n as [|n IH]; intros s; [discriminate|].
  cbn [iter]. apply zero0_step_mono. exact IH.
Qed.

(** [zero0] is a post-fixpoint: what one more step over [zero0] itself gives is [zero0]'s
    own one-step unfolding over a smaller approximation *)
Lemma zero0_unfold alg s :
  zero0 alg s = true -> zero0_step alg (zero0 alg) s = true.
Proof.
  unfold zero0. set (n := length (all_names alg)). cbn [iter]. apply zero0_step_mono. apply iter_chain.
Qed.

Section Measure.
  Variable alg : algorithm.

  Definition rk (order0 : bool) (s : string) : nat := assoc_rank (auto_rank alg order0) s.

  Definition RR : nat :=
    S (Nat.max (fold_right Nat.max 0 (map snd (auto_rank alg false)))
               (fold_right Nat.max 0 (map snd (auto_rank alg true)))).

  Lemma rk_lt b s : rk b s < RR.
  Proof. unfold rk, RR. pose proof (assoc_rank_le (auto_rank alg b) s). destruct b; lia. Qed.

  Definition fuel_bound (ix : index) : nat := 4 * (S (total (idx_n ix)) * RR) + 8.
End Measure.

Section Terminate.
  Variable V : Type.
  Variable O : vops V.
  Variable alg : algorithm.
  Variable W : xworld V.

  Notation inputs := (xw_inputs W).
  Notation st := (state V).
  Notation prog := (compile alg).

  Hypothesis Hstrat : stratified alg = true.
  Hypothesis fn_no_oof : forall f args ix, xw_fn W f args ix <> OutOfFuel.
  (** a start value "X_0" names an input of the computation (otherwise there is no start datum) *)
  Hypothesis start_inputs : forall d x, In d (aseries alg) -> sstart d = StartInput x -> mem_string x inputs = true.

  Definition z0 := zero0 alg.
  (** leaves of the evaluation: inputs (one user callback) and unknown names (KeyError) *)
  Definition is_inp (s : string) : bool := match kind_of alg inputs s with KInput | KUnknown => true | _ => false end.
  Definition order0 (ix : index) : bool := Nat.eqb (total (idx_n ix)) 0.
  Definition lowb (ix : index) : nat := if Nat.ltb (idx_j ix) (idx_i ix) then 1 else 0.
  Definition tbit (tb : tbl) : nat := match tb with TTab => 0 | TLin => 1 end.

  Definition mu (tb : tbl) (k : key) (ix : index) : nat :=
    match k with
    | KI _ _ => 2
    | KN s => if is_inp s then tbit tb
              else 2 + 4 * (total (idx_n ix) * RR alg + rk alg (order0 ix) s) + 2 * lowb ix + tbit tb
    end.

  Lemma mu_bound tb k ix : mu tb k ix < fuel_bound alg ix.
  Proof.
    unfold mu, fuel_bound. destruct k as [s|]; [|lia]. destruct (is_inp s); [destruct tb; cbn; lia|].
    pose proof (rk_lt alg (order0 ix) s). unfold lowb. destruct (Nat.ltb _ _), tb; cbn [tbit]; lia.
  Qed.

  (* the four ways in which a nested request is smaller *)
  Lemma mu_input tb tb' s s' ix ix' : is_inp s' = true -> is_inp s = false -> mu tb' (KN s') ix' < mu tb (KN s) ix.
  Proof. intros H H'. unfold mu. rewrite H, H'. destruct tb'; cbn; lia. Qed.

  Lemma mu_order tb tb' s s' ix ix' :
    is_inp s = false -> total (idx_n ix') < total (idx_n ix) -> mu tb' (KN s') ix' < mu tb (KN s) ix.
  Proof.
    intros H Ht. unfold mu. rewrite H. destruct (is_inp s'); [destruct tb'; cbn; lia|].
    pose proof (rk_lt alg (order0 ix') s'). unfold lowb. destruct (Nat.ltb (idx_j ix') (idx_i ix')), tb'; cbn [tbit]; nia.
  Qed.

  Lemma mu_rank tb tb' s s' ix ix' :
    is_inp s = false -> idx_n ix' = idx_n ix -> rk alg (order0 ix) s' < rk alg (order0 ix) s ->
    mu tb' (KN s') ix' < mu tb (KN s) ix.
  Proof.
    intros H Hn Hr. unfold mu. rewrite H. destruct (is_inp s'); [destruct tb'; cbn; lia|].
    assert (order0 ix' = order0 ix) as -> by (unfold order0; now rewrite Hn). rewrite Hn.
    unfold lowb. destruct (Nat.ltb (idx_j ix') (idx_i ix')), (Nat.ltb (idx_j ix) (idx_i ix)), tb', tb; cbn [tbit]; lia.
  Qed.

  Lemma mu_lower tb tb' s ix :
    is_inp s = false -> idx_j ix < idx_i ix -> mu tb' (KN s) (transp ix) < mu tb (KN s) ix.
  Proof.
    intros H Hl. unfold mu. rewrite H. destruct ix as [[i j] n]. unfold transp, lowb, order0. cbn [idx_i idx_j idx_n fst snd] in *.
    assert (Nat.ltb j i = true) as -> by (now apply Nat.ltb_lt).
    assert (Nat.ltb i j = false) as -> by (apply Nat.ltb_ge; lia). destruct tb', tb; cbn [tbit]; lia.
  Qed.

  Lemma mu_table s ix : mu TTab (KN s) ix < mu TLin (KN s) ix.
  Proof. unfold mu. destruct (is_inp s); cbn; lia. Qed.

  Lemma strat_parts :
    graph_ok alg false = true /\ graph_ok alg true = true /\ one_safe alg = true /\
    forallb (fun p => Nat.eqb (length (pfactors p)) 2) (aproducts alg) = true.
  Proof.
    pose proof Hstrat as H. unfold stratified in H.
    apply andb_true_iff in H. destruct H as [H H4]. apply andb_true_iff in H. destruct H as [H H3].
    apply andb_true_iff in H. destruct H as [H1 H2]. auto.
  Qed.

  Lemma in_all_names_series d : In d (aseries alg) -> mem_str (sname d) (all_names alg) = true.
  Proof.
    intros H. unfold mem_str, all_names. apply existsb_exists. exists (sname d). split; [|apply String.eqb_refl].
    apply in_or_app. left. now apply in_map.
  Qed.

  Lemma in_all_names_product p : In p (aproducts alg) -> mem_str (pname p) (all_names alg) = true.
  Proof.
    intros H. unfold mem_str, all_names. apply existsb_exists. exists (pname p). split; [|apply String.eqb_refl].
    apply in_or_app. right. now apply in_map.
  Qed.

  Lemma kind_known_in t : is_inp t = false -> mem_str t (all_names alg) = true.
  Proof.
    unfold is_inp. pose proof (kind_of_spec alg inputs t) as S.
    destruct (kind_of alg inputs t) as [|d|p|]; try discriminate; intros _.
    - destruct (find_sdef_spec _ _ (proj2 S)) as [<- Hin]. now apply in_all_names_series.
    - destruct (find_pdef_spec _ _ S) as [<- Hin]. now apply in_all_names_product.
  Qed.

  (** an edge of the graph decreases the rank *)
  Lemma edge_rank b s t :
    mem_str s (all_names alg) = true -> In t (succs alg b s) -> mem_str t (all_names alg) = true ->
    rk alg b t < rk alg b s.
  Proof.
    intros Hs Ht Hm. destruct strat_parts as (G1 & G2 & _).
    assert (G : graph_ok alg b = true) by (destruct b; auto).
    unfold graph_ok in G. rewrite forallb_forall in G.
    unfold mem_str in Hs. apply existsb_exists in Hs. destruct Hs as (s' & Hs' & E). apply String.eqb_eq in E. subst s'.
    specialize (G s Hs'). rewrite forallb_forall in G. specialize (G t Ht). rewrite Hm in G. cbn in G.
    apply Nat.ltb_lt in G. exact G.
  Qed.

  Definition wfi (ix : index) : Prop := wf_index W ix = true.

  (** the value of a [zero0] name at order 0 is the sentinel *)
  Definition ZV (k : key) (ix : index) (v : sval V) : Prop :=
    forall s, k = KN s -> z0 s = true -> wfi ix -> total (idx_n ix) = 0 -> v = SZero.

  Record SI (s : st) : Prop := {
    si_start : forall x d ix sv, kind_of alg inputs x = KSeries d -> start_sval W d ix = Some sv ->
                                 st_lookup s (TTab, KN x, ix) = Some (Done sv);
    si_zero : forall tb k ix v, st_lookup s (tb, k, ix) = Some (Done v) -> ZV k ix v
  }.

  Lemma SI_upd (s s' : st) ck o :
    SI s -> upd ck o s s' -> not_start alg W ck ->
    (forall tb k ix v, ck = (tb, k, ix) -> o = Some (Done v) -> ZV k ix v) -> SI s'.
  Proof.
    intros [I1 I2] (_ & _ & Hl) NS Hz. split.
    - intros x d ix sv K S. rewrite Hl.
      destruct (ckey_eqb_spec ck (TTab, KN x, ix)) as [E|N]; [exfalso; exact (NS _ _ _ _ E K S) | eauto].
    - intros tb k ix v. rewrite Hl.
      destruct (ckey_eqb_spec ck (tb, k, ix)) as [E|N]; [exact (Hz _ _ _ _ E) | apply I2].
  Qed.

  (** triples that also say that the run does not end with OutOfFuel *)
  Instance any_pre : PreOrder (fun _ _ : st => True).
  Proof. split; repeat intro; exact I. Qed.

  Definition tok {A} : M V A -> (A -> Prop) -> Prop := triple (fun _ : unit => SI) True (R := fun _ _ => True).

  Lemma tok_lift {A} (r0 : res A) (P : A -> Prop) : r0 <> OutOfFuel -> (forall a, r0 = Ok a -> P a) -> tok (Exec.lift r0) P.
  Proof. intros N H. apply triple_lift; auto. Qed.

  Lemma tok_tick ev : tok (tick W ev) (fun _ => True).
  Proof.
    intros _ s r s' I E _. unfold tick in E.
    assert (I' : SI {| cache := cache s; calls := S (calls s); log := ev :: log s |}) by (destruct I; split; auto).
    destruct (xw_fault W (calls s)); inversion E; subst; (split; [discriminate|]); auto.
  Qed.

  Lemma tok_del x ix : tok (del_ alg W x ix) (fun _ => True).
  Proof.
    intros _ s r s' I E _. unfold del_ in E. destruct (all_zero (idx_n ix)) eqn:Z; [|destruct (known alg W x)];
      inversion E; subst; (split; [discriminate|]); auto.
    split; auto. eapply SI_upd; [eapply SI_upd; [exact I | apply upd_remove | |] | apply upd_remove | |];
      try discriminate; now apply order_not_start.
  Qed.

  Lemma wfi_transp ix : wfi ix -> wfi (transp ix).
  Proof.
    destruct ix as [[i j] n]. unfold wfi, transp. cbn [idx_i idx_j idx_n fst snd]. rewrite !wf_index_iff. tauto.
  Qed.

  Section Pass.
    Variable rec : getter V.
    Variable m0 : nat.
    Hypothesis Hrec : forall tb k ix, mu tb k ix < m0 -> tok (rec tb k ix) (ZV k ix).
    Variable which : tbl.
    Variable idx : index.

    (** the request for [fst p] at the index ([snd p]: transposed) is smaller than the current one *)
    Definition smallk (p : string * bool) : Prop :=
      forall tb', mu tb' (KN (fst p)) (if snd p then transp idx else idx) < m0.
    Definition small (p : string * bool) : Prop := known alg W (fst p) = true -> smallk p.

    Lemma deref_tok f h : (forall s, h = HSeries s -> smallk (s, false)) -> tok (deref W rec which idx f h) (fun _ => True).
    Proof.
      intros Hs. destruct h as [s|v]; cbn [deref]; [|now apply triple_ret].
      destruct (xw_access W f idx); [|now apply triple_ret].
      eapply triple_weaken; [apply Hrec, (Hs s eq_refl) | auto].
    Qed.

    Lemma deref_all_tok f hs :
      Forall (fun h => forall s, h = HSeries s -> smallk (s, false)) hs -> tok (deref_all W rec which idx f hs) (fun _ => True).
    Proof.
      intros H. rewrite deref_all_mapM. eapply triple_weaken; [|auto].
      apply triple_mapM with (P := fun _ _ => True). eapply Forall_impl; [|exact H]. intros h Hh. now apply deref_tok.
    Qed.

    Lemma call_fn_tok f hs :
      Forall (fun h => forall s, h = HSeries s -> smallk (s, false)) hs -> tok (call_fn W rec which idx f hs) (fun _ => True).
    Proof.
      intros H. unfold call_fn. eapply triple_bind with (P := fun _ => True).
      { destruct (xw_counted W f); [apply tok_tick | now apply triple_ret]. }
      intros _ _. eapply triple_bind; [now apply deref_all_tok|]. intros vs _.
      apply tok_lift; [apply fn_no_oof | auto].
    Qed.

    Definition zpost (t : texpr) (result v : sval V) : Prop :=
      tzero z0 t = true -> wfi idx -> total (idx_n idx) = 0 -> result = SZero -> v = SZero.

    Lemma eval_texpr_tok t :
      (forall p, In p (tment t) -> small p) ->
      forall result, tok (eval_texpr O alg W rec which idx result t) (zpost t result).
    Proof.
      induction t using texpr_ind'; intros Hs result; cbn [tment] in Hs.
      - apply triple_ret. intros _ _ _ E. exact E.
      - apply triple_ret. intros _ _ _ _. reflexivity.
      - cbn [eval_texpr]. destruct (known alg W s) eqn:K; [|apply triple_raise].
        assert (Sm : smallk (s, tr)) by (apply Hs; [now left | exact K]).
        eapply triple_weaken; [apply Hrec, Sm|].
        intros v Hv Z Wf T _. cbn [tzero] in Z. apply (Hv s eq_refl Z).
        + destruct tr; [now apply wfi_transp | exact Wf].
        + destruct tr; [destruct idx as [[i j] n]|]; exact T.
      - cbn [eval_texpr]. eapply triple_bind; [apply IHt; exact Hs|]. intros v Hv.
        apply tok_lift; [apply sdagger_no_oof|]. intros z Ez Z Wf T R. cbn [tzero] in Z.
        rewrite (Hv Z Wf T R) in Ez. cbn in Ez. now inversion Ez.
      - cbn [eval_texpr]. eapply triple_bind; [apply IHt; exact Hs|]. intros v Hv.
        apply tok_lift; [apply sneg_no_oof|]. intros z Ez Z Wf T R. cbn [tzero] in Z.
        rewrite (Hv Z Wf T R) in Ez. cbn in Ez. now inversion Ez.
      - rewrite eval_zsum. eapply triple_bind.
        + apply triple_mapM with (P := fun a v => zpost a result v). rewrite Forall_forall in *. intros a Ha.
          apply (H a Ha). intros p Hp. apply Hs, in_flat_map. eauto.
        + intros vs Hvs. apply tok_lift; [apply ssum_no_oof|]. intros z Ez Z Wf T R. cbn [tzero] in Z.
          unfold szero_sum in Ez. rewrite (@ssum_zeros _ O vs) in Ez; [now inversion Ez|]. clear Ez H Hs.
          induction Hvs as [|a v l' vs' Hv Hvs IH]; [constructor|]. cbn [forallb] in Z. apply andb_true_iff in Z.
          destruct Z as [Z1 Z2]. constructor; [exact (Hv Z1 Wf T R) | exact (IH Z2)].
      - cbn [eval_texpr]. eapply triple_bind; [apply IHt; exact Hs|]. intros v Hv.
        apply tok_lift; [apply sdivide_no_oof|]. intros z Ez Z Wf T R. cbn [tzero] in Z.
        rewrite (Hv Z Wf T R) in Ez. cbn in Ez. now inversion Ez.
      - apply eval_call_rule with (P := fun _ h => forall s, h = HSeries s -> smallk (s, false)).
        + rewrite Forall_forall in *. intros a Ha. specialize (H a Ha). destruct a as [s|e]; cbn [targP] in H.
          * intros K s' [= <-]. apply (Hs (s, false)); [|exact K]. apply in_flat_map. exists (TASeries s). split; [exact Ha | now left].
          * eapply triple_weaken; [|intros v _ s' [=]]. apply H. intros p Hp. apply Hs, in_flat_map. exists (TAExpr e). auto.
        + intros hs Hhs. apply Forall2_Forall_r in Hhs. eapply triple_weaken; [now apply call_fn_tok|].
          intros v _ Z. cbn [tzero] in Z. discriminate.
      - cbn [eval_texpr]. destruct (xflag W c idx).
        + eapply triple_weaken; [apply IHt1; intros s Hin; apply Hs, in_or_app; now left|].
          intros v Hv Z Wf T R. cbn [tzero] in Z. apply andb_true_iff in Z. destruct Z. auto.
        + eapply triple_weaken; [apply IHt2; intros s Hin; apply Hs, in_or_app; now right|].
          intros v Hv Z Wf T R. cbn [tzero] in Z. apply andb_true_iff in Z. destruct Z. auto.
    Qed.

    Definition lines_post (name : string) (lines : list line) (result v : sval V) : Prop :=
      z0 name = true -> forallb (zline z0) lines = true -> wfi idx -> total (idx_n idx) = 0 -> result = SZero -> v = SZero.

    Lemma small_of_names (names : list string) t :
      (forall s tr, In s names -> small (s, tr)) ->
      (forall p, In p (tment t) -> In (fst p) names) ->
      forall p, In p (tment t) -> small p.
    Proof. intros H1 H2 [s tr] Hp. apply H1. exact (H2 _ Hp). Qed.

    Lemma tment_ctop e p : In p (tment (ctop false e)) -> In (fst p) (map fst (uses_expr e)).
    Proof.
      unfold ctop. cbn [flat_map tment app]. rewrite tment_flat. apply tment_cexpr.
    Qed.

    Lemma tment_wrap dg f e p :
      In p (tment (wrapped f dg e)) -> In (fst p) (map fst (uses_expr e)).
    Proof.
      unfold wrapped. cbn [flat_map tment app]. rewrite app_nil_r.
      destruct e; cbn [cwrap_arg]; try (rewrite app_nil_r; apply tment_cexpr).
      intros [<-|[]]. now left.
    Qed.

    Lemma lines_tok name td lines :
      (forall l, In l lines -> forall s tr, In s (line_mentions l) -> small (s, tr)) ->
      (idx_j idx < idx_i idx -> small (name, true)) ->
      forall result,
        tok (exec_stmts O alg W rec which idx (flat_map (cline name td) lines) result) (lines_post name lines result).
    Proof.
      intros Hm Hself.
      apply lines_rule with (deletable := fun _ => True) (T := zpost) (Q := lines_post name).
      - intros x ix _. apply tok_del.
      - apply Forall_forall. auto.
      - intros l t stop result Hl E. apply eval_texpr_tok. specialize (Hm l Hl).
        destruct l as [[| |] e|h]; cbn [line_step line_mentions] in *.
        + injection E as <- _. apply (small_of_names _ _ Hm), tment_ctop.
        + destruct (test_holds W idx TDiag); [|discriminate]. injection E as <- _.
          apply (small_of_names _ _ Hm), tment_wrap.
        + destruct (test_holds W idx TOffdiag); [|destruct (test_holds W idx TOffdiagFn); [|discriminate]];
            injection E as <- _; apply (small_of_names _ _ Hm); [apply tment_ctop | apply tment_wrap].
        + destruct (test_holds W idx TLower) eqn:Lw; [|discriminate]. injection E as <- _.
          intros p Hp. assert (p = (name, true)) as ->.
          { cbn [flat_map tment app] in Hp. destruct h; cbn [tment app] in Hp; destruct Hp as [<-|[]]; auto. }
          apply Hself. now apply Nat.ltb_lt.
      - intros result _ _ _ _ E. exact E.
      - intros l r result. destruct l as [[| |] e|h]; cbn [line_step].
        + intros v1 v Hv1 Hv Zn Z Wf T R. cbn [forallb zline] in Z. apply andb_true_iff in Z. destruct Z as [Z1 Z2].
          apply (Hv Zn Z2 Wf T). apply Hv1; auto.
          unfold ctop. cbn [forallb tzero]. rewrite tzero_flat. now apply tzero_cexpr.
        + destruct (test_holds W idx TDiag); intros; discriminate.
        + destruct (test_holds W idx TOffdiag); [|destruct (test_holds W idx TOffdiagFn)]; intros; discriminate.
        + destruct (test_holds W idx TLower).
          * intros v Hv Zn Z Wf T R. apply Hv; auto. cbn [tzero forallb]. destruct h; cbn [tzero]; now rewrite Zn.
          * intros v Hv Zn Z. exact (Hv Zn Z).
    Qed.

    Lemma mk_term_tok ix a b : tok (mk_term O W ix a b) (fun _ => True).
    Proof.
      destruct a, b; cbn [mk_term]; try (now apply triple_ret).
      eapply triple_bind; [apply tok_tick|]. intros _ _. now apply triple_ret.
    Qed.

    Lemma accumulate_tok hp acc t : tok (accumulate O hp acc t) (fun _ => True).
    Proof.
      unfold accumulate. destruct hp.
      - eapply triple_bind with (P := fun _ => True); [apply tok_lift; [apply sadd_no_oof | auto]|]. intros x _.
        eapply triple_bind with (P := fun _ => True); [apply tok_lift; [apply sdagger_no_oof | auto]|]. intros d _.
        apply tok_lift; [apply sadd_no_oof | auto].
      - apply tok_lift; [apply sadd_no_oof | auto].
    Qed.

    (** what is known about one term (mid, m1) of the loop *)
    Definition term_ok (tb : tbl) (k1 k2 : key) (p : nat * list nat) : Prop :=
      let m2 := lsub (idx_n idx) (snd p) in
      let i1 := (idx_i idx, fst p, snd p) in
      let i2 := (fst p, idx_j idx, m2) in
      (Nat.leb (cost (snd p)) (cost m2) = true ->
         mu tb k1 i1 < m0 /\ (forall v, ZV k1 i1 v -> is_zero v = false -> mu tb k2 i2 < m0)) /\
      (Nat.leb (cost (snd p)) (cost m2) = false ->
         mu tb k2 i2 < m0 /\ (forall v, ZV k2 i2 v -> is_zero v = false -> mu tb k1 i1 < m0)).

    (** one of the two factors is the sentinel zero *)
    Definition term_zero (k1 k2 : key) (p : nat * list nat) : Prop :=
      let m2 := lsub (idx_n idx) (snd p) in
      (forall v, ZV k1 (idx_i idx, fst p, snd p) v -> is_zero v = true) \/
      (forall v, ZV k2 (fst p, idx_j idx, m2) v -> is_zero v = true).

    Lemma pbo_loop_tok tb k1 k2 herm l :
      Forall (term_ok tb k1 k2) l ->
      forall acc, tok (pbo_loop O W rec tb k1 k2 herm idx l acc)
                      (fun v => Forall (term_zero k1 k2) l -> v = acc).
    Proof.
      induction 1 as [|[mid m1] r [T1 T2] Hr IH]; intros acc; cbn [pbo_loop].
      - apply triple_ret. auto.
      - cbn [fst snd] in T1, T2.
        set (m2 := lsub (idx_n idx) m1) in *.
        set (i1 := (idx_i idx, mid, m1)) in *. set (i2 := (mid, idx_j idx, m2)) in *.
        assert (NEXT : tok (pbo_loop O W rec tb k1 k2 herm idx r acc)
                           (fun v => Forall (term_zero k1 k2) ((mid, m1) :: r) -> v = acc)).
        { eapply triple_weaken; [apply IH|]. intros v Hv F. inversion F; subst. auto. }
        destruct (herm && lex_gt m1 m2); [exact NEXT|].
        apply triple_branch_when with (K := True); [auto | intros _; exact NEXT |].
        assert (FULL : forall a b, is_zero a = false -> is_zero b = false -> ZV k1 i1 a -> ZV k2 i2 b ->
                  tok (bind (mk_term O W idx a b) (fun t =>
                         bind (accumulate O (herm && negb (lnat_eqb m1 m2)) acc t) (fun acc' =>
                           pbo_loop O W rec tb k1 k2 herm idx r acc')))
                      (fun v => Forall (term_zero k1 k2) ((mid, m1) :: r) -> v = acc)).
        { intros a b Za Zb Ha Hb.
          eapply triple_bind; [apply mk_term_tok|]. intros t _.
          eapply triple_bind; [apply accumulate_tok|]. intros acc' _.
          eapply triple_weaken; [apply IH|]. intros v _ F. inversion F as [|? ? TZ _]; subst.
          exfalso. destruct TZ as [TZ|TZ]; cbn [fst snd] in TZ.
          - specialize (TZ a Ha). congruence.
          - specialize (TZ b Hb). congruence. }
        destruct (Nat.leb (cost m1) (cost m2)) eqn:C.
        + destruct (T1 eq_refl) as [S1 S2].
          eapply triple_bind; [apply Hrec, S1|]. intros a Ha.
          destruct (is_zero a) eqn:Za; [exact NEXT|].
          eapply triple_bind; [apply Hrec, (S2 a Ha Za)|]. intros b Hb.
          destruct (is_zero b) eqn:Zb; [exact NEXT|].
          now apply FULL.
        + destruct (T2 eq_refl) as [S1 S2].
          eapply triple_bind; [apply Hrec, S1|]. intros b Hb.
          destruct (is_zero b) eqn:Zb; [exact NEXT|].
          eapply triple_bind; [apply Hrec, (S2 b Hb Zb)|]. intros a Ha.
          destruct (is_zero a) eqn:Za; [exact NEXT|].
          now apply FULL.
    Qed.
  End Pass.

  Lemma z0_leaf s : is_inp s = true -> z0 s = false.
  Proof.
    unfold is_inp, z0. intros H. destruct (zero0 alg s) eqn:Z; auto.
    apply zero0_unfold in Z. unfold zero0_step in Z. pose proof (kind_of_spec alg inputs s) as S.
    destruct (kind_of alg inputs s); try discriminate; destruct S as (E1 & E2 & _); rewrite E1, E2 in Z; discriminate.
  Qed.

  Lemma ole_total_eq m n : ole m n -> total m = total n -> m = n.
  Proof.
    intros H E. destruct (list_eq_dec Nat.eq_dec m n) as [->|N]; auto. pose proof (ole_total_lt m n H N). lia.
  Qed.

  Lemma start_exists d i j n :
    In d (aseries alg) -> full_start d = true -> wfi (i, j, n) -> total n = 0 -> exists sv, start_sval W d (i, j, n) = Some sv.
  Proof.
    intros Hd Hf Hwf T. destruct (proj1 (wf_index_iff W _ _ _) Hwf) as (Hi & Hj & Hl).
    unfold start_sval, x_start_index. cbn [idx_i idx_j idx_n fst snd].
    apply total_zero in T. apply Nat.ltb_lt in Hi, Hj. apply Nat.eqb_eq in Hl. rewrite T, Hi, Hj, Hl. cbn.
    unfold full_start in Hf. destruct (sstart d) eqn:S; try discriminate; eauto.
    rewrite (start_inputs d s Hd S). eauto.
  Qed.

  (** the successors of a two-factor product in the two graphs *)
  Lemma succs_product x p a b o :
    find_pdef x (aproducts alg) = Some p -> pfactors p = [a; b] ->
    succs alg o x = (if o then [a] else if z0 b then [] else [a]) ++ (if z0 a then [] else [b]).
  Proof. intros F Fs. unfold succs. now rewrite F, Fs. Qed.

  (** every term of the product [x = a @ b] at a full index is requested at a smaller measure, the
      factor that is looked at second only if the first is not the sentinel zero *)
  Lemma product_term_ok x p a b tb i j n mid m1 :
    find_pdef x (aproducts alg) = Some p -> pfactors p = [a; b] -> is_inp x = false ->
    wfi (i, j, n) -> mid < xw_nb W -> In m1 (splits n) ->
    term_ok (mu tb (KN x) (i, j, n)) (i, j, n) tb (KN a) (KN b) (mid, m1).
  Proof.
    intros F Fs NL Hwf Hmid Hm. destruct (find_pdef_spec _ _ F) as [Hn Hin].
    assert (InP : mem_str x (all_names alg) = true) by (rewrite <- Hn; now apply in_all_names_product).
    pose proof (fun o => succs_product x p a b o F Fs) as SUCC.
    destruct (splits_ok _ _ Hm) as [O1 O2].
    assert (Z2 : all_zero (lsub n n) = true) by apply all_zero_lsub.
    unfold term_ok. cbn [fst snd idx_i idx_j idx_n].
    (* facts on orders *)
    assert (T1 : total m1 < total n \/ m1 = n) by (destruct (list_eq_dec Nat.eq_dec m1 n); [now right | left; now apply ole_total_lt]).
    assert (T2 : total (lsub n m1) < total n \/ lsub n m1 = n)
      by (destruct (list_eq_dec Nat.eq_dec (lsub n m1) n); [now right | left; now apply ole_total_lt]).
    destruct (@wf_split _ W _ _ _ _ _ Hwf Hmid Hm) as [Wf1 Wf2].
    assert (EDGE : forall t, In t (succs alg (order0 (i, j, n)) x) -> is_inp t = false ->
                   forall tb' ix', idx_n ix' = n -> mu tb' (KN t) ix' < mu tb (KN x) (i, j, n)).
    { intros t Ht Lt tb' ix' En. apply mu_rank; auto. apply edge_rank; auto. now apply kind_known_in. }
    split; intros C.
    - split.
      + destruct (is_inp a) eqn:La; [now apply mu_input|].
        destruct T1 as [T1|T1]; [now apply mu_order|]. subst m1.
        (* the first factor at the full order, looked at first: only at order 0 *)
        assert (Oz : all_zero n = true).
        { destruct (all_zero n) eqn:A; auto. pose proof (cost_big n A). rewrite (cost_zero _ Z2) in C.
          apply Nat.leb_le in C. lia. }
        apply EDGE; auto. rewrite SUCC. unfold order0. cbn [idx_n snd].
        apply total_zero in Oz. rewrite Oz. cbn. now left.
      + intros v Hv Zv. destruct (is_inp b) eqn:Lb; [now apply mu_input|].
        destruct T2 as [T2|T2]; [now apply mu_order|].
        assert (m1 = lsub n n) as -> by (rewrite <- (lsub_invol n m1 O1), T2; reflexivity).
        assert (Za : z0 a = false).
        { destruct (z0 a) eqn:A; auto. rewrite (Hv a eq_refl A Wf1 (proj2 (total_zero _) Z2)) in Zv. discriminate. }
        apply EDGE; auto. rewrite SUCC, Za. apply in_or_app. right. now left.
    - split.
      + destruct (is_inp b) eqn:Lb; [now apply mu_input|].
        destruct T2 as [T2|T2]; [now apply mu_order|].
        assert (m1 = lsub n n) as E1 by (rewrite <- (lsub_invol n m1 O1), T2; reflexivity).
        exfalso. rewrite E1, (cost_zero _ Z2) in C. apply Nat.leb_gt in C.
        assert (1 <= cost (lsub n (lsub n n))) by (unfold cost; apply (fl_ge _ 1)). lia.
      + intros v Hv Zv. destruct (is_inp a) eqn:La; [now apply mu_input|].
        destruct T1 as [T1|T1]; [now apply mu_order|]. subst m1.
        assert (Zb : z0 b = false).
        { destruct (z0 b) eqn:A; auto. rewrite (Hv b eq_refl A Wf2 (proj2 (total_zero _) Z2)) in Zv. discriminate. }
        assert (Nz : all_zero n = false).
        { destruct (all_zero n) eqn:A; auto. exfalso. rewrite (cost_zero _ A), (cost_zero _ Z2) in C. discriminate. }
        apply EDGE; auto. rewrite SUCC, Zb. unfold order0. cbn [idx_n snd].
        assert (Nat.eqb (total n) 0 = false) as -> by (apply Nat.eqb_neq; intros E0; apply total_zero in E0; congruence).
        apply in_or_app. left. now left.
  Qed.

  (** at order 0 one factor of every term of a [zero0] product is the sentinel zero *)
  Lemma product_term_zero x p a b i j n mid m1 :
    find_pdef x (aproducts alg) = Some p -> pfactors p = [a; b] -> z0 x = true ->
    wfi (i, j, n) -> total n = 0 -> mid < xw_nb W -> In m1 (splits n) ->
    term_zero (i, j, n) (KN a) (KN b) (mid, m1).
  Proof.
    intros F Fs Z Hwf T Hmid Hm.
    pose proof (zero0_unfold alg x Z) as U. unfold zero0_step in U. rewrite F, Fs in U. cbn [existsb] in U.
    fold z0 in U. rewrite orb_false_r in U.
    destruct (splits_ok _ _ Hm) as [O1 O2].
    assert (T1 : total m1 = 0) by (pose proof (ole_total _ _ O1); lia).
    assert (T2 : total (lsub n m1) = 0) by (pose proof (ole_total _ _ O2); lia).
    destruct (@wf_split _ W _ _ _ _ _ Hwf Hmid Hm) as [Wf1 Wf2].
    unfold term_zero. cbn [fst snd idx_i idx_j idx_n].
    apply orb_true_iff in U. destruct U as [U|U]; [left | right]; intros v0 Hv0.
    - now rewrite (Hv0 a eq_refl U Wf1 T1).
    - now rewrite (Hv0 b eq_refl U Wf2 T2).
  Qed.

  Lemma eval_of_tok rec tb k ix :
    (forall tb' k' ix', mu tb' k' ix' < mu tb k ix -> tok (rec tb' k' ix') (ZV k' ix')) ->
    wfi ix ->
    (forall x d, tb = TTab -> k = KN x -> kind_of alg inputs x = KSeries d -> start_sval W d ix = None) ->
    tok (eval_of O alg prog W rec tb k ix) (ZV k ix).
  Proof.
    intros Hrec Hwf Hst. destruct strat_parts as (_ & _ & _ & H2f).
    destruct k as [x|pn k']; cbn [eval_of].
    2:{ destruct (find_pdef pn (aproducts alg)) as [p|] eqn:F; [|apply triple_raise].
        destruct (find_pdef_spec _ _ F) as [_ Hin]. rewrite forallb_forall in H2f. specialize (H2f p Hin).
        apply Nat.eqb_eq in H2f. rewrite H2f.
        destruct (Nat.leb 2 k' && Nat.ltb k' 2) eqn:B; [|apply triple_raise].
        apply andb_true_iff in B. destruct B as [B1 B2]. apply Nat.leb_le in B1. apply Nat.ltb_lt in B2. lia. }
    destruct ix as [[i j] n].
    destruct (kind_of alg inputs x) as [|d|p|] eqn:K.
    - (* input *)
      assert (Lf : is_inp x = true) by (unfold is_inp; now rewrite K).
      destruct tb.
      + eapply triple_bind; [apply tok_tick|]. intros _ _. apply triple_ret.
        intros s E Z. inversion E; subst. rewrite (z0_leaf _ Lf) in Z. discriminate.
      + eapply triple_weaken; [apply Hrec|auto]. unfold mu. rewrite Lf. cbn. lia.
    - (* defined series *)
      assert (NL : is_inp x = false) by (unfold is_inp; now rewrite K).
      destruct tb.
      2:{ eapply triple_weaken; [apply Hrec|auto]. apply mu_table. }
      pose proof (kind_of_spec alg inputs x) as S. rewrite K in S. destruct S as [FP F].
      destruct (find_sdef_spec _ _ F) as [Hn Hd]. pose proof (Hst x d eq_refl eq_refl K) as Hnone.
      unfold series_eval, compile. rewrite (@find_body_compile x (aseries alg) (cseries alg) d F). unfold cseries.
      (* the body is not evaluated where the start data are *)
      assert (NS : order0 (i, j, n) && full_start d = false).
      { destruct (order0 (i, j, n)) eqn:Oz; auto. destruct (full_start d) eqn:Fs; auto. exfalso.
        unfold order0 in Oz. apply Nat.eqb_eq in Oz. cbn [idx_n snd] in Oz.
        destruct (start_exists d i j n Hd Fs Hwf Oz) as (sv & E). congruence. }
      eapply triple_weaken.
      + apply (lines_tok rec (mu TTab (KN x) (i, j, n)) Hrec).
        * intros l Hl s tr Hs Kn tb'. cbn [fst snd].
          destruct (is_inp s) eqn:Ls; [now apply mu_input|].
          apply mu_rank; auto; [destruct tr; reflexivity|].
          apply edge_rank; [rewrite <- Hn; now apply in_all_names_series | | now apply kind_known_in].
          unfold succs. rewrite FP, F, NS. unfold mentions. apply in_flat_map. eauto.
        * intros Hl Kn tb'. cbn [fst snd]. rewrite Hn. now apply mu_lower.
      + intros v Hv s E Z Wf T. inversion E; subst s. rewrite Hn in Hv.
        apply (Hv Z); auto.
        pose proof (zero0_unfold alg x Z) as U. unfold zero0_step in U. rewrite FP, F in U. destruct (sstart d) eqn:Sd; try discriminate; try exact U.
        exfalso. destruct (start_exists d i j n Hd ltac:(unfold full_start; now rewrite Sd) Wf T) as (sv & E'). congruence.
    - (* product *)
      assert (NL : is_inp x = false) by (unfold is_inp; now rewrite K).
      pose proof (kind_of_spec alg inputs x) as F. rewrite K in F. destruct (find_pdef_spec _ _ F) as [Hn Hin].
      rewrite forallb_forall in H2f. pose proof (H2f p Hin) as L2. apply Nat.eqb_eq in L2. rewrite L2. cbn [Nat.leb].
      destruct (pfactors p) as [|a [|b [|c r]]] eqn:Fs; try discriminate. clear L2.
      destruct (pherm p && Nat.ltb (idx_j (i, j, n)) (idx_i (i, j, n))) eqn:HL.
      + apply andb_true_iff in HL. destruct HL as [_ HL]. apply Nat.ltb_lt in HL.
        eapply triple_bind; [apply Hrec; now apply mu_lower|]. intros v Hv.
        apply tok_lift; [apply sdagger_no_oof|]. intros z Ez s E Z Wf T. inversion E; subst s.
        rewrite (Hv x eq_refl Z (wfi_transp _ Wf) T) in Ez. cbn in Ez. now inversion Ez.
      + unfold first_key, second_key. rewrite Fs. cbn [Nat.eqb nth Nat.sub].
        unfold pbo. cbn [idx_n snd].
        eapply triple_weaken.
        * apply (pbo_loop_tok rec (mu tb (KN x) (i, j, n)) Hrec (i, j, n)).
          apply Forall_forall. intros [mid m1] Hp. apply in_pbo_space in Hp. destruct Hp as [Hmid Hm].
          now apply (product_term_ok x p a b).
        * intros v Hv s E Z Wf T. inversion E; subst s. apply Hv.
          apply Forall_forall. intros [mid m1] Hp. apply in_pbo_space in Hp. destruct Hp as [Hmid Hm].
          now apply (product_term_zero x p a b).
    - apply triple_raise.
  Qed.

  Lemma getitem_step_tok rec tb k ix :
    (forall tb' k' ix', mu tb' k' ix' < mu tb k ix -> tok (rec tb' k' ix') (ZV k' ix')) ->
    tok (getitem_step O alg prog W rec tb k ix) (ZV k ix).
  Proof.
    intros Hrec u s r s' I E T. unfold getitem_step in E.
    destruct (wf_index W ix) eqn:Hwf; cbn [negb] in E; [|exact (@triple_raise V _ (fun _ => SI) _ True _ _ IndexError _ u s r s' I E T)].
    destruct (st_lookup s (tb, k, ix)) as [[|v]|] eqn:Lk.
    - exact (@triple_raise V _ (fun _ => SI) _ True _ _ RuntimeError _ u s r s' I E T).
    - exact (@triple_ret V _ (fun _ => SI) _ True _ _ v (ZV k ix) (si_zero s I _ _ _ _ Lk) u s r s' I E T).
    - assert (NS : not_start alg W (tb, k, ix)).
      { intros x d ix' sv [= -> -> <-] K S. rewrite (si_start s I _ _ _ _ K S) in Lk. discriminate. }
      assert (I1 : SI (st_store s (tb, k, ix) Pending)).
      { apply (SI_upd _ _ _ _ I (upd_store s _ Pending) NS). discriminate. }
      assert (Hst : forall x d, tb = TTab -> k = KN x -> kind_of alg inputs x = KSeries d -> start_sval W d ix = None).
      { intros x d -> -> K. destruct (start_sval W d ix) as [sv|] eqn:S; auto. exfalso. exact (NS x d ix sv eq_refl K S). }
      destruct (eval_of O alg prog W rec tb k ix (st_store s (tb, k, ix) Pending)) as [r1 s2] eqn:E1.
      destruct (eval_of_tok rec tb k ix Hrec Hwf Hst u _ _ _ I1 E1 (or_introl Logic.I)) as (N1 & I2 & _ & P2).
      destruct r1 as [v|e|]; [| |congruence]; inversion E; subst; (split; [discriminate|]); (split; [|split; [exact Logic.I|]]).
      + apply (SI_upd _ _ _ _ I2 (upd_store s2 _ (Done v)) NS). intros tb' k' ix' v' [= <- <- <-] [= <-]. auto.
      + intros a [= <-]. auto.
      + apply (SI_upd _ _ _ _ I2 (upd_remove s2 _) NS). discriminate.
      + discriminate.
  Qed.

  Theorem getitem_tok : forall f tb k ix, mu tb k ix < f -> tok (getitem O alg prog W f tb k ix) (ZV k ix).
  Proof.
    induction f as [|f IH]; intros tb k ix H; [lia|]. cbn [getitem].
    apply getitem_step_tok. intros tb' k' ix' H'. apply IH. lia.
  Qed.

  (** every request with enough fuel ends with a value or an exception *)
  Theorem run_no_oof fuel (s : st) tb name ix r s' :
    SI s -> fuel_bound alg ix <= fuel -> run O alg prog W fuel s (tb, name, ix) = (r, s') ->
    r <> OutOfFuel /\ SI s'.
  Proof.
    intros I Hf E. unfold run in E. destruct (known alg W name).
    - pose proof (mu_bound tb (KN name) ix) as B.
      destruct (getitem_tok fuel tb (KN name) ix ltac:(lia) tt _ _ _ I E (or_introl Logic.I)) as (N & I' & _). auto.
    - inversion E; subst. split; [discriminate | auto].
  Qed.

  Theorem run_all_no_oof fuel rs : forall (s : st) os s',
    SI s -> Forall (fun r => fuel_bound alg (snd r) <= fuel) rs ->
    run_all O alg prog W fuel s rs = (os, s') ->
    Forall (fun o => o <> OutOfFuel) os /\ SI s'.
  Proof.
    induction rs as [|[[tb name] ix] rest IH]; intros s os s' I Hf E; cbn [run_all] in E.
    - inversion E; subst. auto.
    - destruct (run O alg prog W fuel s (tb, name, ix)) as [o s1] eqn:E1.
      destruct (run_all O alg prog W fuel s1 rest) as [os' s2] eqn:E2.
      inversion E; subst. inversion Hf; subst. cbn [snd] in *.
      destruct (run_no_oof fuel s tb name ix o s1 I H1 E1) as [N1 I1].
      destruct (IH _ _ _ I1 H2 E2) as [N2 I2]. auto.
  Qed.

  (** the initial state satisfies the invariant *)
  Theorem init_SI calls0 : SI (init_state alg W calls0).
  Proof.
    split.
    - intros x d ix sv K S.
      exact (init_start alg W calls0 x ix K S).
    - intros tb k ix v H. unfold st_lookup, init_state in H. cbn [cache] in H.
      apply lookup_in, init_entries_good in H.
      destruct H as (v' & x & ix' & E & [(d & K & S)|(K & ->)]); inversion E; subst.
      + intros s Es Z Wf T. inversion Es; subst s.
        pose proof (zero0_unfold alg x Z) as U. unfold zero0_step in U.
        pose proof (kind_of_spec alg inputs x) as F. rewrite K in F. destruct F as [F1 F2]. rewrite F1, F2 in U. unfold start_sval in S. destruct (x_start_index W ix'); [|discriminate].
        destruct (sstart d); try discriminate. now inversion S.
      + intros s Es Z. inversion Es; subst s. rewrite z0_leaf in Z; [discriminate|]. unfold is_inp. now rewrite K.
  Qed.
End Terminate.

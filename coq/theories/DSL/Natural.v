(** Naturality of the whole-series semantics: a structure-preserving map between two
    [BlockAlg]s sends solutions of a program to solutions of the same program.

    [phi] need not be injective or surjective; it has to preserve the ring operations, the
    unit, the adjoint, division by integer literals, the block projections, the selection, the
    order-zero coefficient and the half-sum, and to intertwine the row flags and the scope
    functions of the two scopes.  No instance of [BAHom] is constructed in the development: it is
    a hypothesis of Props/C06 and of Alg/Equivariance.v.  The symmetries of Series/Sym*.v permute
    blocks or parameters, do not preserve [Up]/[Lo], and go through [Equivariance.LAHom] and
    uniqueness (Alg/Unique.v) instead. *)
Require Import Ncring Ncring_tac Setoid Morphisms ZArith String List.
From PV.Base Require Import Classes AlgLemmas.
From PV.DSL Require Import Syntax Sem.
Import ListNotations.

Section Natural.
Context {T : Type} {r0 r1 : T} {add mul sub : T -> T -> T} {opp : T -> T} {req : T -> T -> Prop}
        {Ro : @Ring_ops T r0 r1 add mul sub opp req} {Rg : @Ring T r0 r1 add mul sub opp req Ro}
        {BA : BlockAlg T}.
Context {T' : Type} {r0' r1' : T'} {add' mul' sub' : T' -> T' -> T'} {opp' : T' -> T'} {req' : T' -> T' -> Prop}
        {Ro' : @Ring_ops T' r0' r1' add' mul' sub' opp' req'} {Rg' : @Ring T' r0' r1' add' mul' sub' opp' req' Ro'}
        {BA' : BlockAlg T'}.

Variable phi : T -> T'.

Class BAHom : Prop := {
  hom_P : Proper (_==_ ==> _==_) phi;
  hom_zero : phi 0 == 0;
  hom_one : phi 1 == 1;
  hom_add : forall x y, phi (x + y) == phi x + phi y;
  hom_opp : forall x, phi (- x) == - phi x;
  hom_sub : forall x y, phi (x - y) == phi x - phi y;
  hom_mul : forall x y, phi (x * y) == phi x * phi y;
  hom_adj : forall x, phi (adj x) == adj (phi x);
  hom_divz : forall x k, phi (divz x k) == divz (phi x) k;
  hom_Dg : forall x, phi (Dg x) == Dg (phi x);
  hom_Up : forall x, phi (Up x) == Up (phi x);
  hom_Lo : forall x, phi (Lo x) == Lo (phi x);
  hom_Sel : forall x, phi (Sel x) == Sel (phi x);
  hom_Zc : forall x, phi (Zc x) == Zc (phi x);
  hom_hsum : forall x y, phi (hsum x y) == hsum (phi x) (phi y)
}.

Context {HH : BAHom}.
Existing Instance hom_P.

Variable gflag : string -> bool.
Variable rflag : string -> T -> T.
Variable rflag' : string -> T' -> T'.
Variable fenv : string -> list T -> T.
Variable fenv' : string -> list T' -> T'.
Hypothesis rflag_hom : forall n x x', phi x == x' -> phi (rflag n x) == rflag' n x'.
Hypothesis fenv_hom : forall f l l', Forall2 (fun x y => phi x == y) l l' -> phi (fenv f l) == fenv' f l'.

Variable sol : string -> T.
Let sol' (s : string) : T' := phi (sol s).

Lemma den_hom : forall e, phi (den gflag rflag fenv sol e) == den gflag rflag' fenv' sol' e.
Proof.
  fix IH 1. intros e. destruct e as [s|s| |a|a b|a b|a k|f args|c a b]; cbn [den].
  - reflexivity.
  - unfold sol'. apply hom_adj.
  - apply hom_zero.
  - rewrite hom_opp, (IH a). reflexivity.
  - rewrite hom_add, (IH a), (IH b). reflexivity.
  - rewrite hom_sub, (IH a), (IH b). reflexivity.
  - rewrite hom_divz. apply (divz_proper k). apply IH.
  - apply fenv_hom. induction args as [|x args IHa]; cbn [map]. constructor.
    constructor. destruct x as [s|a]. reflexivity. apply IH. exact IHa.
  - destruct c as [n|n].
    + destruct (gflag n); apply IH.
    + rewrite hom_add, hom_sub.
      rewrite (rflag_hom n _ _ (IH a)), (rflag_hom n _ _ (IH b)), (IH b). reflexivity.
Qed.

Lemma Rp_hom x : phi (Rp x) == Rp (phi x).
Proof. unfold Rp. rewrite hom_sub, hom_Sel. reflexivity. Qed.
Lemma Pos_hom x : phi (Pos x) == Pos (phi x).
Proof. unfold Pos. rewrite hom_sub, hom_Zc. reflexivity. Qed.

Lemma line_hom c e : phi (line_den gflag rflag fenv sol c e) == line_den gflag rflag' fenv' sol' c e.
Proof.
  destruct c; cbn [line_den].
  - apply den_hom.
  - rewrite hom_Sel. apply am_P. apply den_hom.
  - rewrite Rp_hom. apply Rp_P. apply den_hom.
Qed.
Lemma lines_hom b : phi (lines_den gflag rflag fenv sol b) == lines_den gflag rflag' fenv' sol' b.
Proof.
  induction b as [|l b IH]; cbn [lines_den]. apply hom_zero.
  destruct l as [c e|h]. rewrite hom_add, line_hom, IH. reflexivity. exact IH.
Qed.
Lemma body_hom s b : phi (body_den gflag rflag fenv sol s b) == body_den gflag rflag' fenv' sol' s b.
Proof.
  unfold body_den. destruct (split_marker b) as [pre [[h post]|]].
  - rewrite !hom_add, hom_Dg, hom_Up, hom_Lo, !hom_add, !lines_hom.
    destruct h.
    + rewrite hom_adj, hom_Up. reflexivity.
    + rewrite hom_opp, hom_adj, hom_Up. reflexivity.
  - apply lines_hom.
Qed.
Lemma start_hom st rhs rhs' : phi rhs == rhs' ->
  phi (with_start sol st rhs) == with_start sol' st rhs'.
Proof.
  intros E. destruct st; cbn [with_start].
  - exact E.
  - rewrite Pos_hom. apply Pos_P. exact E.
  - rewrite hom_add, hom_one, hom_sub, hom_Dg, hom_Zc, E. reflexivity.
  - rewrite hom_add, hom_Zc, Pos_hom. unfold sol'. rewrite E. reflexivity.
  - exact E.
Qed.
Lemma prod_hom fs acc : phi (prod_den sol fs acc) == prod_den sol' fs (phi acc).
Proof.
  revert acc. induction fs as [|f r IH]; intros acc; cbn [prod_den]. reflexivity.
  rewrite IH. apply prod_den_P. apply hom_mul.
Qed.
Lemma product_hom p : phi (product_den sol p) == product_den sol' p.
Proof.
  unfold product_den. destruct (pfactors p) as [|f r]. apply hom_one.
  destruct (pherm p).
  - destruct r as [|g [|g2 r2]]; rewrite !hom_add, ?hom_hsum, ?hom_Dg, hom_Up, hom_adj, hom_Up, !prod_hom; reflexivity.
  - apply prod_hom.
Qed.

Theorem natural alg :
  solution gflag rflag fenv sol alg -> solution gflag rflag' fenv' sol' alg.
Proof.
  intros [Hs Hp]. split.
  - induction Hs as [|d l Hd Hl IH]; constructor; [|exact IH].
    unfold sdef_holds in *. unfold sol' at 1. rewrite Hd.
    apply start_hom. apply body_hom.
  - induction Hp as [|p l Hd Hl IH]; constructor; [|exact IH].
    unfold pdef_holds in *. unfold sol' at 1. rewrite Hd. apply product_hom.
Qed.

End Natural.

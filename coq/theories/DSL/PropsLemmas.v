(** DSL/PropsLemmas.v - the hypotheses of the termination statements of Props/C09 and C11. *)
From Coq Require Import String List Bool Arith.
From PV.DSL Require Import Syntax Values Interp Exec Terminate.

Definition fuel_ok (alg : algorithm) (fuel : nat) (rs : list request) : Prop :=
  Forall (fun r => fuel_bound alg (snd r) <= fuel) rs.

Definition start_inputs_ok V (alg : algorithm) (W : xworld V) : Prop :=
  forall d x, In d (aseries alg) -> sstart d = StartInput x -> mem_string x (xw_inputs W) = true.

Definition fn_total V (W : xworld V) : Prop := forall f args ix, xw_fn W f args ix <> OutOfFuel.
Arguments fn_total {V} W.
Arguments start_inputs_ok {V} alg W.

(** the "X_0" start values of [alg] all name the input [x] *)
Lemma start_inputs_of V alg (W : xworld V) x :
  forallb (fun d => match sstart d with StartInput y => String.eqb y x | _ => true end) (aseries alg) = true ->
  mem_string x (xw_inputs W) = true -> start_inputs_ok alg W.
Proof.
  intros H Hx d y Hd S. rewrite forallb_forall in H. specialize (H d Hd). rewrite S in H.
  apply String.eqb_eq in H. now subst.
Qed.

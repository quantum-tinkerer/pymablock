(** DSL/HermSums.v - the combinatorics behind the Hermitian shortcut of product_by_order: the
    reflection m |-> n - m of the multi-order splittings, and the identity
      sum over m <= n - m of (g m + adj (g m), or g m when m = n - m)  =  sum over all m of g m
    when adj (g m) = g (n - m). *)
From Coq Require Import String List ZArith Bool Arith Lia Permutation.
From PV.DSL Require Import Values Interp Laws Sound.
Require PV.Series.MultiIndex.
Import ListNotations.
Set Implicit Arguments.

Lemma lsub_invol n m : ole m n -> lsub n (lsub n m) = m.
Proof.
  revert m. induction n as [|x n IH]; destruct m as [|y m]; cbn; try tauto.
  intros [H1 H2]. f_equal; [lia | auto].
Qed.

Lemma splits_complete n m : ole m n -> In m (splits n).
Proof.
  revert m. induction n as [|x n IH]; destruct m as [|y m]; cbn [ole splits]; try tauto.
  - intros _. now left.
  - intros [H1 H2]. apply in_flat_map. exists y. split; [apply in_seq; lia|]. apply in_map. auto.
Qed.

Lemma splits_refl n m : In m (splits n) -> In (lsub n m) (splits n).
Proof. intros H. apply splits_complete. now apply splits_ok. Qed.

Lemma NoDup_splits n : NoDup (splits n).
Proof.
  induction n as [|x n IH]; cbn [splits]; [repeat constructor; auto|].
  apply Series.MultiIndex.nodup_flat_map.
  - apply seq_NoDup.
  - intros a _. apply FinFun.Injective_map_NoDup; auto. intros u v E. now inversion E.
  - intros a b y _ _ Ha Hb. apply in_map_iff in Ha, Hb.
    destruct Ha as (u & <- & _), Hb as (v & E & _). now inversion E.
Qed.

Lemma lex_gt_irrefl a : lex_gt a a = false.
Proof. induction a as [|x a IH]; cbn [lex_gt]; auto. now rewrite Nat.ltb_irrefl. Qed.

Lemma lex_gt_asym a b : lex_gt a b = true -> lex_gt b a = false.
Proof.
  revert b. induction a as [|x a IH]; destruct b as [|y b]; cbn [lex_gt]; try discriminate; auto.
  destruct (Nat.ltb y x) eqn:E1, (Nat.ltb x y) eqn:E2; auto; try discriminate.
  apply Nat.ltb_lt in E1, E2. lia.
Qed.

Lemma lex_total a b : length a = length b -> lex_gt a b = false -> lex_gt b a = false -> a = b.
Proof.
  revert b. induction a as [|x a IH]; destruct b as [|y b]; cbn [lex_gt length]; try discriminate; auto.
  intros Hl. destruct (Nat.ltb y x) eqn:E1, (Nat.ltb x y) eqn:E2; try discriminate.
  apply Nat.ltb_ge in E1, E2. intros H1 H2. f_equal; [lia | apply IH; auto].
Qed.

Lemma lnat_eqb_false a b : lnat_eqb a b = false <-> a <> b.
Proof.
  split.
  - intros E F. apply lnat_eqb_eq in F. congruence.
  - intros N. destruct (lnat_eqb a b) eqn:E; auto. apply lnat_eqb_eq in E. contradiction.
Qed.

Section Sums.
  Variable V : Type.
  Variable O : vops V.
  Variable eqv : V -> V -> Prop.
  Variable L : vlaws O eqv.

  Local Infix "==" := eqv (at level 70, no associativity).
  Local Notation "a + b" := (vadd O a b).
  Local Notation vz := (v0 O).
  Local Notation sum := (vsum O).

  Variable n : list nat.
  Notation refl := (lsub n).
  Notation Ls := (splits n).

  Lemma refl_perm : Permutation (map refl Ls) Ls.
  Proof.
    apply NoDup_Permutation.
    - apply Series.MultiIndex.nodup_map_inj; [|apply NoDup_splits].
      intros x y Hx Hy E. rewrite <- (@lsub_invol n x), <- (@lsub_invol n y); try (now apply splits_ok).
      now rewrite E.
    - apply NoDup_splits.
    - intros x. split.
      + intros H. apply in_map_iff in H. destruct H as (m & <- & Hm). now apply splits_refl.
      + intros H. apply in_map_iff. exists (refl x). split; [apply lsub_invol; now apply splits_ok | now apply splits_refl].
  Qed.

  Lemma refl_sum (g : list nat -> V) : sum (map (fun m => g (refl m)) Ls) == sum (map g Ls).
  Proof.
    rewrite <- (map_map refl g). apply (vsum_perm L). apply Permutation_map. apply refl_perm.
  Qed.

  Definition half_term (g : list nat -> V) (m : list nat) : V :=
    if lex_gt m (refl m) then vz
    else if lnat_eqb m (refl m) then g m else (g m + vadj O (g m)).

  Theorem half_full (g : list nat -> V) :
    (forall m, In m Ls -> vadj O (g m) == g (refl m)) ->
    sum (map (half_term g) Ls) == sum (map g Ls).
  Proof.
    intros Hg.
    (* the terms with m <= n - m, and the terms with m > n - m: a term of the half-sum with
       m < n - m carries the reflected term, which is one of the latter *)
    set (A := fun m => if lex_gt m (refl m) then vz else g m).
    set (C := fun m => if lex_gt m (refl m) then g m else vz).
    rewrite (vsum_ext L (half_term g) (fun m => A m + C (refl m))).
    - rewrite (vsum_add L), (refl_sum C), <- (vsum_add L). apply (vsum_ext L). intros m _. unfold A, C.
      destruct (lex_gt m (refl m)); [apply (l_add_0_l L) | apply (add_0_r L)].
    - intros m Hm. unfold half_term, A, C. destruct (splits_ok _ _ Hm) as [O1 O2].
      rewrite lsub_invol by exact O1. destruct (lex_gt m (refl m)) eqn:G.
      + rewrite (lex_gt_asym _ _ G). symmetry. apply (l_add_0_l L).
      + destruct (lnat_eqb m (refl m)) eqn:Q.
        * apply lnat_eqb_eq in Q. rewrite <- Q, lex_gt_irrefl. symmetry. apply (add_0_r L).
        * destruct (lex_gt (refl m) m) eqn:G'; [now rewrite (Hg m Hm)|].
          apply lnat_eqb_false in Q. destruct Q. apply lex_total; auto.
          apply ole_length in O1, O2. congruence.
  Qed.
End Sums.

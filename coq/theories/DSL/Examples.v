(** DSL/Examples.v - a lawful instance of the coefficient structure (the integers; adjoint =
    identity, division = floor division - the laws ask nothing of division except 0/k = 0)
    and concrete worlds used for the non-vacuity examples of Props/C09..C12: the shipped
    algorithms run on a 2-block, 1-parameter integer Hamiltonian. *)
From Coq Require Import String List ZArith Bool Arith Lia.
From PV.DSL Require Import Syntax Values Interp Exec Laws Main.
From PV.Gen Require Import Algorithms_gen.
Import ListNotations.
Open Scope string_scope.

Definition z_ops : vops Z :=
  {| v0 := 0%Z; v1 := 1%Z; vadd := Z.add; vneg := Z.opp; vmul := Z.mul; vadj := fun x => x;
     vdiv := Z.div; vis0 := Z.eqb 0 |}.

Lemma z_laws : vlaws z_ops eq.
Proof.
  split; unfold z_ops; cbn [v0 v1 vadd vneg vmul vadj vdiv vis0].
  1: typeclasses eauto.
  (* the operations respect equality *)
  1-5: (repeat intro; subst; reflexivity).
  (* ring laws; the adjoint is the identity *)
  1-15: (intros; lia).
  - reflexivity.
  - intros k. apply Zdiv_0_l.
  - intros a H. apply Z.eqb_eq in H. auto.
Qed.

(** scope functions: diag / offdiag = identity, solve_sylvester = multiplication by 3 *)
Definition z_sfn (f : string) (args : list Z) (ix : index) : Z :=
  let x := nth 0 args 0%Z in
  if String.eqb f "solve_sylvester" then (3 * x)%Z else x.

Definition z_fn (f : string) (args : list (sval Z)) (ix : index) : res (sval Z) :=
  match args with
  | [SZero] => Ok SZero
  | _ => Ok (SVal (z_sfn f (map (den z_ops) args) ix))
  end.

(** H_0 = diag(1, 2) (off-diagonal blocks absent), H_1 full, H_2 on the diagonal *)
Definition z_env (s : string) (ix : index) : sval Z :=
  match ix with
  | (i, j, [0]) => if Nat.eqb i j then SVal (Z.of_nat (S i)) else SZero
  | (i, j, [1]) => SVal (Z.of_nat (i + 2 * j + 1))
  | (i, j, [2]) => if Nat.eqb i j then SVal 5%Z else SZero
  | _ => SZero
  end.

Definition z_world (faults : nat -> option exn) : xworld Z :=
  {| xw_nb := 2; xw_np := 1; xw_inputs := ["H"]; xw_env := z_env;
     xw_uselin := fun _ _ => false; xw_hasoff := false;
     xw_gflag := fun n => String.eqb n "two_block_optimized";
     xw_rflag := fun _ _ => true;
     xw_access := fun _ _ => true; xw_fn := z_fn;
     xw_counted := fun f => String.eqb f "solve_sylvester";
     xw_fault := faults |}.

Definition no_faults : nat -> option exn := fun _ => None.

Lemma z_tie faults f args ix r :
  xw_fn (z_world faults) f args ix = Ok r -> den z_ops r = z_sfn f (map (den z_ops) args) ix.
Proof.
  cbn [xw_fn z_world]. unfold z_fn. intros E.
  destruct args as [|[| |x] [|b r']]; inversion E; subst; cbn; auto.
  unfold z_sfn. cbn. destruct (String.eqb f "solve_sylvester"); reflexivity.
Qed.

Lemma z_world_ok_nh faults : world_ok z_ops eq nonhermitian_alg (z_world faults) z_sfn.
Proof.
  destruct (@no_herm_valid Z z_ops eq nonhermitian_alg (z_world faults) z_sfn eq_refl) as [A B].
  split; auto.
  - intros x [<-|[]]. reflexivity.
  - intros f l l' ix F. assert (l = l') as -> by (induction F; subst; auto). reflexivity.
  - apply z_tie.
Qed.

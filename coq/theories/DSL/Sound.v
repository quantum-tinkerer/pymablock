(** DSL/Sound.v - soundness of the evaluator (DSL/Exec.v) running ANY target program built
    from source lines by [cline] (in particular [compile alg]) with respect to the
    specification (DSL/Interp.v).

    Invariant ([Inv stack s]):
      I1  every [Done v] entry of either table denotes the interp value of that element
          (for every fuel at which interp is defined);
      I2  every [Pending] entry belongs to the current evaluation stack;
      I3  the start data of the defined series are present (they are never deleted: [del_]
          skips the zeroth order);
      I4  (fault-free worlds) the input-evaluation events of the log are pairwise distinct
          and the corresponding cache entries of the inputs are present.
    [ext n s s']: what a computation serving a request at multi-order [n] may do to the
    state: append events of order <= n to the log, increase the call counter, and never
    remove or change an evaluated input element.                                          *)
From Coq Require Import String List ZArith Bool Arith Lia RelationClasses.
From PV.DSL Require Import Syntax Values Target Compile Interp Exec Laws TSem.
Import ListNotations.
Set Implicit Arguments.

Section CacheLemmas.
  Variable V : Type.
  Implicit Types (c : list (ckey * entry V)) (s : state V).

  Lemma lookup_remove c k k' : lookup (remove c k) k' = if ckey_eqb k k' then None else lookup c k'.
  Proof.
    induction c as [|[k0 e] r IH]; cbn; [now destruct (ckey_eqb k k')|].
    destruct (ckey_eqb_spec k0 k) as [->|N]; cbn; fold (remove r k); rewrite IH.
    - now destruct (ckey_eqb k k').
    - destruct (ckey_eqb_spec k0 k') as [->|N']; [|reflexivity]. destruct (ckey_eqb_spec k k'); [congruence | reflexivity].
  Qed.

  Lemma st_lookup_store s ck e ck' :
    st_lookup (st_store s ck e) ck' = if ckey_eqb ck ck' then Some e else st_lookup s ck'.
  Proof. reflexivity. Qed.

  Lemma st_lookup_remove s ck ck' :
    st_lookup (st_remove s ck) ck' = if ckey_eqb ck ck' then None else st_lookup s ck'.
  Proof. apply lookup_remove. Qed.

  (** [s'] is [s] with the entry of [ck] replaced by [o]; log and counter untouched *)
  Definition upd (ck : ckey) (o : option (entry V)) s s' : Prop :=
    log s' = log s /\ calls s' = calls s /\
    forall ck', st_lookup s' ck' = if ckey_eqb ck ck' then o else st_lookup s ck'.

  Lemma contains_false tb k ix s :
    contains tb k ix s = false -> st_lookup s (tb, k, ix) = Some (Done SZero).
  Proof. unfold contains. now destruct (st_lookup s (tb, k, ix)) as [[|[| |]]|]. Qed.

  Lemma upd_store s ck e : upd ck (Some e) s (st_store s ck e).
  Proof. repeat split. Qed.

  Lemma upd_remove s ck : upd ck None s (st_remove s ck).
  Proof. repeat split. apply st_lookup_remove. Qed.
End CacheLemmas.

Fixpoint ole (a b : list nat) : Prop :=
  match a, b with
  | [], [] => True
  | x :: a', y :: b' => x <= y /\ ole a' b'
  | _, _ => False
  end.

Lemma ole_refl a : ole a a.
Proof. induction a; cbn; auto. Qed.

Lemma ole_trans a b c : ole a b -> ole b c -> ole a c.
Proof.
  revert b c. induction a as [|x a IH]; destruct b as [|y b], c as [|z c]; cbn; try tauto.
  intros [H1 H2] [H3 H4]. split; [lia | eauto].
Qed.

Lemma ole_length a b : ole a b -> length a = length b.
Proof. revert b. induction a as [|x a IH]; destruct b; cbn; try tauto. intros [_ H]. f_equal. auto. Qed.

Definition ev_idx (e : event) : index :=
  match e with EvInput _ i | EvFn _ i | EvOp i => i end.
Definition ev_le (n : list nat) (e : event) : Prop := ole (idx_n (ev_idx e)) n.

Fixpoint input_evs (l : list event) : list (string * index) :=
  match l with
  | [] => []
  | EvInput s i :: r => (s, i) :: input_evs r
  | _ :: r => input_evs r
  end.

Lemma input_evs_app l1 l2 : input_evs (l1 ++ l2) = input_evs l1 ++ input_evs l2.
Proof. induction l1 as [|[]]; cbn; auto. now rewrite IHl1. Qed.

Lemma in_input_evs s i l : In (s, i) (input_evs l) <-> In (EvInput s i) l.
Proof.
  induction l as [|e l IH]; cbn; [tauto|].
  destruct e; cbn; rewrite IH.
  - split; intros [H|H]; auto; inversion H; auto.
  - split; [auto | intros [H|H]; [discriminate | auto]].
  - split; [auto | intros [H|H]; [discriminate | auto]].
Qed.

(** Triples over a state invariant [I] (indexed, for the evaluation stack) and a frame relation
    [R].  [tot = False]: a run that ends with OutOfFuel satisfies every triple (partial
    correctness); [tot = True]: the triple also says that the run does not end with OutOfFuel. *)
Section Triple.
  Variables (V X : Type) (I : X -> state V -> Prop) (R : state V -> state V -> Prop) (tot : Prop).

  (** the triple carries the proof that [R] is a preorder, so that the rules find it in the goal *)
  Definition triple {HR : PreOrder R} {A} (m : M V A) (P : A -> Prop) : Prop :=
    forall x s r s', I x s -> m s = (r, s') -> tot \/ r <> OutOfFuel ->
      r <> OutOfFuel /\ I x s' /\ R s s' /\ forall a, r = Ok a -> P a.

  Context {HR : PreOrder R}.

  Lemma triple_lift {A} (r0 : res A) (P : A -> Prop) :
    (tot -> r0 <> OutOfFuel) -> (forall a, r0 = Ok a -> P a) -> triple (lift r0) P.
  Proof.
    intros N H x s r s' Hi E T. inversion E; subst. repeat split; auto; [tauto | reflexivity].
  Qed.

  Lemma triple_ret {A} (a : A) (P : A -> Prop) : P a -> triple (ret a) P.
  Proof. intros H. apply (triple_lift (r0 := Ok a)); [discriminate | now intros a' [= <-]]. Qed.

  Lemma triple_raise {A} e (P : A -> Prop) : triple (raise e) P.
  Proof. apply (triple_lift (r0 := Raise e)); discriminate. Qed.

  Lemma triple_bind {A B} (m : M V A) (f : A -> M V B) (P : A -> Prop) (Q : B -> Prop) :
    triple m P -> (forall a, P a -> triple (f a) Q) -> triple (bind m f) Q.
  Proof.
    intros Hm Hf x s r s' Hi E T. unfold bind in E. destruct (m s) as [r1 s1] eqn:E1.
    destruct (Hm _ _ _ _ Hi E1) as (N1 & I1 & X1 & P1).
    { destruct r1; [right; discriminate | right; discriminate | inversion E; subst; destruct T; [now left | congruence]]. }
    destruct r1 as [a|e|]; [|inversion E; subst|contradiction].
    - destruct (Hf a (P1 a eq_refl) _ _ _ _ I1 E T) as (N2 & I2 & X2 & P2).
      repeat split; auto. now transitivity s1.
    - repeat split; auto; discriminate.
  Qed.

  Lemma triple_weaken {A} (m : M V A) (P Q : A -> Prop) :
    triple m P -> (forall a, P a -> Q a) -> triple m Q.
  Proof. intros Hm H x s r s' Hi E T. destruct (Hm _ _ _ _ Hi E T) as (N & I1 & X1 & P1). repeat split; auto. Qed.

  (** a computation that inspects the state to choose between two computations; in the states in
      which it chooses the first, [K] holds *)
  Lemma triple_branch_when {A} (K : Prop) (b : state V -> bool) (m1 m2 : M V A) (P : A -> Prop) :
    (forall x s, I x s -> b s = true -> K) -> (K -> triple m1 P) -> triple m2 P ->
    triple (fun s => if b s then m1 s else m2 s) P.
  Proof. intros HK H1 H2 x s r s' Hi E T. destruct (b s) eqn:B; [eapply H1|]; eauto. Qed.

  Fixpoint mapM {A B} (f : A -> M V B) (l : list A) : M V (list B) :=
    match l with
    | [] => ret []
    | a :: r => bind (f a) (fun v => bind (mapM f r) (fun vs => ret (v :: vs)))
    end.

  Lemma triple_mapM {A B} (f : A -> M V B) (P : A -> B -> Prop) l :
    Forall (fun a => triple (f a) (P a)) l -> triple (mapM f l) (Forall2 P l).
  Proof.
    induction 1 as [|a r Ha Hr IH]; cbn [mapM]; [apply triple_ret; constructor|].
    eapply triple_bind; [exact Ha|]. intros v Hv. eapply triple_bind; [exact IH|]. intros vs Hvs.
    apply triple_ret. now constructor.
  Qed.

  Section Body.
  Variables (O : vops V) (alg : algorithm) (W : xworld V) (rec : getter V) (which : tbl) (idx : index).

  Lemma eval_zsum result l :
    eval_texpr O alg W rec which idx result (TZeroSum l) =
    bind (mapM (eval_texpr O alg W rec which idx result) l) (fun vs => lift (szero_sum O vs)).
  Proof. cbn [eval_texpr]. f_equal. induction l as [|a r IH]; cbn [mapM]; [reflexivity | now rewrite IH]. Qed.

  Lemma eval_call_rule result f args (P : targ -> handle V -> Prop) (Q : sval V -> Prop) :
    Forall (fun a => match a with
                     | TASeries s => known alg W s = true -> P a (HSeries s)
                     | TAExpr e => triple (eval_texpr O alg W rec which idx result e) (fun v => P a (HVal v))
                     end) args ->
    (forall hs, Forall2 P args hs -> triple (call_fn W rec which idx f hs) Q) ->
    triple (eval_texpr O alg W rec which idx result (TCall f args)) Q.
  Proof.
    intros Ha Hc. cbn [eval_texpr]. eapply triple_bind; [|exact Hc]. clear Hc.
    induction Ha as [|a r Ha Hr IH]; [apply triple_ret; constructor|]. destruct a as [s|e].
    - destruct (known alg W s); [|apply triple_raise].
      eapply triple_bind; [exact IH|]. intros hs Hhs. apply triple_ret. constructor; auto.
    - eapply triple_bind; [exact Ha|]. intros v Hv.
      eapply triple_bind; [exact IH|]. intros hs Hhs. apply triple_ret. now constructor.
  Qed.

  Lemma deref_all_mapM f hs : deref_all W rec which idx f hs = mapM (deref W rec which idx f) hs.
  Proof. induction hs as [|h r IH]; cbn [deref_all mapM]; [reflexivity | now rewrite IH]. Qed.

  Section Statements.
  Variable deletable : string -> Prop.
  Hypothesis Hdel : forall x ix, deletable x -> triple (del_ alg W x ix) (fun _ => True).

  Notation simples := (exec_simples O alg W rec which idx).
  Notation stmts := (exec_stmts O alg W rec which idx).
  Notation eval := (eval_texpr O alg W rec which idx).

  Definition td_deletable (td : list (string * bool * etype)) : Prop :=
    Forall (fun x => deletable (fst (fst x))) td.

  Lemma simples_dels td et tail result (Q : sval V * bool -> Prop) :
    td_deletable td -> triple (simples tail result) Q -> triple (simples (dels td et ++ tail) result) Q.
  Proof.
    unfold dels. intros H Ht. induction H as [|x r Hx Hr IH]; cbn; auto.
    destruct (etype_eqb (snd x) et); cbn; auto.
    eapply triple_bind; [now apply Hdel | intros _ _; exact IH].
  Qed.

  (** [result = t; del_ ...; (return)] *)
  Lemma simples_assign t td et (stop : bool) result (P : sval V -> Prop) :
    td_deletable td -> triple (eval result t) P ->
    triple (simples (TAssign t :: dels td et ++ (if stop then [TReturn] else [])) result)
           (fun x => P (fst x) /\ snd x = stop).
  Proof.
    intros Htd Ht. cbn [exec_simples]. eapply triple_bind; [exact Ht|]. intros v Hv.
    apply simples_dels; [exact Htd|]. destruct stop; now apply triple_ret.
  Qed.

  Lemma stmts_dels td et more result (Q : sval V -> Prop) :
    td_deletable td -> triple (stmts more result) Q -> triple (stmts (map TS (dels td et) ++ more) result) Q.
  Proof.
    unfold dels. intros H Hm. induction H as [|x r Hx Hr IH]; cbn [filter map app]; auto.
    destruct (etype_eqb (snd x) et); cbn [map app]; auto. cbn [exec_stmts exec_simples].
    eapply triple_bind with (P := fun y => y = (result, false)).
    - eapply triple_bind; [now apply Hdel | intros _ _; now apply triple_ret].
    - intros y ->. exact IH.
  Qed.

  Lemma stmts_if t body more result (P Q : sval V -> Prop) (stop : bool) :
    test_holds W idx t = true ->
    triple (simples body result) (fun x => P (fst x) /\ snd x = stop) ->
    (forall v, P v -> if stop then Q v else triple (stmts more v) Q) ->
    triple (stmts (TIf t body :: more) result) Q.
  Proof.
    intros Ht Hb Hm. cbn [exec_stmts]. rewrite Ht.
    eapply triple_bind; [exact Hb|]. intros [v b'] [Hv Hb']. cbn [fst snd] in *. subst b'.
    specialize (Hm v Hv). destruct stop; [now apply triple_ret | exact Hm].
  Qed.

  (** what one source line does at [idx]: the expression assigned to [result], and whether the
      function returns after it *)
  Definition wrapped (f : string) (dg : bool) (e : expr) : texpr :=
    TZeroSum [TResult; TCall f [cwrap_arg dg e]].

  Definition line_step (name : string) (l : line) : option (texpr * bool) :=
    match l with
    | Marker h =>
        if test_holds W idx TLower
        then Some (TZeroSum [TResult; match h with
                                      | Herm => TDagger (TGet name true)
                                      | AntiHerm => TNeg (TDagger (TGet name true))
                                      end], true)
        else None
    | Line Default e => Some (ctop false e, false)
    | Line Diagonal e => if test_holds W idx TDiag then Some (wrapped "diag" true e, false) else None
    | Line Offdiagonal e =>
        if test_holds W idx TOffdiag then Some (ctop false e, false)
        else if test_holds W idx TOffdiagFn then Some (wrapped "offdiag" false e, false) else None
    end.

  (** the compiled body of a series, by induction on its lines: [T] is what is known of the value
      of each executed assignment, [Q lines result v] what is to be shown of the returned value *)
  Lemma lines_rule name td (T : texpr -> sval V -> sval V -> Prop)
        (Q : list line -> sval V -> sval V -> Prop) lines :
    td_deletable td ->
    (forall l t stop result, In l lines -> line_step name l = Some (t, stop) ->
                             triple (eval result t) (T t result)) ->
    (forall result, Q [] result result) ->
    (forall l r result, match line_step name l with
                        | Some (t, true) => forall v, T t result v -> Q (l :: r) result v
                        | Some (t, false) => forall v1 v, T t result v1 -> Q r v1 v -> Q (l :: r) result v
                        | None => forall v, Q r result v -> Q (l :: r) result v
                        end) ->
    forall result, triple (stmts (flat_map (cline name td) lines) result) (Q lines result).
  Proof.
    intros Htd Ht Hnil Hstep. induction lines as [|l r IH]; intros result; cbn [flat_map].
    { now apply triple_ret. }
    assert (IH' : forall result, triple (stmts (flat_map (cline name td) r) result) (Q r result)).
    { apply IH. intros l0 t stop res0 Hl0. apply Ht. now right. }
    specialize (Ht l). specialize (Hstep l r result).
    assert (SKIP : line_step name l = None -> forall res0, res0 = result ->
                   triple (stmts (flat_map (cline name td) r) res0) (Q (l :: r) result)).
    { intros E res0 ->. rewrite E in Hstep. eapply triple_weaken; [apply IH' | exact Hstep]. }
    assert (RUN : forall t, line_step name l = Some (t, false) -> forall v1, T t result v1 ->
                  triple (stmts (flat_map (cline name td) r) v1) (Q (l :: r) result)).
    { intros t E v1 Hv1. rewrite E in Hstep. eapply triple_weaken; [apply IH' | intros v; now apply Hstep]. }
    clear IH IH'. destruct l as [[| |] e|h]; cbn [cline app map] in *.
    - cbn [exec_stmts exec_simples].
      eapply triple_bind with (P := fun x => T (ctop false e) result (fst x) /\ snd x = false).
      + eapply triple_bind; [eapply Ht; [now left | reflexivity]|]. intros v Hv. now apply triple_ret.
      + intros [v b] [Hv ->]. cbn [fst snd]. apply stmts_dels; [exact Htd|]. now apply (RUN _ eq_refl).
    - cbn [line_step] in *. destruct (test_holds W idx TDiag) eqn:D.
      + eapply stmts_if with (stop := false); [exact D | |].
        * rewrite <- (app_nil_r (dels td ETDiag)). apply simples_assign with (stop := false); [exact Htd|].
          eapply Ht; [now left | reflexivity].
        * intros v Hv. now apply (RUN _ eq_refl).
      + cbn [exec_stmts]. rewrite D. now apply SKIP.
    - cbn [line_step] in *. cbn [exec_stmts].
      destruct (test_holds W idx TOffdiag) eqn:D.
      + assert (test_holds W idx TOffdiagFn = false) as D2.
        { cbn in *. apply negb_true_iff in D. rewrite D. apply andb_false_r. }
        fold (stmts (TIf TOffdiagFn (TAssign (wrapped "offdiag" false e) :: dels td ETOffdiag)
                       :: flat_map (cline name td) r)).
        eapply triple_bind.
        * rewrite <- (app_nil_r (dels td ETOffdiag)). apply simples_assign with (stop := false); [exact Htd|].
          eapply Ht; [now left | reflexivity].
        * intros [v b] [Hv ->]. cbn [fst snd exec_stmts]. rewrite D2. now apply (RUN _ eq_refl).
      + destruct (test_holds W idx TOffdiagFn) eqn:D2.
        * eapply triple_bind.
          -- rewrite <- (app_nil_r (dels td ETOffdiag)). apply simples_assign with (stop := false); [exact Htd|].
             eapply Ht; [now left | reflexivity].
          -- intros [v b] [Hv ->]. cbn [fst snd]. now apply (RUN _ eq_refl).
        * now apply SKIP.
    - cbn [line_step] in *. destruct (test_holds W idx TLower) eqn:Lw.
      + eapply stmts_if with (stop := true); [exact Lw | |].
        * apply simples_assign with (stop := true); [exact Htd|]. eapply Ht; [now left | reflexivity].
        * intros v Hv. now apply Hstep.
      + cbn [exec_stmts]. rewrite Lw. now apply SKIP.
  Qed.
  End Statements.
  End Body.
End Triple.

Lemma triple_frame V X (I : X -> state V -> Prop) R R' tot `{PreOrder _ R} `{PreOrder _ R'} A (m : M V A) P :
  (forall s s', R s s' -> R' s s') -> triple I tot (R := R) m P -> triple I tot (R := R') m P.
Proof. intros HRR Hm x s r s' Hi E T. destruct (Hm _ _ _ _ Hi E T) as (N & I1 & X1 & P1). repeat split; auto. Qed.

Section Sound.
  Variable V : Type.
  Variable O : vops V.
  Variable eqv : V -> V -> Prop.
  Variable L : vlaws O eqv.
  Variable alg : algorithm.
  Variable prog : tprogram.
  Variable W : xworld V.
  Variable sfn : string -> list V -> index -> V.

  Local Infix "==" := eqv (at level 70, no associativity).

  (** the specification world that corresponds to the evaluator's world *)
  Definition SW : sworld V :=
    {| sw_nb := xw_nb W; sw_np := xw_np W; sw_inputs := xw_inputs W;
       sw_env := fun s i => den O (xw_env W s i);
       sw_hasoff := xw_hasoff W; sw_gflag := xw_gflag W; sw_rflag := xw_rflag W;
       sw_access := xw_access W; sw_fn := sfn |}.

  (** the scope functions of the evaluator compute the specification's functions *)
  Hypothesis sfn_proper : forall f l l' ix, Forall2 eqv l l' -> sfn f l ix == sfn f l' ix.
  Hypothesis fn_tie : forall f args ix r,
      xw_fn W f args ix = Ok r -> den O r == sfn f (map (den O) args) ix.

  Notation inputs := (xw_inputs W).
  Notation spec := (interp O alg SW).
  Notation st := (state V).

  Definition agrees (v : sval V) (k : key) (ix : index) : Prop :=
    forall f w, spec f k ix = Some w -> den O v == w.

  Definition NF : Prop := forall k, xw_fault W k = None.

  Definition is_input (x : string) : Prop := kind_of alg inputs x = KInput.

  Record Inv (stack : list ckey) (s : st) : Prop := {
    inv_done : forall tb k ix v, st_lookup s (tb, k, ix) = Some (Done v) -> agrees v k ix;
    inv_pend : forall ck, st_lookup s ck = Some Pending -> In ck stack;
    inv_start : forall x d ix sv,
        kind_of alg inputs x = KSeries d -> start_sval W d ix = Some sv ->
        st_lookup s (TTab, KN x, ix) = Some (Done sv);
    inv_once : NF -> NoDup (input_evs (log s)) /\
                     forall x ix, In (EvInput x ix) (log s) ->
                                  is_input x /\ st_lookup s (TTab, KN x, ix) <> None
  }.

  Definition ext (n : list nat) (s s' : st) : Prop :=
    (exists l, log s' = l ++ log s /\ Forall (ev_le n) l) /\
    calls s <= calls s' /\
    (forall x ix v, is_input x -> st_lookup s (TTab, KN x, ix) = Some (Done v) ->
                    st_lookup s' (TTab, KN x, ix) = Some (Done v)).

  Global Instance ext_pre n : PreOrder (ext n).
  Proof.
    split.
    - intros s. split; [exists []; split; auto | split; auto].
    - intros s1 s2 s3 ((l1 & E1 & F1) & C1 & P1) ((l2 & E2 & F2) & C2 & P2). repeat split.
      + exists (l2 ++ l1). rewrite E2, E1, app_assoc. split; auto. apply Forall_app. auto.
      + lia.
      + auto.
  Qed.

  Lemma ev_le_mono n n' e : ole n n' -> ev_le n e -> ev_le n' e.
  Proof. unfold ev_le. intros. eapply ole_trans; eauto. Qed.

  Lemma ext_mono n n' s s' : ole n n' -> ext n s s' -> ext n' s s'.
  Proof.
    intros H ((l & E & F) & C & P). repeat split; auto.
    exists l. split; auto. eapply Forall_impl; [|exact F]. intros e. now apply ev_le_mono.
  Qed.

  (** specification of a computation serving a request at multi-order [n] *)
  Definition mok {A} (n : list nat) (m : M V A) (P : A -> Prop) : Prop :=
    forall stack s r s', Inv stack s -> m s = (r, s') -> r <> OutOfFuel ->
      Inv stack s' /\ ext n s s' /\ forall a, r = Ok a -> P a.

  Lemma mok_branch {A} n (b : st -> bool) (m1 m2 : M V A) (P : A -> Prop) :
    mok n m1 P -> mok n m2 P -> mok n (fun s => if b s then m1 s else m2 s) P.
  Proof.
    intros H1 H2 stack s r s' I E NO. destruct (b s); eauto.
  Qed.

  (** the same as a triple, for partial correctness *)
  Definition ok {A} (n : list nat) : M V A -> (A -> Prop) -> Prop := triple Inv False (R := ext n).

  Lemma ok_mok {A} n (m : M V A) P : ok n m P <-> mok n m P.
  Proof.
    split; intros H stack s r s' I E.
    - intros NO. now apply (H stack s r s' I E (or_intror NO)).
    - intros [[]|NO]. split; [exact NO | now apply H].
  Qed.

  Lemma ok_mono {A} n n' (m : M V A) (P : A -> Prop) : ole n n' -> ok n m P -> ok n' m P.
  Proof. intros H. apply triple_frame. intros s s'. now apply ext_mono. Qed.

  Lemma ok_lift {A} n (r0 : res A) (P : A -> Prop) : (forall a, r0 = Ok a -> P a) -> ok n (lift r0) P.
  Proof. intros H. apply triple_lift; [intros [] | exact H]. Qed.

  Lemma idx_n_transp ix : idx_n (transp ix) = idx_n ix.
  Proof. destruct ix as [[i j] n]. reflexivity. Qed.

  Lemma wf_index_iff i j n :
    wf_index W (i, j, n) = true <-> i < xw_nb W /\ j < xw_nb W /\ length n = xw_np W.
  Proof.
    unfold wf_index. cbn [idx_i idx_j idx_n fst snd]. rewrite !andb_true_iff, !Nat.ltb_lt, Nat.eqb_eq. tauto.
  Qed.

  Lemma start_sval_zero d ix sv : start_sval W d ix = Some sv -> all_zero (idx_n ix) = true.
  Proof.
    unfold start_sval, x_start_index. destruct (all_zero (idx_n ix)); [auto | cbn; discriminate].
  Qed.

  Definition not_start (ck : ckey) : Prop :=
    forall x d ix sv, ck = (TTab, KN x, ix) -> kind_of alg inputs x = KSeries d ->
                      start_sval W d ix = Some sv -> False.

  Lemma miss_not_start stack (s : st) ck : Inv stack s -> st_lookup s ck = None -> not_start ck.
  Proof.
    intros I N x d ix sv -> K S. rewrite (inv_start I _ _ K S) in N. discriminate.
  Qed.

  Lemma order_not_start tb x ix : all_zero (idx_n ix) = false -> not_start (tb, KN x, ix).
  Proof. intros Z y d ix0 sv [= _ _ <-] K S. apply start_sval_zero in S. congruence. Qed.

  (** the entry of one key that holds no start datum is replaced: by a value that agrees, by the
      in-flight marker (the key is then on the stack) or by nothing (in a fault-free world not the
      key of an evaluated input element) *)
  Lemma Inv_upd stack stack' (s s' : st) ck o :
    Inv stack s -> upd ck o s s' -> not_start ck ->
    (forall tb k ix v, ck = (tb, k, ix) -> o = Some (Done v) -> agrees v k ix) ->
    (forall ck', ck' = ck /\ o = Some Pending \/ ck' <> ck /\ In ck' stack -> In ck' stack') ->
    (o = None -> NF -> forall x ix, In (EvInput x ix) (log s) -> ck <> (TTab, KN x, ix)) ->
    Inv stack' s'.
  Proof.
    intros [I1 I2 I3 I4] (El & _ & Hl) NS Hd Hp Ho. split.
    - intros tb k ix v. rewrite Hl.
      destruct (ckey_eqb_spec ck (tb, k, ix)) as [E|N]; [exact (Hd _ _ _ _ E) | apply I1].
    - intros ck'. rewrite Hl. intros H. apply Hp. revert H.
      destruct (ckey_eqb_spec ck ck') as [E|N]; [left; auto | right; split; [congruence | auto]].
    - intros x d ix sv K S. rewrite Hl.
      destruct (ckey_eqb_spec ck (TTab, KN x, ix)) as [E|N]; [exfalso; exact (NS _ _ _ _ E K S) | eauto].
    - rewrite El. intros nf. destruct (I4 nf) as [ND HI]. split; [exact ND|].
      intros x ix H. destruct (HI _ _ H) as [Hx Hn]. split; [exact Hx|]. rewrite Hl.
      destruct (ckey_eqb_spec ck (TTab, KN x, ix)) as [E|N]; [|exact Hn].
      destruct o; [discriminate|]. exfalso. exact (Ho eq_refl nf _ _ H E).
  Qed.

  Lemma ext_upd n (s s' : st) ck o :
    upd ck o s s' -> (forall x ix, ck = (TTab, KN x, ix) -> ~ is_input x) -> ext n s s'.
  Proof.
    intros (El & Ec & Hl) Hni. split; [exists []; split; auto|]. split; [lia|].
    intros x ix v Hx H. rewrite Hl. destruct (ckey_eqb_spec ck (TTab, KN x, ix)) as [E|N]; [|exact H].
    now destruct (Hni _ _ E).
  Qed.

  Lemma ok_tick n ev :
    ev_le n ev -> (forall x ix, ev <> EvInput x ix) -> ok n (tick W ev) (fun _ => True).
  Proof.
    intros Hle Hni stack s r s' I E _. unfold tick in E.
    assert (I' : Inv stack {| cache := cache s; calls := S (calls s); log := ev :: log s |}).
    { destruct I as [I1 I2 I3 I4]. split; auto.
      intros nf. destruct (I4 nf) as [ND HI]. cbn [log].
      assert (input_evs (ev :: log s) = input_evs (log s)) as Eq.
      { destruct ev; cbn; auto. exfalso. eapply Hni; eauto. }
      rewrite Eq. split; auto. intros x ix [H|H]; [exfalso; eapply Hni; eauto | now apply HI]. }
    assert (X : ext n s {| cache := cache s; calls := S (calls s); log := ev :: log s |}).
    { split; [exists [ev]; split; auto | split; [cbn; lia | auto]]. }
    destruct (xw_fault W (calls s)); inversion E; subst; (split; [discriminate|]); auto.
  Qed.

  (** removing the entry of a series that is not an input, at an order other than 0 *)
  Lemma remove_ok n stack (s : st) tb x ix :
    ~ is_input x -> all_zero (idx_n ix) = false -> Inv stack s ->
    Inv stack (st_remove s (tb, KN x, ix)) /\ ext n s (st_remove s (tb, KN x, ix)).
  Proof.
    intros Hni Z I. pose proof (upd_remove s (tb, KN x, ix)) as U. split.
    - eapply Inv_upd with (1 := I) (2 := U); [now apply order_not_start | discriminate | |].
      + intros ck' [[_ F]|[_ H]]; [discriminate | exact H].
      + intros _ nf y iy H [= _ <- _]. now destruct (proj2 (inv_once I nf) _ _ H).
    - apply ext_upd with (1 := U). now intros y iy [= _ <- _].
  Qed.

  Lemma ok_del n x ix : ~ is_input x -> ok n (del_ alg W x ix) (fun _ => True).
  Proof.
    intros Hni stack s r s' I E _. unfold del_ in E.
    destruct (all_zero (idx_n ix)) eqn:Z; [|destruct (known alg W x)]; inversion E; subst; clear E;
      (split; [discriminate|]).
    1,3: split; [exact I | split; [reflexivity | auto]].
    destruct (@remove_ok n _ _ TTab _ _ Hni Z I) as [I1 X1]. destruct (@remove_ok n _ _ TLin _ _ Hni Z I1) as [I2 X2].
    split; [exact I2 | split; [now transitivity (st_remove s (TTab, KN x, ix)) | auto]].
  Qed.

  Definition td_ok (td : list (string * bool * etype)) : Prop :=
    Forall (fun x => ~ is_input (fst (fst x))) td.

  (** the target program consists of bodies built by [cline] whose deletions never name an
      input (true of [compile alg], see DSL/CompileProps.v) *)
  Hypothesis Hprog : forall x d, kind_of alg inputs x = KSeries d ->
      exists td, td_ok td /\ find_body x prog = Some (flat_map (cline (sname d) td) (sbody d)).

  (** validity of the Hermitian shortcuts, in the sense of the specification: for a product
      declared [hermitian], (low) a lower-triangle element is the adjoint of (anything equal
      to) the transposed one, (diag) on diagonal blocks of a two-factor product the half-sum of
      product_by_order equals the full sum.  DSL/HermValid.v derives both from "the second
      factor is the adjoint series of the first". *)
  Hypothesis Hlow : forall s p i j n,
      kind_of alg inputs s = KProduct p -> pherm p = true -> j < i -> wf_index W (i, j, n) = true ->
      forall x : V, (forall fu' w', spec fu' (KN s) (j, i, n) = Some w' -> x == w') ->
      forall fu w, spec fu (KN s) (i, j, n) = Some w -> vadj O x == w.
  Hypothesis Hdiag : forall s p i n fu w,
      kind_of alg inputs s = KProduct p -> pherm p = true -> length (pfactors p) = 2 ->
      wf_index W (i, i, n) = true ->
      iprod_gen O SW (spec fu) (i, i, n) false (first_key p 2) (second_key p 2) = Some w ->
      forall fu' w', iprod_gen O SW (spec fu') (i, i, n) true (first_key p 2) (second_key p 2) = Some w' ->
                     w' == w.

  Lemma spec_start_eq d ix : spec_start O SW d ix = option_map (den O) (start_sval W d ix).
  Proof.
    unfold start_sval, spec_start. change (is_start_index SW ix) with (x_start_index W ix).
    destruct (x_start_index W ix); [|reflexivity]. cbn [sw_inputs SW sw_env].
    destruct (sstart d); try reflexivity.
    - now destruct (Nat.eqb (idx_i ix) (idx_j ix)).
    - now destruct (mem_string s inputs).
  Qed.

  Definition getter_ok (g : getter V) : Prop :=
    forall tb k ix, ok (idx_n ix) (g tb k ix) (fun v => agrees v k ix).

  Section WithRec.
    Variable rec : getter V.
    Hypothesis Hrec : getter_ok rec.

    Section Body.
    Variable which : tbl.
    Variable idx : index.
    Notation n := (idx_n idx).

    Definition hden (fu : nat) (f : string) (h : handle V) : option V :=
      match h with
      | HVal v => Some (den O v)
      | HSeries s => iseries_arg O SW (spec fu) idx f s
      end.

    Definition hden_all (fu : nat) (f : string) (hs : list (handle V)) : option (list V) :=
      olist (map (hden fu f) hs).

    Lemma deref_ok f h :
      ok n (deref W rec which idx f h) (fun v => forall fu w, hden fu f h = Some w -> den O v == w).
    Proof.
      destruct h as [s|v]; cbn [deref].
      - destruct (xw_access W f idx) eqn:A.
        + eapply triple_weaken; [apply Hrec|]. intros v Hv fu w E. cbn [hden] in E.
          unfold iseries_arg in E. cbn [sw_access SW] in E. rewrite A in E. now apply (Hv fu).
        + apply triple_ret. intros fu w E. cbn [hden] in E. unfold iseries_arg in E.
          cbn [sw_access SW] in E. rewrite A in E. inversion E; subst. reflexivity.
      - apply triple_ret. intros fu w E. cbn in E. inversion E; subst. reflexivity.
    Qed.

    Lemma deref_all_ok f hs :
      ok n (deref_all W rec which idx f hs)
          (fun vs => forall fu ws, hden_all fu f hs = Some ws -> Forall2 eqv (map (den O) vs) ws).
    Proof.
      rewrite deref_all_mapM. eapply triple_weaken.
      - apply triple_mapM, Forall_forall. intros h _. apply deref_ok.
      - intros vs Hvs fu. apply orel_olist_vals. eapply Forall2_imp; [|exact Hvs]. intros h v Hv. exact (Hv fu).
    Qed.

    Lemma call_fn_ok f hs :
      ok n (call_fn W rec which idx f hs)
          (fun v => forall fu ws, hden_all fu f hs = Some ws -> den O v == sfn f ws idx).
    Proof.
      unfold call_fn.
      eapply triple_bind with (P := fun _ => True).
      { destruct (xw_counted W f).
        - apply ok_tick; [apply ole_refl | intros; discriminate].
        - now apply triple_ret. }
      intros _ _. eapply triple_bind; [apply deref_all_ok|]. intros vs Hvs.
      apply ok_lift. intros r Er fu ws E.
      rewrite (fn_tie _ _ _ Er). apply sfn_proper. eauto.
    Qed.

    Definition texpr_post (racc : V) (t : texpr) (v : sval V) : Prop :=
      forall fu w, tden O SW (spec fu) idx racc t = Some w -> den O v == w.

    Lemma eval_texpr_ok t :
      forall result racc, den O result == racc ->
        ok n (eval_texpr O alg W rec which idx result t) (texpr_post racc t).
    Proof.
      induction t using texpr_ind'; intros result racc HR.
      - cbn [eval_texpr]. apply triple_ret. intros fu w E. cbn in E. inversion E; subst. exact HR.
      - cbn [eval_texpr]. apply triple_ret. intros fu w E. cbn in E. inversion E; subst. reflexivity.
      - cbn [eval_texpr]. destruct (known alg W s); [|apply triple_raise].
        eapply triple_weaken.
        + eapply ok_mono; [|apply Hrec]. destruct tr; [rewrite idx_n_transp|]; apply ole_refl.
        + intros v Hv fu w E. cbn in E. now apply (Hv fu).
      - cbn [eval_texpr]. eapply triple_bind; [apply IHt; eauto|]. intros v Hv. apply ok_lift. intros z Ez fu w E.
        cbn [tden] in E. destruct (tden O SW (spec fu) idx racc t) as [y|] eqn:Ey; cbn in E; [|discriminate].
        inversion E; subst. rewrite (den_sdagger L _ Ez). now rewrite (Hv fu y Ey).
      - cbn [eval_texpr]. eapply triple_bind; [apply IHt; eauto|]. intros v Hv. apply ok_lift. intros z Ez fu w E.
        cbn [tden] in E. destruct (tden O SW (spec fu) idx racc t) as [y|] eqn:Ey; cbn in E; [|discriminate].
        inversion E; subst. rewrite (den_sneg L _ Ez). now rewrite (Hv fu y Ey).
      - rewrite eval_zsum. eapply triple_bind.
        + apply triple_mapM. eapply Forall_impl; [|exact H]. intros a Ha. exact (Ha result racc HR).
        + intros vs Hvs. apply ok_lift. intros z Ez fu w E. rewrite tden_zsum in E.
          destruct (tden_list O SW (spec fu) idx racc l) as [ws|] eqn:Ews; cbn in E; [|discriminate].
          inversion E; subst. rewrite (den_szero_sum L _ Ez). apply (vsum_proper L).
          eapply orel_olist_vals; [|exact Ews]. eapply Forall2_imp; [|exact Hvs]. intros t v Hv. exact (Hv fu).
      - cbn [eval_texpr]. eapply triple_bind; [apply IHt; eauto|]. intros v Hv. apply ok_lift. intros z Ez fu w E.
        cbn [tden] in E. destruct (tden O SW (spec fu) idx racc t) as [y|] eqn:Ey; cbn in E; [|discriminate].
        inversion E; subst. rewrite (den_sdivide L _ _ Ez). apply (l_div_proper L k). now apply (Hv fu).
      - apply eval_call_rule with
          (P := fun a h => forall fu, orel eqv (tden_arg O SW (spec fu) idx racc f a) (hden fu f h)).
        + eapply Forall_impl; [|exact H]. intros [s|e] Ha; cbn [targP] in Ha.
          * intros _ fu. apply (orel_refl L).
          * eapply triple_weaken; [exact (Ha result racc HR)|]. intros v Hv fu. apply orel_Some_r. exact (Hv fu).
        + intros hs Hhs. eapply triple_weaken; [apply call_fn_ok|]. intros v Hv fu w E. rewrite tden_call in E.
          destruct (tden_args O SW (spec fu) idx racc f args) as [ws|] eqn:Ews; cbn in E; [|discriminate].
          inversion E; subst.
          destruct (orel_olist (R := eqv) (tden_arg O SW (spec fu) idx racc f) (hden fu f) (l := args) (l' := hs)) with (a := ws)
            as (ws' & E' & F'); [eapply Forall2_imp; [|exact Hhs]; intros a h Hah; exact (Hah fu) | exact Ews |].
          rewrite (Hv _ _ E'). cbn [sw_fn SW]. now apply sfn_proper.
      - cbn [eval_texpr].
        destruct (xflag W c idx) eqn:F; [eapply triple_weaken; [apply IHt1; eauto|] | eapply triple_weaken; [apply IHt2; eauto|]];
          intros v Hv fu w E; cbn [tden] in E;
          replace (flag_value SW c idx) with (xflag W c idx) in E by (destruct c; reflexivity);
          rewrite F in E; now apply (Hv fu).
    Qed.

    Lemma td_ok_dels td et : td_ok td -> Forall (fun s => match s with TDel x _ => ~ is_input x | _ => True end) (dels td et).
    Proof.
      unfold dels, td_ok. intros H. induction td as [|x r IH]; cbn; auto.
      inversion H; subst. destruct (etype_eqb (snd x) et); cbn; auto.
    Qed.

    Definition body_post (name : string) (lines : list line) (result v : sval V) : Prop :=
      forall fu racc w, den O result == racc ->
        ibody O SW (spec fu) idx name lines racc = Some w -> den O v == w.

    (** an executed assignment [result = t] adds the value [A fu] that the line contributes *)
    Lemma body_step name t r result v1 v (A : nat -> option V) :
      texpr_post (den O result) t v1 -> body_post name r v1 v ->
      (forall fu x, A fu = Some x ->
         exists y, tden O SW (spec fu) idx (den O result) t = Some y /\ y == vadd O (den O result) x) ->
      forall fu racc w, den O result == racc ->
        obind (A fu) (fun x => ibody O SW (spec fu) idx name r (vadd O racc x)) = Some w -> den O v == w.
    Proof.
      intros Hv1 Hv F fu racc w HR E. destruct (A fu) as [x|] eqn:Ex; cbn in E; [|discriminate].
      destruct (F fu x Ex) as (y & Ey & Hy). apply (Hv fu (vadd O racc x) w); [|exact E].
      rewrite (Hv1 fu y Ey), Hy, HR. reflexivity.
    Qed.

    Lemma lines_ok name td lines :
      td_ok td ->
      forall result,
        ok n (exec_stmts O alg W rec which idx (flat_map (cline name td) lines) result)
            (body_post name lines result).
    Proof.
      intros Htd.
      apply lines_rule with (deletable := fun x => ~ is_input x)
                            (T := fun t result => texpr_post (den O result) t) (Q := body_post name);
        [intros x ix; apply ok_del | exact Htd | | |].
      - intros l t stop result _ _. apply eval_texpr_ok. reflexivity.
      - intros result fu racc w HR E. cbn in E. inversion E; subst. exact HR.
      - intros l r result. destruct l as [[| |] e|h]; cbn [line_step test_holds].
        + intros v1 v Hv1 Hv fu racc w HR E. cbn [ibody] in E. revert fu racc w HR E.
          apply body_step with (1 := Hv1) (2 := Hv). intros fu x. apply (ctop_sound L SW (spec fu) idx sfn_proper).
        + destruct (Nat.eqb (idx_i idx) (idx_j idx)) eqn:D.
          * intros v1 v Hv1 Hv fu racc w HR E. cbn [ibody] in E. rewrite D in E. revert fu racc w HR E.
            apply body_step with (1 := Hv1) (2 := Hv). intros fu x. apply Nat.eqb_eq in D.
            apply (cwrap_sound L SW (spec fu) idx sfn_proper (den O result) (dg := true) "diag" e (fun _ => D)).
          * intros v Hv fu racc w HR E. cbn [ibody] in E. rewrite D in E. eauto.
        + destruct (Nat.eqb (idx_i idx) (idx_j idx)) eqn:D; cbn [negb andb].
          * destruct (xw_hasoff W) eqn:HO; cbn [andb].
            -- intros v1 v Hv1 Hv fu racc w HR E. cbn [ibody] in E. rewrite D in E. cbn [negb sw_hasoff SW] in E. rewrite HO in E.
               revert fu racc w HR E. apply body_step with (1 := Hv1) (2 := Hv). intros fu x.
               apply (cwrap_sound L SW (spec fu) idx sfn_proper (den O result) (dg := false) "offdiag" e ltac:(discriminate)).
            -- intros v Hv fu racc w HR E. cbn [ibody] in E. rewrite D in E. cbn [negb sw_hasoff SW] in E. rewrite HO in E. eauto.
          * intros v1 v Hv1 Hv fu racc w HR E. cbn [ibody] in E. rewrite D in E. cbn [negb] in E. revert fu racc w HR E.
            apply body_step with (1 := Hv1) (2 := Hv). intros fu x. apply (ctop_sound L SW (spec fu) idx sfn_proper).
        + destruct (Nat.ltb (idx_j idx) (idx_i idx)) eqn:Lw.
          * intros v Hv fu racc w HR E. cbn [ibody] in E. rewrite Lw in E.
            destruct (spec fu (KN name) (transp idx)) as [a|] eqn:Ea; cbn in E; [|discriminate].
            inversion E; subst.
            destruct (cmarker_sound L SW (spec fu) idx (den O result) name h Ea) as (y & Ey & Hy).
            rewrite <- HR, <- Hy. exact (Hv fu y Ey).
          * intros v Hv fu racc w HR E. cbn [ibody] in E. rewrite Lw in E. eauto.
    Qed.
    End Body.

    Local Notation "a + b" := (vadd O a b).
    Local Notation "a * b" := (vmul O a b).
    Local Notation vz := (v0 O).

    Definition racc_next (hp : bool) (racc : V) (r : option V) : V :=
      match r with
      | None => racc
      | Some t => if hp then (racc + t) + vadj O t else racc + t
      end.

    Lemma racc_next_zero hp racc r : contrib O r == vz -> racc_next hp racc r == racc.
    Proof.
      destruct r as [t|]; cbn; intros Z; [|reflexivity].
      destruct hp; rewrite Z, ?(l_adj_0 L), ?(add_0_r L); reflexivity.
    Qed.

    Lemma racc_next_val (hp : bool) racc r x a :
      x == contrib O r -> a == racc ->
      (if hp then (a + x) + vadj O x else a + x) == racc_next hp racc r.
    Proof.
      intros Hx Ha. destruct r as [t|]; cbn in *.
      - destruct hp; rewrite Hx, Ha; reflexivity.
      - destruct hp; rewrite Hx, Ha, ?(l_adj_0 L), ?(add_0_r L); reflexivity.
    Qed.

    Lemma mk_term_ok n idx a b :
      ole (idx_n idx) n -> is_zero a = false -> is_zero b = false ->
      ok n (mk_term O W idx a b) (fun t => den O t == den O a * den O b).
    Proof.
      intros Hn Za Zb. destruct a, b; try discriminate; cbn [mk_term].
      - apply triple_ret. cbn. symmetry. apply (l_mul_1_l L).
      - apply triple_ret. cbn. symmetry. apply (l_mul_1_l L).
      - apply triple_ret. cbn. symmetry. apply (l_mul_1_r L).
      - eapply triple_bind with (P := fun _ => True).
        + apply ok_tick; [exact Hn | intros; discriminate].
        + intros _ _. apply triple_ret. reflexivity.
    Qed.

    Lemma accumulate_ok n hp acc t :
      ok n (accumulate O hp acc t)
          (fun a => den O a == if hp then (den O acc + den O t) + vadj O (den O t) else den O acc + den O t).
    Proof.
      unfold accumulate. destruct hp.
      - eapply triple_bind; [apply ok_lift; intros x Ex; exact (den_sadd L _ _ Ex)|]. intros x Hx.
        eapply triple_bind; [apply ok_lift; intros d Ed; exact (den_sdagger L _ Ed)|]. intros d Hd.
        apply ok_lift. intros z Ez. rewrite (den_sadd L _ _ Ez), Hx, Hd. reflexivity.
      - apply ok_lift. intros z Ez. exact (den_sadd L _ _ Ez).
    Qed.

    Definition pair_ok (n : list nat) (p : nat * list nat) : Prop :=
      ole (snd p) n /\ ole (lsub n (snd p)) n.

    Definition loop_post (half : bool) (idx : index) (k1 k2 : key) (l : list (nat * list nat))
               (acc v : sval V) : Prop :=
      forall fu racc w, den O acc == racc ->
        iprod_loop O (spec fu) idx half k1 k2 l racc = Some w -> den O v == w.

    (** the term is not in the half-sum *)
    Lemma loop_post_drop half idx k1 k2 mid m1 r acc v :
      half && lex_gt m1 (lsub (idx_n idx) m1) = true ->
      loop_post half idx k1 k2 r acc v -> loop_post half idx k1 k2 ((mid, m1) :: r) acc v.
    Proof. intros LX Hv fu racc w HR E. cbn [iprod_loop] in E. rewrite LX in E. eauto. Qed.

    (** the term is: the evaluator went from [acc] to [acc'], the specification from [racc] to
        [racc_next ... racc r'] where [r'] is the value of the term *)
    Lemma loop_post_cons half idx k1 k2 mid m1 r acc acc' v :
      let m2 := lsub (idx_n idx) m1 in
      half && lex_gt m1 m2 = false ->
      (forall fu r' racc,
         lazy_term O (Nat.leb (cost m1) (cost m2)) (fun _ => spec fu k1 (idx_i idx, mid, m1))
                   (fun _ => spec fu k2 (mid, idx_j idx, m2)) = Some r' ->
         den O acc == racc -> den O acc' == racc_next (half && negb (lnat_eqb m1 m2)) racc r') ->
      loop_post half idx k1 k2 r acc' v -> loop_post half idx k1 k2 ((mid, m1) :: r) acc v.
    Proof.
      intros m2 LX Hacc Hv fu racc w HR E. cbn [iprod_loop] in E. fold m2 in E. rewrite LX in E.
      destruct (lazy_term O _ _ _) as [r'|] eqn:Er; [|discriminate].
      apply (Hv fu _ w (Hacc fu r' racc Er HR)).
      destruct r' as [t|]; cbn [racc_next]; [|exact E]. now destruct (half && negb (lnat_eqb m1 m2)).
    Qed.

    (** the value of a term, from what the evaluator knows of its factors *)
    Lemma term_agrees fu c k1 i1 k2 i2 r' a b :
      lazy_term O c (fun _ => spec fu k1 i1) (fun _ => spec fu k2 i2) = Some r' ->
      agrees a k1 i1 -> agrees b k2 i2 -> contrib O r' == den O a * den O b.
    Proof.
      intros Er Ha Hb. apply (lazy_char L) in Er.
      destruct (spec fu k1 i1) as [a'|] eqn:Ea, (spec fu k2 i2) as [b'|] eqn:Eb; try tauto.
      - now rewrite Er, (Ha _ _ Ea), (Hb _ _ Eb).
      - destruct Er as [Z1 Z2]. rewrite Z2, (Ha _ _ Ea), Z1. symmetry. apply (l_mul_0_l L).
      - destruct Er as [Z1 Z2]. rewrite Z2, (Hb _ _ Eb), Z1. symmetry. apply (l_mul_0_r L).
    Qed.

    Lemma term_zero fu c k1 i1 k2 i2 r' :
      lazy_term O c (fun _ => spec fu k1 i1) (fun _ => spec fu k2 i2) = Some r' ->
      agrees SZero k1 i1 \/ agrees SZero k2 i2 -> contrib O r' == vz.
    Proof.
      intros Er K. apply (lazy_char L) in Er.
      destruct (spec fu k1 i1) as [a'|] eqn:Ea, (spec fu k2 i2) as [b'|] eqn:Eb; try tauto.
      destruct K as [K|K].
      - rewrite Er, <- (K _ _ Ea). apply (l_mul_0_l L).
      - rewrite Er, <- (K _ _ Eb). apply (l_mul_0_r L).
    Qed.

    Lemma agrees_zero a k i : agrees a k i -> is_zero a = true -> agrees SZero k i.
    Proof. intros Ha Z. destruct a; try discriminate. exact Ha. Qed.

    Lemma pbo_loop_ok tb k1 k2 half idx l :
      Forall (pair_ok (idx_n idx)) l ->
      forall acc,
        ok (idx_n idx) (pbo_loop O W rec tb k1 k2 half idx l acc) (loop_post half idx k1 k2 l acc).
    Proof.
      intros Hl. induction Hl as [|[mid m1] r [Hm1 Hm2] Hr IH]; intros acc; cbn [pbo_loop].
      - apply triple_ret. intros fu racc w HR E. cbn in E. inversion E; subst. exact HR.
      - cbn [snd] in Hm1, Hm2.
        set (m2 := lsub (idx_n idx) m1) in *.
        set (i1 := (idx_i idx, mid, m1)). set (i2 := (mid, idx_j idx, m2)).
        destruct (half && lex_gt m1 m2) eqn:LX.
        { eapply triple_weaken; [apply IH | intros v; now apply loop_post_drop]. }
        (* skipping the term is sound when one factor is known to be zero *)
        assert (SKIP : agrees SZero k1 i1 \/ agrees SZero k2 i2 ->
                       ok (idx_n idx) (pbo_loop O W rec tb k1 k2 half idx r acc)
                          (loop_post half idx k1 k2 ((mid, m1) :: r) acc)).
        { intros K. eapply triple_weaken; [apply IH|]. intros v. apply loop_post_cons; [exact LX|].
          intros fu r' racc Er HR. rewrite racc_next_zero; [exact HR | exact (term_zero _ _ Er K)]. }
        assert (FULL : forall a b, agrees a k1 i1 -> agrees b k2 i2 -> is_zero a = false -> is_zero b = false ->
                   ok (idx_n idx)
                       (bind (mk_term O W idx a b) (fun t =>
                          bind (accumulate O (half && negb (lnat_eqb m1 m2)) acc t) (fun acc' =>
                            pbo_loop O W rec tb k1 k2 half idx r acc')))
                       (loop_post half idx k1 k2 ((mid, m1) :: r) acc)).
        { intros a b Ha Hb Za Zb.
          eapply triple_bind; [apply mk_term_ok; auto using ole_refl|]. intros t Ht.
          eapply triple_bind; [apply accumulate_ok|]. intros acc' Hacc.
          eapply triple_weaken; [apply IH|]. intros v. apply loop_post_cons; [exact LX|].
          intros fu r' racc Er HR. rewrite Hacc. apply racc_next_val; [|exact HR].
          rewrite Ht. symmetry. exact (term_agrees _ _ Er Ha Hb). }
        apply triple_branch_when with (K := agrees SZero k1 i1 \/ agrees SZero k2 i2);
          [|exact SKIP|].
        + (* pre-skip: an evaluated factor is the sentinel zero *)
          intros stack s I C. apply orb_true_iff in C.
          destruct C as [C|C]; [left|right]; apply negb_true_iff, contains_false in C; exact (inv_done I _ _ _ C).
        + destruct (Nat.leb (cost m1) (cost m2)).
          * eapply triple_bind; [eapply ok_mono; [exact Hm1 | apply Hrec]|]. intros a Ha.
            destruct (is_zero a) eqn:Za; [apply SKIP; left; exact (agrees_zero Ha Za)|].
            eapply triple_bind; [eapply ok_mono; [exact Hm2 | apply Hrec]|]. intros b Hb.
            destruct (is_zero b) eqn:Zb; [apply SKIP; right; exact (agrees_zero Hb Zb)|]. now apply FULL.
          * eapply triple_bind; [eapply ok_mono; [exact Hm2 | apply Hrec]|]. intros b Hb.
            destruct (is_zero b) eqn:Zb; [apply SKIP; right; exact (agrees_zero Hb Zb)|].
            eapply triple_bind; [eapply ok_mono; [exact Hm1 | apply Hrec]|]. intros a Ha.
            destruct (is_zero a) eqn:Za; [apply SKIP; left; exact (agrees_zero Ha Za)|]. now apply FULL.
    Qed.

    Lemma splits_ok n m : In m (splits n) -> ole m n /\ ole (lsub n m) n.
    Proof.
      revert m. induction n as [|x r IH]; cbn [splits]; intros m H.
      - destruct H as [<-|[]]. cbn. auto.
      - apply in_flat_map in H. destruct H as (a & Ha & Hm). apply in_map_iff in Hm.
        destruct Hm as (m' & <- & Hm'). apply in_seq in Ha. destruct (IH _ Hm') as [H1 H2].
        cbn. repeat split; auto; lia.
    Qed.

    Lemma in_pbo_space nb n mid m : In (mid, m) (pbo_space nb n) <-> mid < nb /\ In m (splits n).
    Proof.
      unfold pbo_space. rewrite in_flat_map. split.
      - intros (mid' & Hmid & H). apply in_map_iff in H. destruct H as (m' & [= <- <-] & Hm).
        apply in_seq in Hmid. split; [lia | exact Hm].
      - intros [H1 H2]. exists mid. split; [apply in_seq; lia | now apply in_map].
    Qed.

    (** the two factors of a term of a product at a full index are at full indices *)
    Lemma wf_split i j n mid m :
      wf_index W (i, j, n) = true -> mid < xw_nb W -> In m (splits n) ->
      wf_index W (i, mid, m) = true /\ wf_index W (mid, j, lsub n m) = true.
    Proof.
      intros Hwf Hmid Hm. apply wf_index_iff in Hwf. destruct Hwf as (Hi & Hj & Hl).
      destruct (splits_ok _ _ Hm) as [O1 O2]. apply ole_length in O1, O2.
      split; apply wf_index_iff; repeat split; auto; congruence.
    Qed.

    Lemma pbo_space_ok nb n : Forall (pair_ok n) (pbo_space nb n).
    Proof. apply Forall_forall. intros [mid m] H. apply in_pbo_space in H. now apply splits_ok. Qed.

    Lemma half_defined sub idx k1 k2 l racc racc' w :
      iprod_loop O sub idx false k1 k2 l racc = Some w ->
      exists w', iprod_loop O sub idx true k1 k2 l racc' = Some w'.
    Proof.
      revert racc racc'. induction l as [|[mid m1] r IH]; intros racc racc' E; cbn [iprod_loop] in *.
      - eauto.
      - cbn [andb] in E.
        destruct (true && lex_gt m1 (lsub (idx_n idx) m1)).
        + destruct (lazy_term O _ _ _) as [[t|]|]; try discriminate; eauto.
        + destruct (lazy_term O _ _ _) as [[t|]|]; try discriminate; [|eauto].
          destruct (true && negb (lnat_eqb m1 (lsub (idx_n idx) m1))); eauto.
    Qed.

    Lemma pbo_ok tb k1 k2 half idx :
      ok (idx_n idx) (pbo O W rec tb k1 k2 half idx)
          (fun v => forall fu w, iprod_gen O SW (spec fu) idx half k1 k2 = Some w -> den O v == w).
    Proof.
      unfold pbo. eapply triple_weaken; [apply pbo_loop_ok, pbo_space_ok|].
      intros v Hv fu w E. unfold iprod_gen in E. cbn [sw_nb SW] in E.
      apply (Hv fu (v0 O) w); [reflexivity | exact E].
    Qed.

    Lemma eval_of_ok tb k idx :
      wf_index W idx = true ->
      (forall x d, tb = TTab -> k = KN x -> kind_of alg inputs x = KSeries d -> start_sval W d idx = None) ->
      (forall x, tb = TTab -> k = KN x -> kind_of alg inputs x <> KInput) ->
      ok (idx_n idx) (eval_of O alg prog W rec tb k idx) (fun v => agrees v k idx).
    Proof.
      intros Hwf Hst Hni. destruct k as [x|pn k']; cbn [eval_of].
      - destruct (kind_of alg inputs x) as [|d|p|] eqn:K.
        + destruct tb; [exfalso; eapply Hni; eauto | apply Hrec].
        + destruct tb; [|apply Hrec].
          unfold series_eval. destruct (@Hprog _ _ K) as (td & Htd & Fb). rewrite Fb.
          eapply triple_weaken; [apply lines_ok; exact Htd|].
          intros v Hv f w E. destruct f as [|fu]; [discriminate|]. cbn [interp] in E.
          unfold rhs in E. cbn [sw_inputs SW] in E. rewrite K in E.
          rewrite spec_start_eq, (Hst _ _ eq_refl eq_refl K) in E. cbn [option_map] in E.
          apply (Hv fu (v0 O) w); [reflexivity | exact E].
        + destruct (Nat.leb 2 (length (pfactors p))) eqn:M; [|apply triple_raise].
          destruct (pherm p && Nat.ltb (idx_j idx) (idx_i idx)) eqn:HL.
          * apply andb_true_iff in HL. destruct HL as [HP HL]. apply Nat.ltb_lt in HL.
            eapply triple_bind.
            { eapply ok_mono; [|apply Hrec]. rewrite idx_n_transp. apply ole_refl. }
            intros v Hv. apply ok_lift. intros z Ez f w E.
            destruct idx as [[i j] n]. cbn [idx_i idx_j] in HL.
            rewrite (den_sdagger L _ Ez).
            eapply (@Hlow x p i j n K HP HL Hwf (den O v)); [|exact E].
            intros fu' w' E'. exact (Hv _ _ E').
          * destruct (pherm p && Nat.eqb (length (pfactors p)) 2 && Nat.eqb (idx_i idx) (idx_j idx)) eqn:HD.
            -- apply andb_true_iff in HD. destruct HD as [HD HI]. apply andb_true_iff in HD.
               destruct HD as [HP H2]. apply Nat.eqb_eq in H2. apply Nat.eqb_eq in HI.
               eapply triple_weaken; [apply pbo_ok|]. intros v Hv f w E.
               destruct f as [|fu]; [discriminate|]. cbn [interp] in E.
               unfold rhs in E. cbn [sw_inputs SW] in E. rewrite K, M in E. unfold iprod in E.
               destruct idx as [[i j] n]. cbn [idx_i idx_j fst snd] in HI. cbn in HI. subst j. rewrite H2 in *.
               assert (exists w', iprod_gen O SW (spec fu) (i, i, n) true (first_key p 2) (second_key p 2) = Some w') as (w' & E').
               { unfold iprod_gen in *. eapply half_defined; eauto. }
               rewrite (Hv _ _ E'). eapply Hdiag; eauto.
            -- eapply triple_weaken; [apply pbo_ok|]. intros v Hv f w E.
               destruct f as [|fu]; [discriminate|]. cbn [interp] in E.
               unfold rhs in E. cbn [sw_inputs SW] in E. rewrite K, M in E. unfold iprod in E. eauto.
        + apply triple_raise.
      - destruct (find_pdef pn (aproducts alg)) as [p|] eqn:F; [|apply triple_raise].
        destruct (Nat.leb 2 k' && Nat.ltb k' (length (pfactors p))) eqn:B; [|apply triple_raise].
        eapply triple_weaken; [apply pbo_ok|]. intros v Hv f w E.
        destruct f as [|fu]; [discriminate|]. cbn [interp] in E. unfold rhs in E. rewrite F, B in E.
        unfold iprod in E. eauto.
    Qed.
  End WithRec.

  Lemma Inv_push stack (s : st) ck :
    Inv stack s -> st_lookup s ck = None -> Inv (ck :: stack) (st_store s ck Pending).
  Proof.
    intros I N.
    eapply Inv_upd with (1 := I) (2 := upd_store s ck Pending);
      [exact (@miss_not_start _ _ _ I N) | discriminate | | discriminate].
    intros ck' [[-> _]|[_ H]]; [now left | now right].
  Qed.

  Lemma Inv_pop_done stack (s : st) tb k ix v :
    Inv ((tb, k, ix) :: stack) s -> not_start (tb, k, ix) -> agrees v k ix ->
    Inv stack (st_store s (tb, k, ix) (Done v)).
  Proof.
    intros I NS A. eapply Inv_upd with (1 := I) (2 := upd_store s _ (Done v)); [exact NS | | | discriminate].
    - intros tb' k' ix' v' [= <- <- <-] [= <-]. exact A.
    - intros ck' [[_ F]|[N [E|H]]]; [discriminate | congruence | exact H].
  Qed.

  Lemma Inv_pop_raise stack (s : st) ck :
    Inv (ck :: stack) s -> not_start ck ->
    (NF -> forall x ix, In (EvInput x ix) (log s) -> ck <> (TTab, KN x, ix)) ->
    Inv stack (st_remove s ck).
  Proof.
    intros I NS NE. eapply Inv_upd with (1 := I) (2 := upd_remove s ck); [exact NS | discriminate | | intros _; exact NE].
    intros ck' [[_ F]|[N [E|H]]]; [discriminate | congruence | exact H].
  Qed.

  (** a key absent before is set, a computation runs, the key is set again *)
  Lemma ext_frame n (s s1 s2 s' : st) ck o1 o2 :
    st_lookup s ck = None -> upd ck o1 s s1 -> ext n s1 s2 -> upd ck o2 s2 s' -> ext n s s'.
  Proof.
    intros N (El1 & Ec1 & Hl1) ((l & El & Fl) & C & P) (El2 & Ec2 & Hl2).
    split; [exists l; rewrite El2, El, El1; auto|]. split; [lia|].
    intros x ix v Hx H. assert (D : ckey_eqb ck (TTab, KN x, ix) = false).
    { destruct (ckey_eqb_spec ck (TTab, KN x, ix)) as [->|]; [congruence | reflexivity]. }
    rewrite Hl2, D. apply P; auto. now rewrite Hl1, D.
  Qed.

  Lemma getitem_step_ok rec : getter_ok rec -> getter_ok (getitem_step O alg prog W rec).
  Proof.
    intros Hrec tb k ix stack s r s' I E NO. unfold getitem_step in E.
    destruct (wf_index W ix) eqn:Hwf; cbn [negb] in E; [|exact (@triple_raise V _ Inv (ext (idx_n ix)) False _ _ IndexError _ stack s r s' I E NO)].
    destruct (st_lookup s (tb, k, ix)) as [[|v]|] eqn:Lk.
    - exact (@triple_raise V _ Inv (ext (idx_n ix)) False _ _ RuntimeError _ stack s r s' I E NO).
    - exact (@triple_ret V _ Inv (ext (idx_n ix)) False _ _ v (fun a => agrees a k ix) (inv_done I _ _ _ Lk) stack s r s' I E NO).
    - pose proof (@Inv_push _ _ _ I Lk) as I1. pose proof (@miss_not_start _ _ _ I Lk) as NS.
      set (ck := (tb, k, ix)) in *. set (s1 := st_store s ck Pending) in *.
      (* is this the evaluation of an input element by the user's eval? *)
      assert (CASES : (exists x, tb = TTab /\ k = KN x /\ is_input x) \/
                      (forall x, tb = TTab -> k = KN x -> kind_of alg inputs x <> KInput)).
      { destruct tb; [|right; intros; discriminate]. destruct k as [x|]; [|right; intros; discriminate].
        destruct (kind_of alg inputs x) eqn:K; try (right; intros y _ Ey; inversion Ey; subst; rewrite K; discriminate).
        left. eauto. }
      destruct CASES as [(x & -> & -> & Hx)|Hni].
      + (* input element: user callback *)
        cbn [eval_of] in E. unfold is_input in Hx. rewrite Hx in E. unfold bind, tick, ret in E.
        set (s2 := {| cache := cache s1; calls := S (calls s1); log := EvInput x ix :: log s1 |}) in *.
        assert (X12 : ext (idx_n ix) s1 s2).
        { split; [exists [EvInput x ix]; split; auto; constructor; auto; apply ole_refl|].
          split; [cbn; lia | auto]. }
        assert (I2 : (NF -> xw_fault W (calls s1) = None) -> Inv (ck :: stack) s2).
        { intros Hnf. destruct I1 as [J1 J2 J3 J4]. split; auto.
          intros nf. destruct (J4 nf) as [ND HI]. cbn [log s2 input_evs]. split.
          - constructor; auto. intros Hin. apply in_input_evs in Hin.
            destruct (inv_once I nf) as [_ HI0]. destruct (HI0 _ _ Hin) as [_ Hl]. contradiction.
          - intros y iy [[= <- <-]|Hy]; [|now apply HI]. split; [exact Hx|].
            change (st_lookup s1 ck <> None). unfold s1. rewrite st_lookup_store.
            now destruct (ckey_eqb_spec ck ck). }
        assert (A : agrees (xw_env W x ix) (KN x) ix).
        { intros [|fu] w Ef; [discriminate|]. cbn [interp] in Ef. unfold rhs in Ef.
          cbn [sw_inputs SW] in Ef. rewrite Hx in Ef. inversion Ef; subst. reflexivity. }
        destruct (xw_fault W (calls s1)) as [e|] eqn:F; inversion E; subst; clear E; (split; [discriminate|]).
        * split; [|split; [|intros; discriminate]].
          -- apply Inv_pop_raise; [apply I2 | exact NS |]; intros nf; rewrite nf in F; discriminate.
          -- eapply ext_frame; [exact Lk | apply upd_store | exact X12 | apply upd_remove].
        * split; [|split].
          -- apply Inv_pop_done; auto.
          -- eapply ext_frame; [exact Lk | apply upd_store | exact X12 | apply upd_store].
          -- now intros a [= <-].
      + (* every other object *)
        destruct (eval_of O alg prog W rec tb k ix s1) as [r1 s2] eqn:E1.
        assert (Hst : forall x d, tb = TTab -> k = KN x -> kind_of alg inputs x = KSeries d -> start_sval W d ix = None).
        { intros x d -> -> K. destruct (start_sval W d ix) as [sv|] eqn:S; auto. exfalso. exact (NS x d ix sv eq_refl K S). }
        destruct (@eval_of_ok rec Hrec tb k ix Hwf Hst Hni _ _ _ _ I1 E1) as (N1 & I2 & X2 & P2).
        { destruct r1; [right; discriminate | right; discriminate | inversion E; subst; exact NO]. }
        destruct r1 as [v|e|]; [| |congruence]; inversion E; subst; clear E; (split; [discriminate|]).
        * split; [|split].
          -- apply Inv_pop_done; auto.
          -- eapply ext_frame; [exact Lk | apply upd_store | exact X2 | apply upd_store].
          -- intros a [= <-]. auto.
        * split; [|split; [|intros; discriminate]].
          -- apply Inv_pop_raise; auto.
             intros nf y iy Hy D. destruct (inv_once I2 nf) as [_ HI]. destruct (HI _ _ Hy) as [Hyi _].
             inversion D; subst. eapply Hni; eauto.
          -- eapply ext_frame; [exact Lk | apply upd_store | exact X2 | apply upd_remove].
  Qed.

  Theorem getitem_ok fuel : getter_ok (getitem O alg prog W fuel).
  Proof.
    induction fuel as [|f IH]; cbn [getitem].
    - intros tb k ix stack s r s' I E [[]|NO]. inversion E; subst. now destruct NO.
    - now apply getitem_step_ok.
  Qed.

  Theorem run_ok fuel (s : st) tb name ix r s' :
    Inv [] s -> run O alg prog W fuel s (tb, name, ix) = (r, s') -> r <> OutOfFuel ->
    Inv [] s' /\ ext (idx_n ix) s s' /\ forall v, r = Ok v -> agrees v (KN name) ix.
  Proof.
    intros I E NO. unfold run in E. destruct (known alg W name).
    - exact (proj1 (ok_mok _ _ _) (@getitem_ok fuel tb (KN name) ix) [] s r s' I E NO).
    - inversion E; subst. split; [exact I | split; [reflexivity | intros; discriminate]].
  Qed.

  Definition req_name (r : request) : string := snd (fst r).
  Definition req_idx (r : request) : index := snd r.

  Theorem run_all_ok fuel rs : forall (s : st) os s',
    Inv [] s -> run_all O alg prog W fuel s rs = (os, s') -> Forall (fun o => o <> OutOfFuel) os ->
    Inv [] s' /\
    Forall2 (fun r o => forall v, o = Ok v -> agrees v (KN (req_name r)) (req_idx r)) rs os.
  Proof.
    induction rs as [|[[tb name] ix] rest IH]; intros s os s' I E NO; cbn [run_all] in E.
    - inversion E; subst. split; auto.
    - destruct (run O alg prog W fuel s (tb, name, ix)) as [o s1] eqn:E1.
      destruct (run_all O alg prog W fuel s1 rest) as [os' s2] eqn:E2.
      inversion E; subst. inversion NO; subst.
      destruct (@run_ok fuel s tb name ix o s1 I E1) as (I1 & _ & P1); auto.
      destruct (IH _ _ _ I1 E2) as (I2 & F2); auto.
  Qed.

  (** no in-flight marker survives a request, whatever its outcome *)
  Lemma Inv_no_pending (s : st) : Inv [] s -> forall ck, st_lookup s ck <> Some Pending.
  Proof. intros I ck H. exact (@inv_pend _ _ I _ H). Qed.

  Lemma lookup_in (c : list (ckey * entry V)) k e : lookup c k = Some e -> In (k, e) c.
  Proof.
    induction c as [|[k' e'] r IH]; cbn; [discriminate|].
    destruct (ckey_eqb_spec k' k) as [->|N]; [intros [= ->]; now left | right; auto].
  Qed.

  Lemma in_lookup (c : list (ckey * entry V)) k e : In (k, e) c -> exists e', lookup c k = Some e'.
  Proof.
    induction c as [|[k' e'] r IH]; cbn; [tauto|].
    intros [H|H]; destruct (ckey_eqb_spec k' k); eauto. inversion H; congruence.
  Qed.

  Definition init_good (b : ckey * entry V) : Prop :=
    exists v x ix, b = ((TTab, KN x, ix), Done v) /\
      ((exists d, kind_of alg inputs x = KSeries d /\ start_sval W d ix = Some v) \/
       (kind_of alg inputs x = KInput /\ v = xw_env W x ix)).

  Lemma init_entries_good b : In b (init_entries alg W) -> init_good b.
  Proof.
    unfold init_entries. intros H. apply in_app_or in H. destruct H as [H|H].
    - apply in_flat_map in H. destruct H as (x & _ & H).
      destruct (kind_of alg inputs x) as [|d| |] eqn:K; try contradiction.
      apply in_flat_map in H. destruct H as (bl & _ & H).
      destruct (start_sval W d (fst bl, snd bl, zero_order W)) as [v|] eqn:S; [|contradiction].
      destruct H as [<-|[]]. exists v, x, (fst bl, snd bl, zero_order W). split; auto. left. eauto.
    - apply in_flat_map in H. destruct H as (x & _ & H).
      destruct (kind_of alg inputs x) eqn:K; try contradiction.
      apply in_map_iff in H. destruct H as (bl & <- & _).
      exists (xw_env W x (fst bl, snd bl, zero_order W)), x, (fst bl, snd bl, zero_order W). split; auto.
  Qed.

  Lemma all_zero_repeat n : all_zero n = true -> n = repeat 0 (length n).
  Proof.
    induction n as [|x r IH]; cbn; auto. intros H. apply andb_true_iff in H. destruct H as [H1 H2].
    apply Nat.eqb_eq in H1. subst. f_equal. auto.
  Qed.

  Lemma start_index_shape ix :
    x_start_index W ix = true ->
    ix = (idx_i ix, idx_j ix, zero_order W) /\ In (idx_i ix, idx_j ix) (all_blocks W).
  Proof.
    unfold x_start_index. intros H. repeat (apply andb_true_iff in H; destruct H as [H ?]).
    apply Nat.eqb_eq in H2. apply Nat.ltb_lt in H1, H0. apply all_zero_repeat in H.
    destruct ix as [[i j] n]. unfold idx_i, idx_j, idx_n in *. cbn [fst snd] in *. split.
    - unfold zero_order. rewrite <- H2. now rewrite <- H.
    - unfold all_blocks. apply in_flat_map. exists i. split; [apply in_seq; lia|].
      apply in_map. apply in_seq. lia.
  Qed.

  (** the start data are in the initial cache *)
  Lemma init_start calls0 x d ix sv :
    kind_of alg inputs x = KSeries d -> start_sval W d ix = Some sv ->
    st_lookup (init_state alg W calls0) (TTab, KN x, ix) = Some (Done sv).
  Proof.
    intros K S. unfold st_lookup, init_state. cbn [cache].
    assert (Hin : In ((TTab, KN x, ix), Done sv) (init_entries alg W)).
    { unfold init_entries. apply in_or_app. left. apply in_flat_map. exists x. split.
      - pose proof (kind_of_spec alg inputs x) as F. rewrite K in F.
        destruct (find_sdef_spec _ _ (proj2 F)) as [<- Hd]. now apply in_map.
      - rewrite K. assert (SI : x_start_index W ix = true).
        { unfold start_sval in S. destruct (x_start_index W ix); [auto | discriminate]. }
        destruct (start_index_shape _ SI) as [Eix Hb].
        apply in_flat_map. exists (idx_i ix, idx_j ix). split; auto. cbn [fst snd].
        rewrite <- Eix, S. now left. }
    destruct (in_lookup _ _ _ Hin) as (e' & Le). rewrite Le.
    apply lookup_in, init_entries_good in Le.
    destruct Le as (v' & x' & ix' & E & [(d' & K' & S')|(K' & _)]); inversion E; subst.
    + rewrite K in K'. inversion K'; subst. rewrite S in S'. inversion S'; subst. reflexivity.
    + rewrite K in K'. discriminate.
  Qed.

  Theorem init_inv calls0 : Inv [] (init_state alg W calls0).
  Proof.
    split; unfold st_lookup, init_state; cbn [cache log].
    - intros tb k ix v H. apply lookup_in, init_entries_good in H.
      destruct H as (v' & x & ix' & E & [(d & K & S)|(K & ->)]); inversion E; subst.
      + intros f w Ef. destruct f as [|fu]; [discriminate|]. cbn [interp] in Ef. unfold rhs in Ef.
        cbn [sw_inputs SW] in Ef. rewrite K, spec_start_eq, S in Ef. inversion Ef; subst. reflexivity.
      + intros f w Ef. destruct f as [|fu]; [discriminate|]. cbn [interp] in Ef. unfold rhs in Ef.
        cbn [sw_inputs SW] in Ef. rewrite K in Ef. inversion Ef; subst. reflexivity.
    - intros ck H. apply lookup_in, init_entries_good in H.
      destruct H as (v' & x & ix' & E & _). inversion E.
    - intros x d ix sv. apply (@init_start calls0).
    - intros _. split; [constructor | intros x ix []].
  Qed.
End Sound.

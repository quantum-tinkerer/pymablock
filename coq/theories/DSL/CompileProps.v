(** DSL/CompileProps.v - facts about the compiler model used by the soundness theorems:
    the body found for a defined series is the compilation of its lines, and a [del_] never
    names an input series (inputs are black-listed in [_find_delete_candidates]). *)
From Coq Require Import String List ZArith Bool Arith.
From PV.DSL Require Import Syntax Target Compile Interp Exec Laws.
Import ListNotations.
Set Implicit Arguments.

Lemma mem_str_in s l : mem_str s l = true <-> In s l.
Proof.
  unfold mem_str. rewrite existsb_exists. split.
  - intros (x & Hx & E). apply String.eqb_eq in E. now subst.
  - intros H. exists s. split; auto. apply String.eqb_refl.
Qed.

Lemma find_body_compile x l (f : sdef -> list tstmt) d :
  find_sdef x l = Some d -> find_body x (map (fun d => (sname d, f d)) l) = Some (f d).
Proof.
  induction l as [|d' r IH]; cbn; [discriminate|].
  destruct (String.eqb (sname d') x); [intros E; inversion E; subst; reflexivity | auto].
Qed.

Lemma find_sdef_name x l d : find_sdef x l = Some d -> sname d = x.
Proof. intros H. apply (find_sdef_spec _ _ H). Qed.

Lemma find_sdef_none x l : find_sdef x l = None -> ~ In x (map sname l).
Proof.
  induction l as [|d' r IH]; cbn; [tauto|].
  destruct (String.eqb (sname d') x) eqn:E; [discriminate|].
  intros H [F|F]; [subst; rewrite String.eqb_refl in E; discriminate | now apply IH].
Qed.

Section Blacklist.
  Variable alg : algorithm.

  Definition used_names : list string := map (fun u => fst (fst u)) (flat_map series_uses (aseries alg)).

  (** every recorded access is to a used term outside the black-list *)
  Definition acc_ok (a : access) : Prop :=
    In (fst (fst a)) used_names /\ mem_str (fst (fst a)) (delete_blacklist alg) = false.

  Lemma scan_uses_ok origin us :
    forall remaining indices last acc,
      Forall (fun u => In (fst (fst u)) used_names) us ->
      Forall acc_ok acc ->
      Forall acc_ok (scan_uses origin (delete_blacklist alg) us remaining indices last acc).
  Proof.
    induction us as [|[[term adjoint] et] r IH]; intros remaining indices last acc Hu Ha; cbn [scan_uses]; auto.
    inversion Hu; subst. apply IH; auto.
    destruct (mem_str term (delete_blacklist alg)) eqn:B; auto.
    match goal with |- Forall _ (fold_left _ ?l _) => generalize l end.
    intros l. revert acc Ha. induction l as [|ij l IHl]; intros acc Ha; cbn [fold_left]; auto.
    apply IHl. constructor; auto. split; cbn; auto.
  Qed.

  Lemma all_accesses_ok : Forall acc_ok (all_accesses alg).
  Proof.
    unfold all_accesses.
    assert (G : forall l acc, (forall d, In d l -> In d (aseries alg)) -> Forall acc_ok acc ->
                Forall acc_ok (fold_left (fun acc d =>
                   scan_uses (sname d) (delete_blacklist alg) (series_uses d)
                             [(0, 0); (0, 1); (1, 0); (1, 1)] [] None acc) l acc)).
    { induction l as [|d l IH]; intros acc Hl Ha; cbn [fold_left]; auto.
      apply IH; [intros; apply Hl; now right|]. apply scan_uses_ok; auto.
      apply Forall_forall. intros u Hu. unfold used_names. apply in_map_iff. exists u. split; auto.
      apply in_flat_map. exists d. split; auto. apply Hl. now left. }
    apply G; auto.
  Qed.

  Lemma in_dedup_del x l : In x (dedup_del l) -> In x l.
  Proof.
    induction l as [|y r IH]; cbn; auto. destruct (existsb (del_eqb y) r); cbn; intros H; auto.
    destruct H; auto.
  Qed.

  Lemma to_delete_ok origin x :
    In x (to_delete alg origin) ->
    In (fst (fst x)) used_names /\ mem_str (fst (fst x)) (delete_blacklist alg) = false.
  Proof.
    unfold to_delete. intros H. apply in_dedup_del in H. apply in_map_iff in H.
    destruct H as (a & <- & Ha). apply filter_In in Ha. destruct Ha as [Ha _].
    pose proof all_accesses_ok as F. rewrite Forall_forall in F. exact (F _ Ha).
  Qed.

  (** names of inputs contain no "@" (a name with "@" denotes a product) *)
  Variable inputs : list string.
  Hypothesis inputs_plain : forall x, In x inputs -> has_at x = false.

  Theorem to_delete_not_input origin x :
    In x (to_delete alg origin) -> kind_of alg inputs (fst (fst x)) <> KInput.
  Proof.
    intros H K. destruct (to_delete_ok _ _ H) as [Hu Hb].
    set (t := fst (fst x)) in *. pose proof (kind_of_spec alg inputs t) as S. rewrite K in S.
    destruct S as (_ & F & M).
    assert (Hin : In t inputs).
    { unfold mem_string in M. apply existsb_exists in M. destruct M as (y & Hy & E).
      apply String.eqb_eq in E. now subst. }
    assert (In t (delete_blacklist alg)) as Hbl.
    { unfold delete_blacklist. apply in_or_app. right. apply in_or_app. left.
      unfold syntactic_inputs. apply filter_In. split; [exact Hu|].
      rewrite (inputs_plain _ Hin). cbn.
      destruct (mem_str t (computed_names alg)) eqn:C; auto.
      apply mem_str_in in C. exfalso. eapply find_sdef_none; eauto. }
    apply mem_str_in in Hbl. congruence.
  Qed.

  (** the hypothesis [Hprog] of DSL/Sound.v holds for [compile alg] *)
  Theorem compile_bodies x d :
    kind_of alg inputs x = KSeries d ->
    exists td, Forall (fun y => kind_of alg inputs (fst (fst y)) <> KInput) td /\
               find_body x (compile alg) = Some (flat_map (cline (sname d) td) (sbody d)).
  Proof.
    intros K. pose proof (kind_of_spec alg inputs x) as S. rewrite K in S. destruct S as [_ F]. exists (to_delete alg (sname d)). split.
    - apply Forall_forall. intros y Hy. eapply to_delete_not_input; eauto.
    - unfold compile. rewrite (@find_body_compile x (aseries alg) (cseries alg) d F). reflexivity.
  Qed.

  (** every [del_] in the code of a line comes from the delete table *)
  Lemma cline_dels name td l s tr :
    (In (TS (TDel s tr)) (cline name td l) \/ exists t b, In (TIf t b) (cline name td l) /\ In (TDel s tr) b) ->
    exists x, In x td /\ fst (fst x) = s.
  Proof.
    assert (D : forall et, In (TDel s tr) (dels td et) -> exists x, In x td /\ fst (fst x) = s).
    { unfold dels. intros et H. apply in_map_iff in H. destruct H as (x & [= <- _] & Hx).
      apply filter_In in Hx. exists x. split; [apply Hx | reflexivity]. }
    intros [H|(t & b & Hb & H)]; destruct l as [[| |] e|h]; cbn [cline In map] in *.
    - destruct H as [[=]|H]. apply in_map_iff in H. destruct H as (y & [= ->] & Hy). eauto.
    - destruct H as [[=]|[]].
    - destruct H as [[=]|[[=]|[]]].
    - destruct H as [[=]|[]].
    - destruct Hb as [[=]|Hb]. apply in_map_iff in Hb. destruct Hb as (y & [=] & _).
    - destruct Hb as [[= <- <-]|[]]. destruct H as [[=]|H]. eauto.
    - destruct Hb as [[= <- <-]|[[= <- <-]|[]]]; (destruct H as [[=]|H]); eauto.
    - destruct Hb as [[= <- <-]|[]]. destruct H as [[=]|H]. apply in_app_or in H. destruct H as [H|[[=]|[]]]. eauto.
  Qed.

  (** C10: the generated code never pops an element of an input series *)
  Theorem compile_never_deletes_inputs name body s tr :
    In (name, body) (compile alg) ->
    (In (TS (TDel s tr)) body \/ exists t b, In (TIf t b) body /\ In (TDel s tr) b) ->
    kind_of alg inputs s <> KInput.
  Proof.
    intros Hc Hd. apply in_map_iff in Hc. destruct Hc as (d & [= <- <-] & _). unfold cseries in Hd.
    assert (exists l, In (TS (TDel s tr)) (cline (sname d) (to_delete alg (sname d)) l) \/
                      exists t b, In (TIf t b) (cline (sname d) (to_delete alg (sname d)) l) /\ In (TDel s tr) b) as (l & Hl).
    { destruct Hd as [H|(t & b & H & Hb)]; apply in_flat_map in H; destruct H as (l & _ & H); exists l; eauto. }
    apply cline_dels in Hl. destruct Hl as (x & Hx & <-). exact (to_delete_not_input _ _ Hx).
  Qed.
End Blacklist.

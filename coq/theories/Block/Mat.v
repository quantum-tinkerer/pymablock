(** D x D matrices over a ring, as functions [nat -> nat -> R] compared on indices < D.

    - [CStar]: the coefficient ring of the matrices: a commutative [Ncring] ring with a
      star (involutive ring automorphism [conj]) and division by non-zero integer literals.
    - functor  Ring R -> Ring (mat D R);
    - conjugate transpose [madj] and its laws (needs [CStar]);
    - entry-wise division by integer literals. *)
Require Import Ncring_tac.
From PV.Base Require Import Classes BigSum.
From PV.Series Require Import MultiIndex.
Set Implicit Arguments.

Section StarRing.
Context {R : Type} `{Rg : Ring R}.

Class CStar := {
  cs_comm : forall x y : R, x * y == y * x;
  conj : R -> R;
  conj_P :> Proper (_==_ ==> _==_) conj;
  conj_add : forall x y, conj (x + y) == conj x + conj y;
  conj_opp : forall x, conj (- x) == - conj x;
  conj_mul : forall x y, conj (x * y) == conj x * conj y;
  conj_inv : forall x, conj (conj x) == x;
  divz0 : R -> Z -> R;
  divz0_P :> forall k, Proper (_==_ ==> _==_) (fun x => divz0 x k);
  divz0_add : forall k x y, divz0 (x + y) k == divz0 x k + divz0 y k;
  divz0_opp : forall k x, divz0 (- x) k == - divz0 x k;
  divz0_spec : forall k x, k <> 0%Z -> zmul k (divz0 x k) == x
}.

Context {CS : CStar}.

Lemma conj_zero : conj 0 == 0.
Proof. apply additive_zero. exact conj_add. exact conj_P. Qed.

Lemma conj_one : conj 1 == 1.
Proof.
  transitivity (conj (1 * conj 1)).
  - rewrite conj_mul, conj_inv. non_commutative_ring.
  - transitivity (conj (conj 1)). apply conj_P. non_commutative_ring. apply conj_inv.
Qed.

Lemma conj_sub x y : conj (x - y) == conj x - conj y.
Proof.
  transitivity (conj (x + - y)). apply conj_P; non_commutative_ring.
  rewrite conj_add, conj_opp. non_commutative_ring.
Qed.

Lemma divz0_zero k : divz0 0 k == 0.
Proof.
  apply (additive_zero (phi := fun x => divz0 x k)). exact (divz0_add k). exact (divz0_P k).
Qed.

End StarRing.

Arguments CStar R {_ _ _ _ _ _ _ _}.

Definition mat (D : nat) (R : Type) : Type := nat -> nat -> R.

Section Mat.
Variable D : nat.
Context {R : Type} `{Rg : Ring R}.
Notation M := (mat D R).

Definition meq (A B : M) : Prop :=
  forall i j, (i < D)%nat -> (j < D)%nat -> A i j == B i j.
Definition mzero : M := fun _ _ => 0.
Definition mone : M := fun i j => if Nat.eqb i j then 1 else 0.
Definition madd (A B : M) : M := fun i j => A i j + B i j.
Definition msub (A B : M) : M := fun i j => A i j - B i j.
Definition mopp (A : M) : M := fun i j => - A i j.
Definition mmul (A B : M) : M :=
  fun i j => bigsum (fun r => A i r * B r j) (range D).

Lemma meq_refl A : meq A A.
Proof. intros i j _ _. reflexivity. Qed.
Lemma meq_sym A B : meq A B -> meq B A.
Proof. intros H i j Hi Hj. symmetry. auto. Qed.
Lemma meq_trans A B C : meq A B -> meq B C -> meq A C.
Proof. intros H1 H2 i j Hi Hj. rewrite (H1 i j Hi Hj), (H2 i j Hi Hj). reflexivity. Qed.

Lemma meq_Equivalence : Equivalence meq.
Proof. split. exact meq_refl. exact meq_sym. exact meq_trans. Qed.

Lemma madd_P : Proper (meq ==> meq ==> meq) madd.
Proof. intros A A' HA B B' HB i j Hi Hj. unfold madd. rewrite (HA i j Hi Hj), (HB i j Hi Hj). reflexivity. Qed.
Lemma msub_P : Proper (meq ==> meq ==> meq) msub.
Proof. intros A A' HA B B' HB i j Hi Hj. unfold msub. rewrite (HA i j Hi Hj), (HB i j Hi Hj). reflexivity. Qed.
Lemma mopp_P : Proper (meq ==> meq) mopp.
Proof. intros A A' HA i j Hi Hj. unfold mopp. rewrite (HA i j Hi Hj). reflexivity. Qed.
Lemma mmul_P : Proper (meq ==> meq ==> meq) mmul.
Proof.
  intros A A' HA B B' HB i j Hi Hj. unfold mmul. apply bigsum_ext.
  intros r Hr. apply in_range in Hr. rewrite (HA i r Hi Hr), (HB r j Hr Hj). reflexivity.
Qed.

Lemma madd_0_l A : meq (madd mzero A) A.
Proof. intros i j _ _. unfold madd, mzero. non_commutative_ring. Qed.
Lemma madd_comm A B : meq (madd A B) (madd B A).
Proof. intros i j _ _. unfold madd. non_commutative_ring. Qed.
Lemma madd_assoc A B C : meq (madd A (madd B C)) (madd (madd A B) C).
Proof. intros i j _ _. unfold madd. non_commutative_ring. Qed.
Lemma msub_def A B : meq (msub A B) (madd A (mopp B)).
Proof. intros i j _ _. unfold madd, msub, mopp. non_commutative_ring. Qed.
Lemma mopp_def A : meq (madd A (mopp A)) mzero.
Proof. intros i j _ _. unfold madd, mzero, mopp. non_commutative_ring. Qed.

(** diagonal matrices *)
Definition mdiag (E : nat -> R) : M := fun i j => if Nat.eqb i j then E i else 0.

Lemma mmul_diag_l E (A : M) i j :
  (i < D)%nat -> mmul (mdiag E) A i j == E i * A i j.
Proof.
  intros Hi. unfold mmul, mdiag.
  rewrite (@bigsum_single _ _ _ _ _ _ _ _ _ _ _
             (fun r => (if Nat.eqb i r then E i else 0) * A r j) i).
  - rewrite Nat.eqb_refl. reflexivity.
  - apply nodup_range.
  - now apply in_range.
  - intros r _ Hne. destruct (Nat.eqb_spec i r). congruence. non_commutative_ring.
Qed.

Lemma mmul_diag_r E (A : M) i j :
  (j < D)%nat -> mmul A (mdiag E) i j == A i j * E j.
Proof.
  intros Hj. unfold mmul, mdiag.
  rewrite (@bigsum_single _ _ _ _ _ _ _ _ _ _ _
             (fun r => A i r * (if Nat.eqb r j then E r else 0)) j).
  - rewrite Nat.eqb_refl. reflexivity.
  - apply nodup_range.
  - now apply in_range.
  - intros r _ Hne. destruct (Nat.eqb_spec r j). congruence. non_commutative_ring.
Qed.

Lemma mmul_1_l A : meq (mmul mone A) A.
Proof.
  intros i j Hi Hj. change mone with (mdiag (fun _ => 1)).
  rewrite mmul_diag_l by exact Hi. non_commutative_ring.
Qed.

Lemma mmul_1_r A : meq (mmul A mone) A.
Proof.
  intros i j Hi Hj. change mone with (mdiag (fun _ => 1)).
  rewrite mmul_diag_r by exact Hj. non_commutative_ring.
Qed.

Lemma mmul_assoc A B C : meq (mmul A (mmul B C)) (mmul (mmul A B) C).
Proof.
  intros i j Hi Hj. unfold mmul.
  transitivity (bigsum (fun r => bigsum (fun s => A i r * B r s * C s j) (range D)) (range D)).
  - apply bigsum_ext. intros r _. rewrite bigsum_mul_l. apply bigsum_ext.
    intros s _. non_commutative_ring.
  - rewrite bigsum_exchange. apply bigsum_ext. intros s _.
    rewrite bigsum_mul_r. reflexivity.
Qed.

Lemma mmul_distr_l A B C : meq (mmul (madd A B) C) (madd (mmul A C) (mmul B C)).
Proof.
  intros i j _ _. unfold mmul, madd. rewrite <- bigsum_add. apply bigsum_ext.
  intros r _. non_commutative_ring.
Qed.

Lemma mmul_distr_r A B C : meq (mmul C (madd A B)) (madd (mmul C A) (mmul C B)).
Proof.
  intros i j _ _. unfold mmul, madd. rewrite <- bigsum_add. apply bigsum_ext.
  intros r _. non_commutative_ring.
Qed.

Global Instance mat_ops : @Ring_ops M mzero mone madd mmul msub mopp meq := {}.

Global Instance mat_Ring : Ring (Ro := mat_ops).
Proof.
  constructor.
  - exact meq_Equivalence.
  - exact madd_P.
  - exact mmul_P.
  - exact msub_P.
  - exact mopp_P.
  - exact madd_0_l.
  - exact madd_comm.
  - exact madd_assoc.
  - exact mmul_1_l.
  - exact mmul_1_r.
  - exact mmul_assoc.
  - exact mmul_distr_l.
  - exact mmul_distr_r.
  - exact msub_def.
  - exact mopp_def.
Qed.

(** entries of n-fold sums *)
Lemma nmul_entry n (A : M) i j : nmul n A i j == nmul n (A i j).
Proof.
  induction n as [|n IH]; cbn [nmul]. reflexivity.
  change ((A + nmul n A) i j) with (A i j + nmul n A i j). rewrite IH. reflexivity.
Qed.

Lemma zmul_entry k (A : M) i j : zmul k A i j == zmul k (A i j).
Proof.
  destruct k; cbn [zmul]. reflexivity. apply nmul_entry.
  change ((- nmul (Pos.to_nat p) A) i j) with (- nmul (Pos.to_nat p) A i j).
  rewrite nmul_entry. reflexivity.
Qed.

(** entries of finite sums of matrices *)
Lemma bigsum_entry {A} (F : A -> M) l i j :
  bigsum F l i j == bigsum (fun a => F a i j) l.
Proof.
  induction l as [|a l IH]. reflexivity.
  rewrite !bigsum_cons. change ((F a + bigsum F l) i j) with (F a i j + bigsum F l i j).
  rewrite IH. reflexivity.
Qed.

(** * masks: keep the entries (i,j) with [m i j = true] *)
Definition mmask (m : nat -> nat -> bool) (A : M) : M :=
  fun i j => if m i j then A i j else 0.

Lemma mmask_P m : Proper (meq ==> meq) (mmask m).
Proof. intros A B H i j Hi Hj. unfold mmask. destruct (m i j). auto. reflexivity. Qed.

Lemma mmask_add m A B : meq (mmask m (madd A B)) (madd (mmask m A) (mmask m B)).
Proof. intros i j _ _. unfold mmask, madd. destruct (m i j); non_commutative_ring. Qed.

Lemma mmask_opp m A : meq (mmask m (mopp A)) (mopp (mmask m A)).
Proof. intros i j _ _. unfold mmask, mopp. destruct (m i j); non_commutative_ring. Qed.

Lemma mmask_mmask m1 m2 A :
  meq (mmask m1 (mmask m2 A)) (mmask (fun i j => andb (m1 i j) (m2 i j)) A).
Proof.
  intros i j _ _. unfold mmask. destruct (m1 i j), (m2 i j); reflexivity.
Qed.

Lemma mmask_ext m1 m2 A :
  (forall i j, (i < D)%nat -> (j < D)%nat -> m1 i j = m2 i j) ->
  meq (mmask m1 A) (mmask m2 A).
Proof. intros H i j Hi Hj. unfold mmask. rewrite H; auto. reflexivity. Qed.

Lemma mmask_false m A :
  (forall i j, (i < D)%nat -> (j < D)%nat -> m i j = false) -> meq (mmask m A) mzero.
Proof. intros H i j Hi Hj. unfold mmask, mzero. rewrite H; auto. reflexivity. Qed.

(** products of masked matrices *)
Lemma mmask_mul_closed m1 m2 m3 (A B : M) :
  (forall i r j, (i < D)%nat -> (r < D)%nat -> (j < D)%nat ->
                 m1 i r = true -> m2 r j = true -> m3 i j = true) ->
  meq (mmask m3 (mmul (mmask m1 A) (mmask m2 B))) (mmul (mmask m1 A) (mmask m2 B)).
Proof.
  intros H i j Hi Hj. unfold mmask at 1. destruct (m3 i j) eqn:E3. reflexivity.
  symmetry. unfold mmul. apply bigsum_zero. intros r Hr. apply in_range in Hr.
  unfold mmask. destruct (m1 i r) eqn:E1, (m2 r j) eqn:E2; try non_commutative_ring.
  rewrite (H i r j Hi Hr Hj E1 E2) in E3. discriminate.
Qed.

Lemma mmask_mul_zero m1 m2 (A B : M) :
  (forall i r j, (i < D)%nat -> (r < D)%nat -> (j < D)%nat ->
                 m1 i r = true -> m2 r j = true -> False) ->
  meq (mmul (mmask m1 A) (mmask m2 B)) mzero.
Proof.
  intros H i j Hi Hj. unfold mmul, mzero. apply bigsum_zero. intros r Hr.
  apply in_range in Hr.
  unfold mmask. destruct (m1 i r) eqn:E1, (m2 r j) eqn:E2; try non_commutative_ring.
  elim (H i r j Hi Hr Hj E1 E2).
Qed.

Global Instance mmask_am m : AddMap (mmask m).
Proof.
  split. exact (mmask_P m). exact (mmask_add m). exact (mmask_opp m).
Qed.

Context {CS : CStar R}.

Definition madj (A : M) : M := fun i j => conj (A j i).
Definition mdivz (A : M) (k : Z) : M := fun i j => divz0 (A i j) k.

Lemma madj_P : Proper (meq ==> meq) madj.
Proof. intros A B H i j Hi Hj. unfold madj. rewrite (H j i Hj Hi). reflexivity. Qed.

Lemma madj_add A B : meq (madj (madd A B)) (madd (madj A) (madj B)).
Proof. intros i j _ _. unfold madj, madd. apply conj_add. Qed.

Lemma madj_opp A : meq (madj (mopp A)) (mopp (madj A)).
Proof. intros i j _ _. unfold madj, mopp. apply conj_opp. Qed.

Global Instance madj_am : AddMap madj.
Proof. split. exact madj_P. exact madj_add. exact madj_opp. Qed.

Lemma madj_mul A B : meq (madj (mmul A B)) (mmul (madj B) (madj A)).
Proof.
  intros i j _ _. unfold madj, mmul.
  rewrite (bigsum_morph conj _ _ conj_zero conj_add).
  apply bigsum_ext. intros r _. rewrite conj_mul. apply cs_comm.
Qed.

Lemma madj_inv A : meq (madj (madj A)) A.
Proof. intros i j _ _. unfold madj. apply conj_inv. Qed.

Lemma madj_one : meq (madj mone) mone.
Proof.
  intros i j _ _. unfold madj, mone. rewrite (Nat.eqb_sym j i).
  destruct (Nat.eqb i j). apply conj_one. apply conj_zero.
Qed.

Lemma madj_mask m A : meq (madj (mmask m A)) (mmask (fun i j => m j i) (madj A)).
Proof.
  intros i j _ _. unfold madj, mmask. destruct (m j i). reflexivity. apply conj_zero.
Qed.

Lemma mdivz_P k : Proper (meq ==> meq) (fun A => mdivz A k).
Proof. intros A B H i j Hi Hj. unfold mdivz. apply divz0_P. auto. Qed.

Lemma mdivz_add k A B : meq (mdivz (madd A B) k) (madd (mdivz A k) (mdivz B k)).
Proof. intros i j _ _. unfold mdivz, madd. apply divz0_add. Qed.

Lemma mdivz_opp k A : meq (mdivz (mopp A) k) (mopp (mdivz A k)).
Proof. intros i j _ _. unfold mdivz, mopp. apply divz0_opp. Qed.

Lemma mdivz_spec k A : k <> 0%Z -> meq (zmul k (mdivz A k)) A.
Proof.
  intros Hk i j _ _. rewrite zmul_entry. unfold mdivz. now apply divz0_spec.
Qed.

End Mat.

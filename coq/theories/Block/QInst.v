(** Executable coefficient rings: the rationals [Q] (trivial conjugation) and the Gaussian
    rationals [gq = Q * Q], as [Ncring] rings with [CStar] and [ExecScalar] structure. *)
Require Import QArith Rings_Q.
From PV.Base Require Import Classes.
From PV.Block Require Import Mat QLemmas ExecScalar.
Set Implicit Arguments.

Lemma nmul_Q n (y : Q) : nmul n y == inject_Z (Z.of_nat n) * y.
Proof.
  induction n as [|n IH].
  - symmetry. exact (q_inj_0 y).
  - cbn [nmul]. rewrite IH. symmetry. exact (q_inj_S n y).
Qed.

Lemma Q_divz_spec k (x : Q) : k <> 0%Z -> zmul k (qdivz x k) == x.
Proof.
  destruct k as [|p|p]; intros Hk; cbn [zmul].
  - now elim Hk.
  - rewrite nmul_Q. exact (qdivz_pos p x).
  - rewrite nmul_Q. exact (qdivz_neg p x).
Qed.

Global Instance Q_CStar : CStar Q := {|
  cs_comm := Qmult_comm;
  conj := fun x : Q => x;
  conj_P := fun x y H => H;
  conj_add := fun x y => Qeq_refl _;
  conj_opp := fun x => Qeq_refl _;
  conj_mul := fun x y => Qeq_refl _;
  conj_inv := fun x => Qeq_refl _;
  divz0 := qdivz;
  divz0_P := fun k x y H => @qdivz_comp k x y H;
  divz0_add := qdivz_add;
  divz0_opp := qdivz_opp;
  divz0_spec := Q_divz_spec
|}.

Global Instance Q_Exec : ExecScalar Q := {|
  eqb0 := Qeq_bool;
  eqb0_sound := Qeq_bool_sound;
  norm0 := Qred;
  norm0_eq := Qred_correct
|}.

Global Instance gq_ops : @Ring_ops gq gq0 gq1 gq_add gq_mul gq_sub gq_opp gq_eq := {}.

Global Instance gq_Ring : Ring (Ro := gq_ops).
Proof.
  constructor.
  - split. exact gq_eq_refl. exact gq_eq_sym. exact gq_eq_trans.
  - intros a a' Ha b b' Hb. now apply gq_add_comp.
  - intros a a' Ha b b' Hb. now apply gq_mul_comp.
  - intros a a' Ha b b' Hb. now apply gq_sub_comp.
  - intros a a' Ha. now apply gq_opp_comp.
  - exact gq_add_0_l.
  - exact gq_add_comm.
  - exact gq_add_assoc.
  - exact gq_mul_1_l.
  - exact gq_mul_1_r.
  - exact gq_mul_assoc.
  - exact gq_distr_l.
  - exact gq_distr_r.
  - exact gq_sub_def.
  - exact gq_opp_def.
Qed.

Lemma nmul_gq n (a : gq) : gq_eq (nmul (Ro := gq_ops) n a) (nmul n (fst a), nmul n (snd a)).
Proof.
  induction n as [|n IH]. split; reflexivity.
  destruct IH as [H1 H2]. cbn [fst snd] in H1, H2. cbn [nmul]. split.
  - change (Qeq (Qplus (fst a) (fst (nmul n a))) (Qplus (fst a) (nmul n (fst a)))).
    now rewrite H1.
  - change (Qeq (Qplus (snd a) (snd (nmul n a))) (Qplus (snd a) (nmul n (snd a)))).
    now rewrite H2.
Qed.

Lemma gq_divz_spec k (a : gq) : k <> 0%Z -> gq_eq (zmul (Ro := gq_ops) k (gq_divz a k)) a.
Proof.
  intros Hk. destruct a as [x y].
  assert (Hx := Q_divz_spec x Hk). assert (Hy := Q_divz_spec y Hk).
  destruct k as [|p|p]; cbn [zmul] in *.
  - now elim Hk.
  - eapply gq_eq_trans. apply nmul_gq. split; assumption.
  - eapply gq_eq_trans. apply gq_opp_comp. apply nmul_gq. split; assumption.
Qed.

Global Instance gq_CStar : CStar gq := {|
  cs_comm := gq_mul_comm;
  conj := gq_conj;
  conj_P := gq_conj_comp;
  conj_add := gq_conj_add;
  conj_opp := gq_conj_opp;
  conj_mul := gq_conj_mul;
  conj_inv := gq_conj_inv;
  divz0 := gq_divz;
  divz0_P := fun k x y H => @gq_divz_comp k x y H;
  divz0_add := gq_divz_add;
  divz0_opp := gq_divz_opp;
  divz0_spec := gq_divz_spec
|}.

Global Instance gq_Exec : ExecScalar gq := {|
  eqb0 := gq_eqb;
  eqb0_sound := gq_eqb_sound;
  norm0 := gq_norm;
  norm0_eq := gq_norm_eq
|}.

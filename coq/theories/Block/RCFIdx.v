(** Index arithmetic for row- and column-finite infinite matrices (Block/RCF.v).
    No Ncring here. *)
Require Import List Arith Lia.
From PV.Series Require Import MultiIndex.
Set Implicit Arguments.

(** max of f over 0..n *)
Fixpoint maxf (f : nat -> nat) (n : nat) : nat :=
  match n with 0 => f 0 | S n' => Nat.max (f (S n')) (maxf f n') end.

Lemma maxf_le f n k : k <= n -> f k <= maxf f n.
Proof.
  induction n as [|n IH]; intros H; cbn [maxf].
  - assert (k = 0) by lia. subst. lia.
  - destruct (Nat.eq_dec k (S n)) as [->|Hne]. lia.
    assert (f k <= maxf f n) by (apply IH; lia). lia.
Qed.

Lemma maxf_lt f n k l : l <= n -> maxf f n < k -> f l < k.
Proof. intros H1 H2. pose proof (maxf_le f H1). lia. Qed.

Lemma in_rangeS n k : In k (range (S n)) <-> k <= n.
Proof. rewrite in_range. lia. Qed.

Lemma range_split n m : n <= m -> range m = range n ++ seq n (m - n).
Proof.
  intros H. unfold range. replace m with (n + (m - n)) at 1 by lia.
  rewrite seq_app. reflexivity.
Qed.

Lemma lt_neqb i k : i < k -> Nat.eqb i k = false.
Proof. intros H. apply Nat.eqb_neq. lia. Qed.
Lemma gt_neqb i k : i < k -> Nat.eqb k i = false.
Proof. intros H. apply Nat.eqb_neq. lia. Qed.

Lemma max_lt_l a b k : Nat.max a b < k -> a < k. Proof. lia. Qed.
Lemma max_lt_r a b k : Nat.max a b < k -> b < k. Proof. lia. Qed.

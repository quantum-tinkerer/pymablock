(** Row- and column-finite infinite matrices over a ring: operators on a countable basis
    (Fock space) every row and every column of which has finitely many non-zero entries -
    every polynomial in creation / annihilation operators is one.

    [rcf R]: entries [ent : nat -> nat -> R] with a row bound [rb i] (ent i k == 0 for
    k > rb i) and a column bound [cb j].  Equality is entry-wise ==; the bounds are
    irrelevant to it.  Product: (A*B) i j = sum_{k <= rb A i} A i k * B k j.
    - functor Ring R -> Ring (rcf R);
    - conjugate transpose [radj] (swaps the bounds), entry-wise [rdivz], masks [rmask],
      diagonal operators [rdiag]. *)
Require Import Ncring_tac List.
From PV.Base Require Import Classes BigSum.
From PV.Series Require Import MultiIndex.
From PV.Block Require Import Mat RCFIdx.
Set Implicit Arguments.

Section RCF.
Context {R : Type} `{Rg : Ring R}.

Unset Implicit Arguments.
Record rcf : Type := mk_rcf {
  ent : nat -> nat -> R;
  rb : nat -> nat;
  cb : nat -> nat;
  rb_ok : forall i k, (rb i < k)%nat -> ent i k == 0;
  cb_ok : forall j k, (cb j < k)%nat -> ent k j == 0
}.
Set Implicit Arguments.

Definition req (A B : rcf) : Prop := forall i j, ent A i j == ent B i j.

Lemma req_Equivalence : Equivalence req.
Proof.
  split.
  - intros A i j. reflexivity.
  - intros A B H i j. symmetry. apply H.
  - intros A B C H1 H2 i j. rewrite (H1 i j). apply H2.
Qed.

(** a sum over 0..m-1 whose terms vanish from n on *)
Lemma bigsum_range_extend (f : nat -> R) n m :
  (n <= m)%nat -> (forall k, (n <= k)%nat -> f k == 0) ->
  bigsum f (range m) == bigsum f (range n).
Proof.
  intros Hle Hz. rewrite (range_split Hle), bigsum_app.
  rewrite (bigsum_zero f (seq n (Nat.sub m n))).
  - non_commutative_ring.
  - intros k Hk. apply Hz. apply in_seq in Hk. apply Hk.
Qed.

Definition rzero : rcf.
Proof. refine (@mk_rcf (fun _ _ => 0) (fun _ => O) (fun _ => O) _ _); intros; reflexivity. Defined.

Lemma radd_rb_ok A B i k :
  (Nat.max (rb A i) (rb B i) < k)%nat -> ent A i k + ent B i k == 0.
Proof.
  intros H. rewrite (rb_ok A i k), (rb_ok B i k). non_commutative_ring.
  eapply max_lt_r; eauto. eapply max_lt_l; eauto.
Qed.
Lemma radd_cb_ok A B j k :
  (Nat.max (cb A j) (cb B j) < k)%nat -> ent A k j + ent B k j == 0.
Proof.
  intros H. rewrite (cb_ok A j k), (cb_ok B j k). non_commutative_ring.
  eapply max_lt_r; eauto. eapply max_lt_l; eauto.
Qed.
Definition radd (A B : rcf) : rcf :=
  @mk_rcf (fun i j => ent A i j + ent B i j)
          (fun i => Nat.max (rb A i) (rb B i)) (fun j => Nat.max (cb A j) (cb B j))
          (radd_rb_ok A B) (radd_cb_ok A B).

Lemma ropp_rb_ok A i k : (rb A i < k)%nat -> - ent A i k == 0.
Proof. intros H. rewrite (rb_ok A i k H). non_commutative_ring. Qed.
Lemma ropp_cb_ok A j k : (cb A j < k)%nat -> - ent A k j == 0.
Proof. intros H. rewrite (cb_ok A j k H). non_commutative_ring. Qed.
Definition ropp (A : rcf) : rcf :=
  @mk_rcf (fun i j => - ent A i j) (rb A) (cb A) (ropp_rb_ok A) (ropp_cb_ok A).

Lemma rsub_rb_ok A B i k :
  (Nat.max (rb A i) (rb B i) < k)%nat -> ent A i k - ent B i k == 0.
Proof.
  intros H. rewrite (rb_ok A i k), (rb_ok B i k). non_commutative_ring.
  eapply max_lt_r; eauto. eapply max_lt_l; eauto.
Qed.
Lemma rsub_cb_ok A B j k :
  (Nat.max (cb A j) (cb B j) < k)%nat -> ent A k j - ent B k j == 0.
Proof.
  intros H. rewrite (cb_ok A j k), (cb_ok B j k). non_commutative_ring.
  eapply max_lt_r; eauto. eapply max_lt_l; eauto.
Qed.
Definition rsub (A B : rcf) : rcf :=
  @mk_rcf (fun i j => ent A i j - ent B i j)
          (fun i => Nat.max (rb A i) (rb B i)) (fun j => Nat.max (cb A j) (cb B j))
          (rsub_rb_ok A B) (rsub_cb_ok A B).

Definition pent (A B : rcf) (i j : nat) : R :=
  bigsum (fun k => ent A i k * ent B k j) (range (S (rb A i))).

(** the sum may be taken up to any bound above the row bound of A ... *)
Lemma pent_bound A B i j N :
  (rb A i <= N)%nat ->
  bigsum (fun k => ent A i k * ent B k j) (range (S N)) == pent A B i j.
Proof.
  intros H. unfold pent. apply bigsum_range_extend. now apply le_n_S.
  intros k Hk. rewrite (rb_ok A i k). non_commutative_ring. exact Hk.
Qed.

(** ... or above the column bound of B *)
Lemma pent_bound_c A B i j N :
  (cb B j <= N)%nat ->
  bigsum (fun k => ent A i k * ent B k j) (range (S N)) == pent A B i j.
Proof.
  intros H. rewrite <- (pent_bound A B i j (Nat.le_max_r N (rb A i))).
  symmetry. apply bigsum_range_extend. apply le_n_S, Nat.le_max_l.
  intros k Hk. rewrite (cb_ok B j k). non_commutative_ring.
  eapply Nat.le_lt_trans. exact H. exact Hk.
Qed.

Lemma rmul_rb_ok A B i k : (maxf (rb B) (rb A i) < k)%nat -> pent A B i k == 0.
Proof.
  intros H. unfold pent. apply bigsum_zero. intros l Hl. apply in_rangeS in Hl.
  rewrite (rb_ok B l k). non_commutative_ring. eapply maxf_lt; eauto.
Qed.
Lemma rmul_cb_ok A B j k : (maxf (cb A) (cb B j) < k)%nat -> pent A B k j == 0.
Proof.
  intros H. unfold pent. apply bigsum_zero. intros l _.
  destruct (Nat.le_gt_cases l (cb B j)) as [Hl|Hl].
  - rewrite (cb_ok A l k). non_commutative_ring. eapply maxf_lt; eauto.
  - rewrite (cb_ok B j l Hl). non_commutative_ring.
Qed.
Definition rmul (A B : rcf) : rcf :=
  @mk_rcf (pent A B) (fun i => maxf (rb B) (rb A i)) (fun j => maxf (cb A) (cb B j))
          (rmul_rb_ok A B) (rmul_cb_ok A B).

Lemma rdiag_rb_ok (E : nat -> R) i k : (i < k)%nat -> (if Nat.eqb i k then E i else 0) == 0.
Proof. intros H. rewrite (lt_neqb H). reflexivity. Qed.
Lemma rdiag_cb_ok (E : nat -> R) j k : (j < k)%nat -> (if Nat.eqb k j then E k else 0) == 0.
Proof. intros H. rewrite (gt_neqb H). reflexivity. Qed.
Definition rdiag (E : nat -> R) : rcf :=
  @mk_rcf (fun i j => if Nat.eqb i j then E i else 0) (fun i => i) (fun j => j)
          (rdiag_rb_ok E) (rdiag_cb_ok E).
Definition rone : rcf := rdiag (fun _ => 1).

Lemma rmul_diag_l E A i j : ent (rmul (rdiag E) A) i j == E i * ent A i j.
Proof.
  cbn [ent rmul]. unfold pent. cbn [ent rb rdiag].
  rewrite (@bigsum_single _ _ _ _ _ _ _ _ _ _ _
             (fun k => (if Nat.eqb i k then E i else 0) * ent A k j) i).
  - rewrite Nat.eqb_refl. reflexivity.
  - apply nodup_range.
  - apply in_rangeS. apply le_n.
  - intros r _ Hne. destruct (Nat.eqb_spec i r). congruence. non_commutative_ring.
Qed.

Lemma rmul_diag_r E A i j : ent (rmul A (rdiag E)) i j == ent A i j * E j.
Proof.
  cbn [ent rmul]. unfold pent. cbn [ent rdiag].
  destruct (Nat.le_gt_cases j (rb A i)) as [Hj|Hj].
  - rewrite (@bigsum_single _ _ _ _ _ _ _ _ _ _ _
               (fun k => ent A i k * (if Nat.eqb k j then E k else 0)) j).
    + rewrite Nat.eqb_refl. reflexivity.
    + apply nodup_range.
    + now apply in_rangeS.
    + intros r _ Hne. destruct (Nat.eqb_spec r j). congruence. non_commutative_ring.
  - rewrite (rb_ok A i j Hj). rewrite bigsum_zero. non_commutative_ring.
    intros k Hk. apply in_rangeS in Hk. destruct (Nat.eqb_spec k j).
    + subst. elim (proj1 (Nat.lt_nge _ _) Hj Hk).
    + non_commutative_ring.
Qed.

Lemma radd_P : Proper (req ==> req ==> req) radd.
Proof. intros A A' HA B B' HB i j. cbn [ent radd]. rewrite (HA i j), (HB i j). reflexivity. Qed.
Lemma rsub_P : Proper (req ==> req ==> req) rsub.
Proof. intros A A' HA B B' HB i j. cbn [ent rsub]. rewrite (HA i j), (HB i j). reflexivity. Qed.
Lemma ropp_P : Proper (req ==> req) ropp.
Proof. intros A A' HA i j. cbn [ent ropp]. rewrite (HA i j). reflexivity. Qed.

Lemma rmul_P : Proper (req ==> req ==> req) rmul.
Proof.
  intros A A' HA B B' HB i j. cbn [ent rmul].
  rewrite <- (pent_bound A B i j (Nat.le_max_l (rb A i) (rb A' i))).
  rewrite <- (pent_bound A' B' i j (Nat.le_max_r (rb A i) (rb A' i))).
  apply bigsum_ext. intros k _. rewrite (HA i k), (HB k j). reflexivity.
Qed.

Lemma radd_0_l A : req (radd rzero A) A.
Proof. intros i j. cbn. non_commutative_ring. Qed.
Lemma radd_comm A B : req (radd A B) (radd B A).
Proof. intros i j. cbn [ent radd]. non_commutative_ring. Qed.
Lemma radd_assoc A B C : req (radd A (radd B C)) (radd (radd A B) C).
Proof. intros i j. cbn [ent radd]. non_commutative_ring. Qed.
Lemma rsub_def A B : req (rsub A B) (radd A (ropp B)).
Proof. intros i j. cbn [ent radd rsub ropp]. non_commutative_ring. Qed.
Lemma ropp_def A : req (radd A (ropp A)) rzero.
Proof. intros i j. cbn. non_commutative_ring. Qed.

Lemma rmul_1_l A : req (rmul rone A) A.
Proof. intros i j. unfold rone. rewrite rmul_diag_l. non_commutative_ring. Qed.
Lemma rmul_1_r A : req (rmul A rone) A.
Proof. intros i j. unfold rone. rewrite rmul_diag_r. non_commutative_ring. Qed.

Lemma rmul_assoc A B C : req (rmul A (rmul B C)) (rmul (rmul A B) C).
Proof.
  intros i j. cbn [ent rmul]. unfold pent at 1 2. cbn [ent rb rmul].
  set (M := maxf (rb B) (rb A i)).
  transitivity (bigsum (fun k => bigsum (fun l => ent A i k * ent B k l * ent C l j)
                                        (range (S M))) (range (S (rb A i)))).
  - apply bigsum_ext. intros k Hk. apply in_rangeS in Hk.
    rewrite <- (pent_bound B C k j (maxf_le (rb B) Hk)). fold M.
    rewrite bigsum_mul_l. apply bigsum_ext. intros l _. non_commutative_ring.
  - rewrite bigsum_exchange. apply bigsum_ext. intros l _. unfold pent.
    rewrite bigsum_mul_r. reflexivity.
Qed.

Lemma rmul_distr_l A B C : req (rmul (radd A B) C) (radd (rmul A C) (rmul B C)).
Proof.
  intros i j. cbn [ent rmul radd]. unfold pent at 1. cbn [ent rb radd].
  rewrite <- (pent_bound A C i j (Nat.le_max_l (rb A i) (rb B i))).
  rewrite <- (pent_bound B C i j (Nat.le_max_r (rb A i) (rb B i))).
  rewrite <- bigsum_add. apply bigsum_ext. intros k _. non_commutative_ring.
Qed.

Lemma rmul_distr_r A B C : req (rmul C (radd A B)) (radd (rmul C A) (rmul C B)).
Proof.
  intros i j. cbn [ent rmul radd]. unfold pent. cbn [ent radd].
  rewrite <- bigsum_add. apply bigsum_ext. intros k _. non_commutative_ring.
Qed.

Global Instance rcf_ops : @Ring_ops rcf rzero rone radd rmul rsub ropp req := {}.

Global Instance rcf_Ring : Ring (Ro := rcf_ops).
Proof.
  constructor.
  - exact req_Equivalence.
  - exact radd_P.
  - exact rmul_P.
  - exact rsub_P.
  - exact ropp_P.
  - exact radd_0_l.
  - exact radd_comm.
  - exact radd_assoc.
  - exact rmul_1_l.
  - exact rmul_1_r.
  - exact rmul_assoc.
  - exact rmul_distr_l.
  - exact rmul_distr_r.
  - exact rsub_def.
  - exact ropp_def.
Qed.

(** entries of n-fold sums and finite sums *)
Lemma rnmul_entry n (A : rcf) i j : ent (nmul n A) i j == nmul n (ent A i j).
Proof.
  induction n as [|n IH]; cbn [nmul]. reflexivity.
  change (ent (A + nmul n A) i j) with (ent A i j + ent (nmul n A) i j).
  rewrite IH. reflexivity.
Qed.

Lemma rzmul_entry k (A : rcf) i j : ent (zmul k A) i j == zmul k (ent A i j).
Proof.
  destruct k; cbn [zmul]. reflexivity. apply rnmul_entry.
  change (ent (- nmul (Pos.to_nat p) A) i j) with (- ent (nmul (Pos.to_nat p) A) i j).
  rewrite rnmul_entry. reflexivity.
Qed.

Lemma rbigsum_entry {X} (F : X -> rcf) l i j :
  ent (bigsum F l) i j == bigsum (fun a => ent (F a) i j) l.
Proof.
  induction l as [|a l IH]. reflexivity.
  rewrite !bigsum_cons.
  change (ent (F a + bigsum F l) i j) with (ent (F a) i j + ent (bigsum F l) i j).
  rewrite IH. reflexivity.
Qed.

Lemma rmask_rb_ok (m : nat -> nat -> bool) A i k :
  (rb A i < k)%nat -> (if m i k then ent A i k else 0) == 0.
Proof. intros H. destruct (m i k). now apply rb_ok. reflexivity. Qed.
Lemma rmask_cb_ok (m : nat -> nat -> bool) A j k :
  (cb A j < k)%nat -> (if m k j then ent A k j else 0) == 0.
Proof. intros H. destruct (m k j). now apply cb_ok. reflexivity. Qed.
Definition rmask (m : nat -> nat -> bool) (A : rcf) : rcf :=
  @mk_rcf (fun i j => if m i j then ent A i j else 0) (rb A) (cb A)
          (rmask_rb_ok m A) (rmask_cb_ok m A).

Lemma rmask_P m : Proper (req ==> req) (rmask m).
Proof. intros A B H i j. cbn [ent rmask]. destruct (m i j). apply H. reflexivity. Qed.
Lemma rmask_add m A B : req (rmask m (radd A B)) (radd (rmask m A) (rmask m B)).
Proof. intros i j. cbn [ent rmask radd]. destruct (m i j); non_commutative_ring. Qed.
Lemma rmask_opp m A : req (rmask m (ropp A)) (ropp (rmask m A)).
Proof. intros i j. cbn [ent rmask ropp]. destruct (m i j); non_commutative_ring. Qed.
Global Instance rmask_am m : AddMap (rmask m).
Proof. split. exact (rmask_P m). exact (rmask_add m). exact (rmask_opp m). Qed.

Lemma rmask_idem m A : req (rmask m (rmask m A)) (rmask m A).
Proof. intros i j. cbn [ent rmask]. destruct (m i j); reflexivity. Qed.

Lemma rmask_mul_closed m1 m2 m3 A B :
  (forall i r j, m1 i r = true -> m2 r j = true -> m3 i j = true) ->
  req (rmask m3 (rmul (rmask m1 A) (rmask m2 B))) (rmul (rmask m1 A) (rmask m2 B)).
Proof.
  intros H i j. unfold rmask at 1. cbn [ent]. destruct (m3 i j) eqn:E3. reflexivity.
  symmetry. cbn [ent rmul]. unfold pent. apply bigsum_zero. intros r _.
  cbn [ent rmask]. destruct (m1 i r) eqn:E1, (m2 r j) eqn:E2; try non_commutative_ring.
  rewrite (H i r j E1 E2) in E3. discriminate.
Qed.

Lemma rmask_mul_zero m1 m2 A B :
  (forall i r j, m1 i r = true -> m2 r j = true -> False) ->
  req (rmul (rmask m1 A) (rmask m2 B)) rzero.
Proof.
  intros H i j. cbn [ent rmul]. unfold pent. apply bigsum_zero. intros r _.
  cbn [ent rmask]. destruct (m1 i r) eqn:E1, (m2 r j) eqn:E2; try non_commutative_ring.
  elim (H i r j E1 E2).
Qed.

Context {CS : CStar R}.

Lemma radj_rb_ok A i k : (cb A i < k)%nat -> conj (ent A k i) == 0.
Proof. intros H. rewrite (cb_ok A i k H). apply conj_zero. Qed.
Lemma radj_cb_ok A j k : (rb A j < k)%nat -> conj (ent A j k) == 0.
Proof. intros H. rewrite (rb_ok A j k H). apply conj_zero. Qed.
Definition radj (A : rcf) : rcf :=
  @mk_rcf (fun i j => conj (ent A j i)) (cb A) (rb A) (radj_rb_ok A) (radj_cb_ok A).

Lemma rdivz_rb_ok A z i k : (rb A i < k)%nat -> divz0 (ent A i k) z == 0.
Proof.
  intros H. transitivity (divz0 0 z). apply divz0_P. now apply rb_ok. apply divz0_zero.
Qed.
Lemma rdivz_cb_ok A z j k : (cb A j < k)%nat -> divz0 (ent A k j) z == 0.
Proof.
  intros H. transitivity (divz0 0 z). apply divz0_P. now apply cb_ok. apply divz0_zero.
Qed.
Definition rdivz (A : rcf) (z : Z) : rcf :=
  @mk_rcf (fun i j => divz0 (ent A i j) z) (rb A) (cb A) (rdivz_rb_ok A z) (rdivz_cb_ok A z).

Lemma radj_P : Proper (req ==> req) radj.
Proof. intros A B H i j. cbn [ent radj]. rewrite (H j i). reflexivity. Qed.
Lemma radj_add A B : req (radj (radd A B)) (radd (radj A) (radj B)).
Proof. intros i j. cbn [ent radj radd]. apply conj_add. Qed.
Lemma radj_opp A : req (radj (ropp A)) (ropp (radj A)).
Proof. intros i j. cbn [ent radj ropp]. apply conj_opp. Qed.
Global Instance radj_am : AddMap radj.
Proof. split. exact radj_P. exact radj_add. exact radj_opp. Qed.

Lemma radj_mul A B : req (radj (rmul A B)) (rmul (radj B) (radj A)).
Proof.
  intros i j. cbn [ent radj rmul].
  set (N := Nat.max (rb A j) (cb B i)).
  rewrite <- (pent_bound A B j i (Nat.le_max_l (rb A j) (cb B i))).
  assert (HB : (rb (radj B) i <= N)%nat) by (cbn [rb radj]; apply Nat.le_max_r).
  rewrite <- (pent_bound (radj B) (radj A) i j HB). fold N.
  rewrite (bigsum_morph conj _ _ conj_zero conj_add).
  apply bigsum_ext. intros r _. cbn [ent radj]. rewrite conj_mul. apply cs_comm.
Qed.

Lemma radj_inv A : req (radj (radj A)) A.
Proof. intros i j. cbn [ent radj]. apply conj_inv. Qed.

Lemma radj_one : req (radj rone) rone.
Proof.
  intros i j. cbn [ent radj rone rdiag]. rewrite (Nat.eqb_sym j i).
  destruct (Nat.eqb i j). apply conj_one. apply conj_zero.
Qed.

Lemma rdivz_P k : Proper (req ==> req) (fun A => rdivz A k).
Proof. intros A B H i j. cbn [ent rdivz]. apply divz0_P. apply H. Qed.
Lemma rdivz_add k A B : req (rdivz (radd A B) k) (radd (rdivz A k) (rdivz B k)).
Proof. intros i j. cbn [ent rdivz radd]. apply divz0_add. Qed.
Lemma rdivz_opp k A : req (rdivz (ropp A) k) (ropp (rdivz A k)).
Proof. intros i j. cbn [ent rdivz ropp]. apply divz0_opp. Qed.
Lemma rdivz_spec k A : k <> 0%Z -> req (zmul k (rdivz A k)) A.
Proof. intros Hk i j. rewrite rzmul_entry. cbn [ent rdivz]. now apply divz0_spec. Qed.

End RCF.

Arguments rcf R {_ _ _ _ _ _ _ _}.

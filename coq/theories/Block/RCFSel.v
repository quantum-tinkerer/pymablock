(** The block / selection structure on row- and column-finite infinite matrices
    (Block/RCF.v): labelling [blk] of the countable basis by blocks, symmetric mask [keep]
    inside the diagonal blocks, per-block flag [cm].  [rcf_CoefAlg : CoefAlg (rcf R0)]. *)
Require Import Ncring_tac.
From PV.Base Require Import BigSum.
From PV.Block Require Import Mat Masks CoefAlg RCF.
Set Implicit Arguments.

Section RCFSel.
Context {R0 : Type} `{Rg : Ring R0} {CS : CStar R0}.
Variable blk : nat -> nat.
Variable keep : nat -> nat -> bool.
Variable cm : nat -> bool.
Hypothesis keep_sym : forall p q, keep p q = keep q p.
Hypothesis keep_blk : forall p q, keep p q = true -> blk p = blk q.
Hypothesis cm_blk : forall p q, blk p = blk q -> cm p = cm q.

Notation M := (rcf R0).
Notation "A =r B" := (req A B) (at level 70).

Definition rDg : M -> M := rmask (dgm blk).
Definition rUp : M -> M := rmask (upm blk).
Definition rLo : M -> M := rmask (lom blk).
Definition rSel : M -> M := rmask keep.
Definition rRw : M -> M := rmask (rwm cm).

Ltac entry i j := intros i j; unfold rDg, rUp, rLo, rSel, rRw;
                  cbn [ent rmask radj radd rzero].

Ltac tri i j :=
  let E1 := fresh "E" in let E2 := fresh "E" in let E3 := fresh "E" in
  destruct (blk_tricho blk i j) as [(E1 & E2 & E3)|[(E1 & E2 & E3)|(E1 & E2 & E3)]];
  rewrite ?E1, ?E2, ?E3.

Lemma r_blk_split (x : M) : x =r radd (radd (rDg x) (rUp x)) (rLo x).
Proof. entry i j. tri i j; non_commutative_ring. Qed.

Lemma r_Dg_Up (x : M) : rDg (rUp x) =r rzero. Proof. entry i j. tri i j; reflexivity. Qed.
Lemma r_Dg_Lo (x : M) : rDg (rLo x) =r rzero. Proof. entry i j. tri i j; reflexivity. Qed.
Lemma r_Up_Dg (x : M) : rUp (rDg x) =r rzero. Proof. entry i j. tri i j; reflexivity. Qed.
Lemma r_Up_Lo (x : M) : rUp (rLo x) =r rzero. Proof. entry i j. tri i j; reflexivity. Qed.
Lemma r_Lo_Dg (x : M) : rLo (rDg x) =r rzero. Proof. entry i j. tri i j; reflexivity. Qed.
Lemma r_Lo_Up (x : M) : rLo (rUp x) =r rzero. Proof. entry i j. tri i j; reflexivity. Qed.

Lemma r_Dg_adj (x : M) : rDg (radj x) =r radj (rDg x).
Proof.
  entry i j. rewrite (dgm_sym blk j i). destruct (dgm blk i j). reflexivity.
  symmetry. apply conj_zero.
Qed.
Lemma r_Up_adj (x : M) : rUp (radj x) =r radj (rLo x).
Proof.
  entry i j. rewrite (upm_lom blk i j). destruct (lom blk j i). reflexivity.
  symmetry. apply conj_zero.
Qed.
Lemma r_Lo_adj (x : M) : rLo (radj x) =r radj (rUp x).
Proof.
  entry i j. rewrite (upm_lom blk j i). destruct (lom blk i j). reflexivity.
  symmetry. apply conj_zero.
Qed.

Lemma r_Dg_mul_l (x y : M) : rDg (rmul (rDg x) y) =r rmul (rDg x) (rDg y).
Proof.
  intros i j. unfold rDg. unfold rmask at 1. cbn [ent rmul]. unfold pent. cbn [rb rmask].
  destruct (dgm blk i j) eqn:E.
  - apply bigsum_ext. intros r _. cbn [ent rmask]. destruct (dgm blk i r) eqn:E1.
    + rewrite (dgm_trans_l blk i r j E1), E. reflexivity.
    + non_commutative_ring.
  - symmetry. apply bigsum_zero. intros r _. cbn [ent rmask]. destruct (dgm blk i r) eqn:E1.
    + rewrite (dgm_trans_l blk i r j E1), E. non_commutative_ring.
    + non_commutative_ring.
Qed.

Lemma r_Dg_mul_r (x y : M) : rDg (rmul x (rDg y)) =r rmul (rDg x) (rDg y).
Proof.
  intros i j. unfold rDg. unfold rmask at 1. cbn [ent rmul]. unfold pent. cbn [rb rmask].
  destruct (dgm blk i j) eqn:E.
  - apply bigsum_ext. intros r _. cbn [ent rmask]. destruct (dgm blk r j) eqn:E1.
    + rewrite (dgm_trans_r blk i r j E1), E. reflexivity.
    + non_commutative_ring.
  - symmetry. apply bigsum_zero. intros r _. cbn [ent rmask]. destruct (dgm blk r j) eqn:E1.
    + rewrite (dgm_trans_r blk i r j E1), E. non_commutative_ring.
    + non_commutative_ring.
Qed.

Lemma r_Dg_one : rDg rone =r rone.
Proof.
  entry i j. cbn [ent rone rdiag]. destruct (Nat.eqb_spec i j).
  - subst. rewrite dgm_refl. reflexivity.
  - destruct (dgm blk i j); reflexivity.
Qed.

Lemma r_Sel_adj (x : M) : rSel (radj x) =r radj (rSel x).
Proof.
  entry i j. rewrite (keep_sym j i). destruct (keep i j). reflexivity.
  symmetry. apply conj_zero.
Qed.
Lemma r_Sel_Dg (x : M) : rSel (rDg x) =r rSel x.
Proof.
  entry i j. destruct (keep i j) eqn:E; [|reflexivity].
  rewrite (keep_dgm blk keep keep_blk _ _ E). reflexivity.
Qed.
Lemma r_Dg_Sel (x : M) : rDg (rSel x) =r rSel x.
Proof.
  entry i j. destruct (keep i j) eqn:E.
  - rewrite (keep_dgm blk keep keep_blk _ _ E). reflexivity.
  - destruct (dgm blk i j); reflexivity.
Qed.

Lemma r_Rw_Dg (x : M) : rDg (rRw x) =r rRw (rDg x).
Proof. entry i j. unfold rwm. destruct (dgm blk i j), (cm i); reflexivity. Qed.
Lemma r_Rw_Sel (x : M) : rSel (rRw x) =r rRw (rSel x).
Proof. entry i j. unfold rwm. destruct (keep i j), (cm i); reflexivity. Qed.
Lemma r_Rw_adj_Dg (x : M) : rRw (radj (rDg x)) =r radj (rRw (rDg x)).
Proof.
  entry i j. unfold rwm. destruct (dgm blk j i) eqn:E.
  - rewrite (dgm_cm blk cm cm_blk _ _ E). destruct (cm i). reflexivity.
    symmetry. apply conj_zero.
  - destruct (cm i), (cm j); rewrite ?conj_zero; reflexivity.
Qed.

Global Instance rcf_CoefAlg : CoefAlg M := {|
  cadj := radj;
  cadj_am := radj_am;
  cadj_mul := radj_mul;
  cadj_inv := radj_inv;
  cadj_one := radj_one;
  cdivz := rdivz;
  cdivz_P := rdivz_P;
  cdivz_add := rdivz_add;
  cdivz_opp := rdivz_opp;
  cdivz_spec := rdivz_spec;
  cDg := rDg; cUp := rUp; cLo := rLo;
  cDg_am := rmask_am (dgm blk);
  cUp_am := rmask_am (upm blk);
  cLo_am := rmask_am (lom blk);
  cblk_split := r_blk_split;
  cDg_Dg := rmask_idem (dgm blk);
  cUp_Up := rmask_idem (upm blk);
  cLo_Lo := rmask_idem (lom blk);
  cDg_Up := r_Dg_Up; cDg_Lo := r_Dg_Lo;
  cUp_Dg := r_Up_Dg; cUp_Lo := r_Up_Lo;
  cLo_Dg := r_Lo_Dg; cLo_Up := r_Lo_Up;
  cDg_adj := r_Dg_adj; cUp_adj := r_Up_adj; cLo_adj := r_Lo_adj;
  cDg_mul_l := r_Dg_mul_l;
  cDg_mul_r := r_Dg_mul_r;
  cDg_one := r_Dg_one;
  cSel := rSel;
  cSel_am := rmask_am keep;
  cSel_idem := rmask_idem keep;
  cSel_adj := r_Sel_adj;
  cSel_Dg := r_Sel_Dg;
  cDg_Sel := r_Dg_Sel;
  cRw := rRw;
  cRw_am := rmask_am (rwm cm);
  cRw_idem := rmask_idem (rwm cm);
  cRw_Dg := r_Rw_Dg;
  cRw_Sel := r_Rw_Sel;
  cRw_adj_Dg := r_Rw_adj_Dg
|}.

End RCFSel.

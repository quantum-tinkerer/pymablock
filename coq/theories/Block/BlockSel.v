(** The block / selection structure of block_diagonalize on D x D matrices:
    a labelling [blk] of the basis states by blocks, a symmetric 0/1 mask [keep] of the
    kept matrix elements inside the diagonal blocks, and the per-block flag [cm]
    (commuting_blocks).  All projections are entry-wise masks; this file proves that the
    matrices then form a [CoefAlg]. *)
Require Import Ncring_tac.
From PV.Base Require Import BigSum.
From PV.Block Require Import Mat Masks CoefAlg.
Set Implicit Arguments.

Section BlockSel.
Variable D : nat.
Context {R0 : Type} `{Rg : Ring R0} {CS : CStar R0}.
Variable blk : nat -> nat.
Variable keep : nat -> nat -> bool.
Variable cm : nat -> bool.
Hypothesis keep_sym : forall p q, keep p q = keep q p.
Hypothesis keep_blk : forall p q, keep p q = true -> blk p = blk q.
Hypothesis cm_blk : forall p q, blk p = blk q -> cm p = cm q.

Notation M := (mat D R0).
Notation "A =m B" := (meq (D := D) A B) (at level 70).

Definition mDg : M -> M := mmask (dgm blk).
Definition mUp : M -> M := mmask (upm blk).
Definition mLo : M -> M := mmask (lom blk).
Definition mSel : M -> M := mmask keep.
Definition mRw : M -> M := mmask (rwm cm).

Ltac entry i j := intros i j _ _; unfold mDg, mUp, mLo, mSel, mRw, mmask, madj, madd, mzero.

Ltac tri i j :=
  let E1 := fresh "E" in let E2 := fresh "E" in let E3 := fresh "E" in
  destruct (blk_tricho blk i j) as [(E1 & E2 & E3)|[(E1 & E2 & E3)|(E1 & E2 & E3)]];
  rewrite ?E1, ?E2, ?E3.

Lemma m_blk_split (x : M) : x =m madd (madd (mDg x) (mUp x)) (mLo x).
Proof.
  entry i j.
  tri i j; non_commutative_ring.
Qed.

Lemma m_idem m (x : M) : mmask m (mmask m x) =m mmask m x.
Proof. intros i j _ _. unfold mmask. destruct (m i j); reflexivity. Qed.

Lemma m_Dg_Up (x : M) : mDg (mUp x) =m mzero D.
Proof.
  entry i j.
  tri i j; reflexivity.
Qed.
Lemma m_Dg_Lo (x : M) : mDg (mLo x) =m mzero D.
Proof.
  entry i j.
  tri i j; reflexivity.
Qed.
Lemma m_Up_Dg (x : M) : mUp (mDg x) =m mzero D.
Proof.
  entry i j.
  tri i j; reflexivity.
Qed.
Lemma m_Up_Lo (x : M) : mUp (mLo x) =m mzero D.
Proof.
  entry i j.
  tri i j; reflexivity.
Qed.
Lemma m_Lo_Dg (x : M) : mLo (mDg x) =m mzero D.
Proof.
  entry i j.
  tri i j; reflexivity.
Qed.
Lemma m_Lo_Up (x : M) : mLo (mUp x) =m mzero D.
Proof.
  entry i j.
  tri i j; reflexivity.
Qed.

Lemma m_Dg_adj (x : M) : mDg (madj x) =m madj (mDg x).
Proof.
  intros i j Hi Hj. rewrite (madj_mask (dgm blk) x Hi Hj).
  unfold mDg, mmask. rewrite (dgm_sym blk j i). reflexivity.
Qed.
Lemma m_Up_adj (x : M) : mUp (madj x) =m madj (mLo x).
Proof. intros i j Hi Hj. symmetry. exact (madj_mask (lom blk) x Hi Hj). Qed.
Lemma m_Lo_adj (x : M) : mLo (madj x) =m madj (mUp x).
Proof. intros i j Hi Hj. symmetry. exact (madj_mask (upm blk) x Hi Hj). Qed.

Lemma m_Dg_mul_l (x y : M) : mDg (mmul (D := D) (mDg x) y) =m mmul (D := D) (mDg x) (mDg y).
Proof.
  intros i j _ _. unfold mDg, mmask at 1. unfold mmul.
  destruct (dgm blk i j) eqn:E.
  - apply bigsum_ext. intros r _. unfold mmask. destruct (dgm blk i r) eqn:E1.
    + rewrite (dgm_trans_l blk i r j E1), E. reflexivity.
    + non_commutative_ring.
  - symmetry. apply bigsum_zero. intros r _. unfold mmask. destruct (dgm blk i r) eqn:E1.
    + rewrite (dgm_trans_l blk i r j E1), E. non_commutative_ring.
    + non_commutative_ring.
Qed.

Lemma m_Dg_mul_r (x y : M) : mDg (mmul (D := D) x (mDg y)) =m mmul (D := D) (mDg x) (mDg y).
Proof.
  intros i j _ _. unfold mDg, mmask at 1. unfold mmul.
  destruct (dgm blk i j) eqn:E.
  - apply bigsum_ext. intros r _. unfold mmask. destruct (dgm blk r j) eqn:E1.
    + rewrite (dgm_trans_r blk i r j E1), E. reflexivity.
    + non_commutative_ring.
  - symmetry. apply bigsum_zero. intros r _. unfold mmask. destruct (dgm blk r j) eqn:E1.
    + rewrite (dgm_trans_r blk i r j E1), E. non_commutative_ring.
    + non_commutative_ring.
Qed.

Lemma m_Dg_one : mDg (mone D) =m mone D.
Proof.
  entry i j. unfold mone. destruct (Nat.eqb_spec i j).
  - subst. rewrite dgm_refl. reflexivity.
  - destruct (dgm blk i j); reflexivity.
Qed.

Lemma m_Sel_adj (x : M) : mSel (madj x) =m madj (mSel x).
Proof.
  intros i j Hi Hj. rewrite (madj_mask keep x Hi Hj).
  unfold mSel, mmask. rewrite (keep_sym j i). reflexivity.
Qed.
Lemma m_Sel_Dg (x : M) : mSel (mDg x) =m mSel x.
Proof.
  entry i j. destruct (keep i j) eqn:E; [|reflexivity].
  rewrite (keep_dgm blk keep keep_blk _ _ E). reflexivity.
Qed.
Lemma m_Dg_Sel (x : M) : mDg (mSel x) =m mSel x.
Proof.
  entry i j. destruct (keep i j) eqn:E.
  - rewrite (keep_dgm blk keep keep_blk _ _ E). reflexivity.
  - destruct (dgm blk i j); reflexivity.
Qed.

Lemma m_Rw_Dg (x : M) : mDg (mRw x) =m mRw (mDg x).
Proof. entry i j. unfold rwm. destruct (dgm blk i j), (cm i); reflexivity. Qed.
Lemma m_Rw_Sel (x : M) : mSel (mRw x) =m mRw (mSel x).
Proof. entry i j. unfold rwm. destruct (keep i j), (cm i); reflexivity. Qed.
Lemma m_Rw_adj_Dg (x : M) : mRw (madj (mDg x)) =m madj (mRw (mDg x)).
Proof.
  entry i j. unfold rwm. destruct (dgm blk j i) eqn:E.
  - rewrite (dgm_cm blk cm cm_blk _ _ E). destruct (cm i). reflexivity.
    symmetry. apply conj_zero.
  - destruct (cm i), (cm j); rewrite ?conj_zero; reflexivity.
Qed.

Global Instance mat_CoefAlg : CoefAlg M := {|
  cadj := madj (D := D);
  cadj_am := madj_am D;
  cadj_mul := madj_mul (D := D);
  cadj_inv := madj_inv (D := D);
  cadj_one := madj_one (D := D);
  cdivz := mdivz (D := D);
  cdivz_P := mdivz_P (D := D);
  cdivz_add := mdivz_add (D := D);
  cdivz_opp := mdivz_opp (D := D);
  cdivz_spec := mdivz_spec (D := D);
  cDg := mDg; cUp := mUp; cLo := mLo;
  cDg_am := mmask_am D (dgm blk);
  cUp_am := mmask_am D (upm blk);
  cLo_am := mmask_am D (lom blk);
  cblk_split := m_blk_split;
  cDg_Dg := m_idem (dgm blk);
  cUp_Up := m_idem (upm blk);
  cLo_Lo := m_idem (lom blk);
  cDg_Up := m_Dg_Up; cDg_Lo := m_Dg_Lo;
  cUp_Dg := m_Up_Dg; cUp_Lo := m_Up_Lo;
  cLo_Dg := m_Lo_Dg; cLo_Up := m_Lo_Up;
  cDg_adj := m_Dg_adj; cUp_adj := m_Up_adj; cLo_adj := m_Lo_adj;
  cDg_mul_l := m_Dg_mul_l;
  cDg_mul_r := m_Dg_mul_r;
  cDg_one := m_Dg_one;
  cSel := mSel;
  cSel_am := mmask_am D keep;
  cSel_idem := m_idem keep;
  cSel_adj := m_Sel_adj;
  cSel_Dg := m_Sel_Dg;
  cDg_Sel := m_Dg_Sel;
  cRw := mRw;
  cRw_am := mmask_am D (rwm cm);
  cRw_idem := m_idem (rwm cm);
  cRw_Dg := m_Rw_Dg;
  cRw_Sel := m_Rw_Sel;
  cRw_adj_Dg := m_Rw_adj_Dg
|}.

End BlockSel.

(** C15, rotation of the basis inside degenerate levels of H_0 (also the "eigenbasis change"
    clause of C14): for a fixed unitary matrix R (R† R = R R† = 1) the map
    (rot x) n := R† * x n * R is an [LAHom] of the concrete algebra to itself provided R
    commutes with the kept mask:  mask (R† y R) = R† (mask y) R  for every matrix y
    ([mask_compatible] gives a sufficient condition on the support of R).  It fixes H_0 when
    R† diag(E) R = diag(E), i.e. when R only mixes states of equal unperturbed energy. *)
Require Import Ncring_tac.
From PV.Base Require Import Classes BigSum.
From PV.Series Require Import MultiIndex Inst SylvInst SymNHInst.
From PV.Block Require Import Mat.
From PV.Alg Require Import Equivariance.
(** conjugation by a unitary in a ring with involution: the case Ri = R† of [gc]
    (Series/SymNHInst.v), which moreover commutes with the involution *)
Section RingConj.
Context {M : Type} `{Rg : Ring M}.
Variable star : M -> M.
Hypothesis star_mul : forall a b, star (a * b) == star b * star a.
Hypothesis star_inv : forall a, star (star a) == a.
Variable R : M.

Definition rc (a : M) : M := star R * a * R.

Lemma rc_star a : rc (star a) == star (rc a).
Proof.
  unfold rc. rewrite !star_mul, star_inv. non_commutative_ring.
Qed.
End RingConj.

(** a sufficient condition for compatibility with the kept mask: R vanishes outside a support
    [m] and states connected by the support have equal rows of the (symmetric) kept mask *)
Section MaskCompat.
Variable D : nat.
Context {R0 : Type} `{Rg : Ring R0} {CS : CStar R0}.
Variable keep : nat -> nat -> bool.
Hypothesis keep_sym : forall p q, keep p q = keep q p.
Variable R : mat D R0.
Variable m : nat -> nat -> bool.
Hypothesis R_supp : forall a p, (a < D)%nat -> (p < D)%nat -> m a p = false -> R a p == 0.
Hypothesis m_rows : forall a p r, (a < D)%nat -> (p < D)%nat -> (r < D)%nat -> m a p = true -> keep a r = keep p r.

Lemma mask_compatible (y : mat D R0) :
  mmask keep (madj R * y * R) == madj R * mmask keep y * R.
Proof.
  intros p q Hp Hq.
  change (mmask keep (mmul (mmul (madj R) y) R) p q == mmul (mmul (madj R) (mmask keep y)) R p q).
  assert (KK : forall a b, (a < D)%nat -> (b < D)%nat -> m a p = true -> m b q = true -> keep a b = keep p q).
  { intros a b Ha Hb Ma Mb. rewrite (m_rows a p b Ha Hp Hb Ma), (keep_sym p b), (m_rows b q p Hb Hq Hp Mb).
    apply keep_sym. }
  unfold mmask at 1. unfold mmul. destruct (keep p q) eqn:K.
  - apply bigsum_ext. intros b Hb. apply in_range in Hb.
    destruct (m b q) eqn:Mb.
    + apply ring_mult_comp; [|reflexivity]. apply bigsum_ext. intros a Ha. apply in_range in Ha.
      unfold madj, mmask. destruct (m a p) eqn:Ma.
      * rewrite (KK a b Ha Hb Ma Mb). reflexivity.
      * rewrite (R_supp a p Ha Hp Ma), conj_zero. non_commutative_ring.
    + rewrite (R_supp b q Hb Hq Mb). non_commutative_ring.
  - symmetry. apply bigsum_zero. intros b Hb. apply in_range in Hb.
    destruct (m b q) eqn:Mb.
    + rewrite bigsum_zero. non_commutative_ring. intros a Ha. apply in_range in Ha.
      unfold madj, mmask. destruct (m a p) eqn:Ma.
      * rewrite (KK a b Ha Hb Ma Mb). non_commutative_ring.
      * rewrite (R_supp a p Ha Hp Ma), conj_zero. non_commutative_ring.
    + rewrite (R_supp b q Hb Hq Mb). non_commutative_ring.
Qed.
End MaskCompat.

Section Rot.
Variables D k : nat.
Context {R0 : Type} `{Rg : Ring R0} {CS : CStar R0}.
Variable blk : nat -> nat.
Variable keep : nat -> nat -> bool.
Variable cm : nat -> bool.
Hypothesis keep_sym : forall p q, keep p q = keep q p.
Hypothesis keep_blk : forall p q, keep p q = true -> blk p = blk q.
Hypothesis cm_blk : forall p q, blk p = blk q -> cm p = cm q.
Local Notation T := (T D k R0).
Local Notation BA := (series_BlockAlg D k blk keep cm keep_sym keep_blk cm_blk).
Local Hint Extern 0 (BlockAlg _) => exact BA : typeclass_instances.
Local Notation M := (mat D R0).

Variable R : M.
Hypothesis RdR : madj R * R == 1.
Hypothesis RRd : R * madj R == 1.
(* R commutes with the kept mask *)
Hypothesis R_mask : forall y : M, mmask keep (madj R * y * R) == madj R * mmask keep y * R.

Local Notation mstar := (madj (D := D) (CS := CS)).
Local Notation rcm := (rc (Ro := mat_ops D) mstar R).

Definition rot (x : T) : T := fun n => rcm (x n).

Local Notation mM := (madj_mul (D := D) (Rg := Rg) (CS := CS)).
Local Notation mI := (madj_inv (D := D) (CS := CS)).

Lemma rot_LAHom : LAHom (BA := BA) (BA' := BA) rot.
Proof.
  apply (SGHom_LAHom _ (rotg_SGHom D k blk keep cm keep_sym keep_blk cm_blk R (madj R) RdR RRd R_mask)).
  intros x n Hn. exact (rc_star (Rg := mat_Ring D) _ mM mI R (x n)).
Qed.

Lemma rot_Zc (x : T) : rot (Zc x) == Zc (rot x).
Proof. exact (rotg_Zc D k blk keep cm keep_sym keep_blk cm_blk R (madj R) x). Qed.

(* R only mixes states of equal unperturbed energy *)
Lemma rot_H0 E : madj R * mdiag D E * R == mdiag D E -> rot (SylvInst.H0 D k E) == SylvInst.H0 D k E.
Proof. exact (rotg_H0 D k R (madj R) E). Qed.
End Rot.

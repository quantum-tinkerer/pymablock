(** A concrete non-trivial element of the Fock-space [BlockAlg] of Series/InstRCF.v, over Q,
    one perturbation parameter:  H = N + lambda (a + a†)  where N = diag(0,1,2,...) is the
    number operator and a is the annihilator in the unnormalised basis
    (entry (i, i+1) = i+1).  One block, fully diagonalising mask (keep p q := p =? q),
    field inverse as solver.  All the wiring hypotheses of [rcf_wiring] hold for it. *)
Require Import Ncring_tac QArith String.
From PV.Base Require Import Classes.
From PV.Series Require Import InstRCF.
From PV.Block Require Import Mat RCFIdx RCF QLemmas QInst.
From PV.Alg Require Import MainCorrect.
Local Close Scope Q_scope.

Definition fx_blk (p : nat) : nat := O.
Definition fx_keep (p q : nat) : bool := Nat.eqb p q.
Definition fx_cm (p : nat) : bool := true.
Lemma fx_keep_sym p q : fx_keep p q = fx_keep q p. Proof. apply Nat.eqb_sym. Qed.
Lemma fx_keep_refl p : fx_keep p p = true. Proof. apply Nat.eqb_refl. Qed.
Lemma fx_keep_blk p q : fx_keep p q = true -> fx_blk p = fx_blk q. Proof. reflexivity. Qed.
Lemma fx_cm_blk p q : fx_blk p = fx_blk q -> fx_cm p = fx_cm q. Proof. reflexivity. Qed.
Lemma fx_keep_eucl p q r :
  fx_cm p = true -> fx_keep p q = true -> fx_keep r q = true -> fx_keep p r = true.
Proof.
  unfold fx_keep. intros _ H1 H2. apply Nat.eqb_eq in H1, H2. apply Nat.eqb_eq. congruence.
Qed.

Definition fx_E (p : nat) : Q := inject_Z (Z.of_nat p).
Definition fx_inv (x : Q) : Q := Qinv x.

Lemma fx_inv_spec p q :
  fx_keep p q = false -> (fx_E p - fx_E q) * fx_inv (fx_E p - fx_E q) == 1.
Proof. intros H. apply Nat.eqb_neq in H. exact (@q_diff_inv p q H). Qed.
Lemma fx_E_real p : conj (fx_E p) == fx_E p. Proof. reflexivity. Qed.
Lemma fx_inv_P : Proper (_==_ ==> _==_) fx_inv. Proof. exact Qinv_comp. Qed.
Lemma fx_inv_opp x : fx_inv (- x) == - fx_inv x. Proof. exact (q_inv_opp x). Qed.
Lemma fx_inv_conj x : conj (fx_inv x) == fx_inv (conj x). Proof. reflexivity. Qed.

(** the annihilator: row i has its only entry in column i+1 *)
Lemma annih_rb_ok i j :
  (S i < j)%nat -> (if Nat.eqb j (S i) then inject_Z (Z.of_nat j) else 0%Q) == 0.
Proof. intros H. rewrite (gt_neqb H). reflexivity. Qed.
Lemma annih_cb_ok j i :
  (j < i)%nat -> (if Nat.eqb j (S i) then inject_Z (Z.of_nat j) else 0%Q) == 0.
Proof. intros H. rewrite (lt_neqb (Nat.lt_lt_succ_r _ _ H)). reflexivity. Qed.
Definition annih : rcf Q :=
  @mk_rcf Q _ _ _ _ _ _ _ _
          (fun i j => if Nat.eqb j (S i) then inject_Z (Z.of_nat j) else 0%Q)
          (fun i => S i) (fun j => j) annih_rb_ok annih_cb_ok.

Notation fx_BA := (rcf_BlockAlg 1 fx_blk fx_keep fx_cm fx_keep_sym fx_keep_blk fx_cm_blk).
Global Hint Extern 0 (BlockAlg (TF 1 Q)) => exact fx_BA : typeclass_instances.

Definition fx_H : TF 1 Q :=
  fun n => match n with
           | cons O nil => rdiag fx_E
           | cons (S O) nil => radd annih (radj annih)
           | _ => rzero
           end.

Definition fx_rflag (s : string) (x : TF 1 Q) : TF 1 Q := Rw x.
Definition fx_fenv (s : string) (l : list (TF 1 Q)) : TF 1 Q :=
  sylvF fx_E fx_inv (List.hd 0 l).

Lemma fx_H_herm : adj fx_H == fx_H.
Proof.
  intros n Hn p q. rewrite (Fadj_entry (k := 1)).
  destruct n as [|[|[|d]] [|? ?]]; try discriminate; cbn [fx_H].
  - exact (adj_H0F (k := 1) fx_blk fx_keep fx_cm fx_keep_sym fx_keep_blk fx_cm_blk fx_E
                   fx_E_real (cons O nil) eq_refl p q).
  - cbn [ent radd radj]. apply Qplus_comm.
  - reflexivity.
Qed.

Lemma fx_H_zero : Zc fx_H == H0F 1 fx_E.
Proof.
  intros n Hn p q. rewrite (FZc_entry (k := 1)).
  destruct n as [|[|[|d]] [|? ?]]; try discriminate; reflexivity.
Qed.

Lemma fx_wiring : wiring fx_rflag fx_fenv fx_H.
Proof.
  eapply (rcf_wiring (k := 1) (blk := fx_blk) (keep := fx_keep) (cm := fx_cm)
                     fx_keep_refl (E := fx_E) (inv := fx_inv)).
  - exact fx_inv_spec.
  - exact fx_E_real.
  - exact fx_inv_P.
  - exact fx_inv_opp.
  - exact fx_inv_conj.
  - exact fx_keep_eucl.
  - intros x. reflexivity.
  - intros y. reflexivity.
  - exact fx_H_herm.
  - exact fx_H_zero.
Qed.

(** H is not trivial: <0| H_1 |1> = 1 (in particular non-zero) and <1| H_0 |1> = 1 *)
Lemma fx_nontrivial :
  ent (fx_H (cons 1%nat nil)) 0 1 == 1 /\ ent (fx_H (cons 0%nat nil)) 1 1 == 1
  /\ ~ (ent (fx_H (cons 1%nat nil)) 0 1 == 0).
Proof. repeat split. intros H. discriminate H. Qed.

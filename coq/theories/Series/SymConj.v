(** C15, complex conjugation: entry-wise conjugation (NOT transposed) of every coefficient is an
    [LAHom] of the concrete algebra (D, k, blk, keep, cm) to itself; it fixes H_0 when the
    unperturbed energies are real.  Hence conjugating the Hamiltonian conjugates H_tilde, U, U†. *)
Require Import Ncring_tac.
From PV.Base Require Import Classes BigSum.
From PV.Series Require Import MultiIndex Inst SylvInst.
From PV.Block Require Import Mat.
From PV.Alg Require Import Equivariance.
Open Scope string_scope.

Section Conj.
Variables D k : nat.
Context {R0 : Type} `{Rg : Ring R0} {CS : CStar R0}.
Variable blk : nat -> nat.
Variable keep : nat -> nat -> bool.
Variable cm : nat -> bool.
Hypothesis keep_sym : forall p q, keep p q = keep q p.
Hypothesis keep_blk : forall p q, keep p q = true -> blk p = blk q.
Hypothesis cm_blk : forall p q, blk p = blk q -> cm p = cm q.
Local Notation T := (T D k R0).
Local Notation BA := (series_BlockAlg D k blk keep cm keep_sym keep_blk cm_blk).
Local Hint Extern 0 (BlockAlg _) => exact BA : typeclass_instances.

Definition cconj (x : T) : T := fun n p q => conj (x n p q).

Lemma cconj_P : Proper (_==_ ==> _==_) cconj.
Proof. intros x y H n Hn p q Hp Hq. unfold cconj. rewrite (H n Hn p q Hp Hq). reflexivity. Qed.

Lemma cconj_mul (x y : T) : cconj (x * y) == cconj x * cconj y.
Proof.
  intros n Hn p q Hp Hq. unfold cconj at 1. rewrite !(mul_entry (Rg := Rg)).
  rewrite (bigsum_morph conj _ _ conj_zero conj_add).
  apply bigsum_ext. intros ab _.
  rewrite (bigsum_morph conj _ _ conj_zero conj_add).
  apply bigsum_ext. intros r _. unfold cconj. apply conj_mul.
Qed.

Lemma cconj_LAHom : LAHom (BA := BA) (BA' := BA) cconj.
Proof.
  apply mkLAHom.
  - exact cconj_P.
  - intros x y n Hn p q Hp Hq. exact (conj_add (x n p q) (y n p q)).
  - intros x n Hn p q Hp Hq. exact (conj_opp (x n p q)).
  - intros n Hn p q Hp Hq. unfold cconj. rewrite one_entry.
    destruct (is_zero n). destruct (Nat.eqb p q). apply conj_one. apply conj_zero. apply conj_zero.
  - exact cconj_mul.
  - intros x n Hn p q Hp Hq. unfold cconj. rewrite !Sel_entry.
    destruct (keep p q). reflexivity. apply conj_zero.
  - intros m x Hx. apply ord_iff. intros n p q Hn Hd Hp Hq. unfold cconj.
    rewrite (proj1 (ord_iff blk keep cm keep_sym keep_blk cm_blk m x) Hx n p q Hn Hd Hp Hq).
    apply conj_zero.
  - intros x n Hn p q Hp Hq. reflexivity.
Qed.

Lemma cconj_Zc (x : T) : cconj (Zc x) == Zc (cconj x).
Proof.
  intros n Hn p q Hp Hq. unfold cconj at 1. rewrite !Zc_entry.
  destruct (is_zero n). reflexivity. apply conj_zero.
Qed.

Variable E : nat -> R0.
Hypothesis E_real : forall p, conj (E p) == E p.

Lemma cconj_H0 : cconj (H0 D k E) == SylvInst.H0 D k E.
Proof.
  intros n Hn p q Hp Hq. unfold cconj, H0. destruct (is_zero n).
  - unfold mdiag. destruct (Nat.eqb p q). apply E_real. apply conj_zero.
  - apply conj_zero.
Qed.

End Conj.

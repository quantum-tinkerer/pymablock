(** The entry-wise diagonal Sylvester solver in the concrete [BlockAlg] of Series/Inst.v.

    H0 := the series whose only coefficient (order zero) is diag(E);
    sylv y := (n, p, q) |-> y(n)[p,q] * inv (E p - E q),
    where [inv d] inverts the energy differences of the ELIMINATED pairs (keep p q = false).
    Then  Rp (H0 * sylv y - sylv y * H0) == Rp y  with  Rp x := x - Sel x. *)
Require Import Ncring_tac.
From PV.Base Require Import Classes AlgLemmas.
From PV.Series Require Import MultiIndex Cauchy Inst.
From PV.Block Require Import Mat.
Set Implicit Arguments.

Section Sylv.
Variables D k : nat.
Context {R0 : Type} `{Rg : Ring R0} {CS : CStar R0}.
Variable blk : nat -> nat.
Variable keep : nat -> nat -> bool.
Variable cm : nat -> bool.
Hypothesis keep_sym : forall p q, keep p q = keep q p.
Hypothesis keep_refl : forall p, keep p p = true.
Hypothesis keep_blk : forall p q, keep p q = true -> blk p = blk q.
Hypothesis cm_blk : forall p q, blk p = blk q -> cm p = cm q.

Variable E : nat -> R0.        (* unperturbed energies *)
Variable inv : R0 -> R0.       (* inverse, used on the eliminated energy differences *)

Local Notation T := (T D k R0).
(* typeclass resolution produces the literal instance term of Series/Inst.v *)
Local Hint Extern 0 (BlockAlg _) =>
  exact (series_BlockAlg D k blk keep cm keep_sym keep_blk cm_blk) : typeclass_instances.

Definition H0 : T := fun n => if is_zero n then mdiag D E else mzero D.
Definition sylv (y : T) : T := fun n p q => y n p q * inv (E p - E q).
Local Notation Rp x := (x - Sel x) (only parsing).

Lemma H0_const a : is_zero a = false -> H0 a == 0.
Proof. intros Z. unfold H0. rewrite Z. reflexivity. Qed.

Lemma H0_mul_l (x : T) n p q :
  (p < D)%nat -> (q < D)%nat -> (H0 * x) n p q == E p * x n p q.
Proof.
  intros Hp Hq.
  rewrite (conv_const_l (k := k) H0 x n H0_const p q Hp Hq).
  unfold H0. rewrite is_zero_mzero_k. now apply mmul_diag_l.
Qed.

Lemma H0_mul_r (x : T) n p q :
  (p < D)%nat -> (q < D)%nat -> (x * H0) n p q == x n p q * E q.
Proof.
  intros Hp Hq.
  rewrite (conv_const_r (k := k) H0 x n H0_const p q Hp Hq).
  unfold H0. rewrite is_zero_mzero_k. now apply mmul_diag_r.
Qed.

Lemma comm_H0_entry (x : T) n p q :
  (p < D)%nat -> (q < D)%nat -> (H0 * x - x * H0) n p q == (E p - E q) * x n p q.
Proof.
  intros Hp Hq. rewrite sub_entry, H0_mul_l, H0_mul_r by assumption.
  rewrite (cs_comm (x n p q) (E q)). non_commutative_ring.
Qed.

(** ** H0 is kept, block diagonal, of order zero; Hermitian for real energies *)
Lemma Sel_H0 : Sel H0 == H0.
Proof.
  intros n _ p q _ _. rewrite Sel_entry. unfold H0.
  destruct (is_zero n).
  - unfold mdiag. destruct (Nat.eqb_spec p q).
    + subst. rewrite keep_refl. reflexivity.
    + destruct (keep p q); reflexivity.
  - destruct (keep p q); reflexivity.
Qed.

Lemma Dg_H0 : Dg H0 == H0.
Proof. rewrite <- Sel_H0. apply Dg_Sel. Qed.

Lemma Zc_H0 : Zc H0 == H0.
Proof.
  intros n _ p q _ _. rewrite Zc_entry. unfold H0. destruct (is_zero n); reflexivity.
Qed.

Lemma adj_H0 : (forall p, conj (E p) == E p) -> adj H0 == H0.
Proof.
  intros Er n _ p q _ _. rewrite adj_entry. unfold H0. destruct (is_zero n).
  - unfold mdiag. rewrite (Nat.eqb_sym q p). destruct (Nat.eqb_spec p q).
    + subst. apply Er.
    + apply conj_zero.
  - apply conj_zero.
Qed.

Global Instance sylv_P : Proper (_==_ ==> _==_) sylv.
Proof.
  intros x y H n Hn p q Hp Hq. unfold sylv. rewrite (H n Hn p q Hp Hq). reflexivity.
Qed.

Global Instance sylv_am : AddMap sylv.
Proof.
  split. exact sylv_P.
  - intros x y n _ p q _ _. rewrite add_entry. unfold sylv. rewrite add_entry.
    non_commutative_ring.
  - intros x n _ p q _ _. rewrite opp_entry. unfold sylv. rewrite opp_entry.
    non_commutative_ring.
Qed.

Lemma sylv_ord m y : ord m y -> ord m (sylv y).
Proof.
  intros H n Hn Hd p q Hp Hq. unfold sylv. rewrite (H n Hn Hd p q Hp Hq).
  change ((0 : T) n p q) with (0 : R0). non_commutative_ring.
Qed.

Hypothesis inv_spec : forall p q, (p < D)%nat -> (q < D)%nat -> keep p q = false ->
                                  (E p - E q) * inv (E p - E q) == 1.

Theorem sylv_spec y : Rp (H0 * sylv y - sylv y * H0) == Rp y.
Proof.
  intros n Hn p q Hp Hq.
  pose proof (comm_H0_entry (sylv y) n Hp Hq) as C.
  set (X := H0 * sylv y - sylv y * H0) in *.
  rewrite !sub_entry, !Sel_entry. destruct (keep p q) eqn:K.
  - non_commutative_ring.
  - rewrite C. unfold sylv.
    transitivity (y n p q * ((E p - E q) * inv (E p - E q)) - 0).
    + rewrite (cs_comm (E p - E q) (y n p q * inv (E p - E q))),
        (cs_comm (E p - E q) (inv (E p - E q))).
      non_commutative_ring.
    + rewrite (inv_spec Hp Hq K). non_commutative_ring.
Qed.

Lemma Sel_comm_H0 x : Sel (H0 * x - x * H0) == H0 * Sel x - Sel x * H0.
Proof.
  intros n Hn p q Hp Hq.
  pose proof (comm_H0_entry x n Hp Hq) as C1.
  pose proof (comm_H0_entry (Sel x) n Hp Hq) as C2.
  rewrite C2. set (X := H0 * x - x * H0) in *. rewrite !Sel_entry.
  destruct (keep p q). exact C1. non_commutative_ring.
Qed.

(** ** anti-Hermiticity is preserved for real energies *)
Hypothesis E_real : forall p, conj (E p) == E p.
Hypothesis inv_P : Proper (_==_ ==> _==_) inv.
Hypothesis inv_opp : forall x, inv (- x) == - inv x.
Hypothesis inv_conj : forall x, conj (inv x) == inv (conj x).

Lemma sylv_adj y : sylv (adj y) == - adj (sylv y).
Proof.
  intros n Hn p q Hp Hq. rewrite opp_entry, adj_entry. unfold sylv. rewrite adj_entry.
  rewrite conj_mul, inv_conj, conj_sub, !E_real.
  assert (X : inv (E p - E q) == - inv (E q - E p)).
  { rewrite <- inv_opp. apply inv_P. non_commutative_ring. }
  rewrite X. non_commutative_ring.
Qed.

End Sylv.

(** the solver is a left inverse of x |-> [H_0, x] on eliminated elements (the injectivity hypothesis
    of uniqueness), and H_0 commutes with every kept part when kept elements connect equal energies *)
Unset Implicit Arguments.
Section SylvLeft.
Variables D k : nat.
Context {R0 : Type} `{Rg : Ring R0} {CS : CStar R0}.
Variable blk : nat -> nat.
Variable keep : nat -> nat -> bool.
Variable cm : nat -> bool.
Hypothesis keep_sym : forall p q, keep p q = keep q p.
Hypothesis keep_blk : forall p q, keep p q = true -> blk p = blk q.
Hypothesis cm_blk : forall p q, blk p = blk q -> cm p = cm q.
Variable E : nat -> R0.
Local Notation T := (T D k R0).
Local Hint Extern 0 (BlockAlg _) =>
  exact (series_BlockAlg D k blk keep cm keep_sym keep_blk cm_blk) : typeclass_instances.

Section Left.
Variable inv : R0 -> R0.
Hypothesis inv_spec : forall p q, (p < D)%nat -> (q < D)%nat -> keep p q = false ->
                                  (E p - E q) * inv (E p - E q) == 1.
Lemma sylv_left_H0 (x : T) :
  Rp (sylv E inv (comm (H0 D k E) (Rp x))) == Rp x.
Proof.
  intros n Hn p q Hp Hq. unfold Rp at 1 3. rewrite !sub_entry, !Sel_entry.
  destruct (keep p q) eqn:K.
  - non_commutative_ring.
  - unfold sylv at 1. unfold comm.
    rewrite (comm_H0_entry (k := k) E (Rp x) n Hp Hq).
    transitivity (((E p - E q) * inv (E p - E q)) * Rp x n p q - 0).
    + rewrite (cs_comm (E p - E q) (Rp x n p q)). rewrite (cs_comm ((E p - E q) * inv (E p - E q)) (Rp x n p q)).
      non_commutative_ring.
    + rewrite (inv_spec p q Hp Hq K). unfold Rp. rewrite !sub_entry, !Sel_entry, K. non_commutative_ring.
Qed.

End Left.

Hypothesis kept_equal : forall p q, (p < D)%nat -> (q < D)%nat -> keep p q = true -> E p == E q.
Lemma central_H0 (x : T) : comm (H0 D k E) (Sel x) == 0.
Proof.
  intros n Hn p q Hp Hq. unfold comm. rewrite (comm_H0_entry (k := k) E (Sel x) n Hp Hq), Sel_entry.
  destruct (keep p q) eqn:K.
  - rewrite (kept_equal p q Hp Hq K). change ((0 : T) n p q) with (0 : R0). non_commutative_ring.
  - change ((0 : T) n p q) with (0 : R0). non_commutative_ring.
Qed.

End SylvLeft.

(** Common ground of the symmetry files Series/Sym*.v: the transport theorems of
    Alg/Equivariance.v with every wiring hypothesis discharged for a pair of concrete instances
    (D, k, blk, keep, cm, E, inv) and (D', k', blk', keep', cm', E', inv').
    - [sylv_left_inst]: the entry-wise diagonal solver of Series/SylvInst.v is a left inverse of
      x |-> [H_0, x] on eliminated elements (injectivity hypothesis of uniqueness).
    - [inst_transport]: an [LAHom] [phi] that commutes with the order-zero coefficient and maps
      H_0 to H_0' carries the outputs H_tilde, U, U† of the generated Hermitian program to the
      outputs for the input [phi H].
    - [inst_nh_wiring], [inst_transport_nh]: the same for the non-Hermitian program and an
      [SGHom].  That program satisfies its defining conditions only when every kept matrix
      element connects equal unperturbed energies, [H_0, S x] = 0 (known finding
      C05-kept-distinct-energies); that hypothesis ([kept_equal]: keep p q = true -> E p == E q)
      is needed on BOTH sides, which is why the Props theorems built on it are named
      *_partial.  No reality of the energies, no Hermiticity of the input and no compatibility
      of the solver with conjugation is assumed there.  (The concrete algebra has a symmetric
      kept mask; asymmetric masks are covered by the oracle only.) *)
Require Import Ncring_tac String.
From PV.Base Require Import Classes AlgLemmas.
From PV.Series Require Import Inst SylvInst.
From PV.Block Require Import Mat Masks.
From PV.DSL Require Import Sem.
From PV.Gen Require Import Algorithms_gen.
From PV.Alg Require Import MainLift Equivariance MainInst.
Open Scope string_scope.

(** * one instance: what the entry-wise diagonal solver provides beyond Alg/MainInst.v *)
Section Inst1.
Variables D k : nat.
Context {R0 : Type} `{Rg : Ring R0} {CS : CStar R0}.
Variable blk : nat -> nat.
Variable keep : nat -> nat -> bool.
Variable cm : nat -> bool.
Hypothesis keep_sym : forall p q, keep p q = keep q p.
Hypothesis keep_refl : forall p, keep p p = true.
Hypothesis keep_blk : forall p q, keep p q = true -> blk p = blk q.
Hypothesis cm_blk : forall p q, blk p = blk q -> cm p = cm q.
Variable E : nat -> R0.
Variable inv : R0 -> R0.
Hypothesis inv_spec : forall p q, (p < D)%nat -> (q < D)%nat -> keep p q = false ->
                                  (E p - E q) * inv (E p - E q) == 1.
Local Notation T := (T D k R0).
Local Hint Extern 0 (BlockAlg _) =>
  exact (series_BlockAlg D k blk keep cm keep_sym keep_blk cm_blk) : typeclass_instances.

Lemma sylv_left_inst (fenv : string -> list T -> T) (H : T) :
  (forall y, fenv "solve_sylvester" (cons y nil) == SylvInst.sylv E inv y) ->
  Zc H == SylvInst.H0 D k E ->
  forall x, Rp (MainLift.sylv fenv (comm (Zc H) (Rp x))) == Rp x.
Proof.
  intros Hf HZ. exact (sylv_left_intro fenv H _ _ (SylvInst.sylv_P (k := k) (D := D) E inv) Hf HZ (sylv_left_H0 D k blk keep cm keep_sym keep_blk cm_blk E inv inv_spec)).
Qed.

(* domain of validity of the non-Hermitian similarity theorems *)
Hypothesis kept_equal : forall p q, (p < D)%nat -> (q < D)%nat -> keep p q = true -> E p == E q.

Variable fenv : string -> list T -> T.
Hypothesis fenv_spec : forall y, fenv "solve_sylvester" (cons y nil) == SylvInst.sylv E inv y.
Variable H : T.
Hypothesis H_zero : Zc H == SylvInst.H0 D k E.

Theorem inst_nh_wiring : nh_wiring fenv H.
Proof.
  apply (nh_wiring_intro fenv H _ _ (SylvInst.sylv_P (k := k) (D := D) E inv) fenv_spec H_zero).
  - exact (sylv_left_H0 D k blk keep cm keep_sym keep_blk cm_blk E inv inv_spec).
  - exact (SylvInst.sylv_ord (keep_sym := keep_sym) (keep_blk := keep_blk) (cm_blk := cm_blk) E inv).
  - exact (SylvInst.Sel_H0 (k := k) blk keep cm keep_sym keep_refl keep_blk cm_blk E).
  - exact (SylvInst.Sel_comm_H0 (k := k) blk keep cm keep_sym keep_blk cm_blk E).
  - exact (SylvInst.sylv_spec (k := k) blk keep cm keep_sym keep_blk cm_blk E inv inv_spec).
  - exact (central_H0 D k blk keep cm keep_sym keep_blk cm_blk E kept_equal).
Qed.
End Inst1.

(** * transport between two concrete instances *)
Section Inst2.
Context {R0 : Type} `{Rg : Ring R0} {CS : CStar R0}.
(* source instance *)
Variables D k : nat.
Variable blk : nat -> nat.
Variable keep : nat -> nat -> bool.
Variable cm : nat -> bool.
Hypothesis keep_sym : forall p q, keep p q = keep q p.
Hypothesis keep_refl : forall p, keep p p = true.
Hypothesis keep_blk : forall p q, keep p q = true -> blk p = blk q.
Hypothesis cm_blk : forall p q, blk p = blk q -> cm p = cm q.
Hypothesis keep_eucl : keep_eucl_on D keep cm.
Variable E : nat -> R0.
Variable inv : R0 -> R0.
Hypothesis inv_spec : forall p q, (p < D)%nat -> (q < D)%nat -> keep p q = false ->
                                  (E p - E q) * inv (E p - E q) == 1.
Hypothesis kept_equal : forall p q, (p < D)%nat -> (q < D)%nat -> keep p q = true -> E p == E q.
Hypothesis E_real : forall p, conj (E p) == E p.
Hypothesis inv_P : Proper (_==_ ==> _==_) inv.
Hypothesis inv_opp : forall x, inv (- x) == - inv x.
Hypothesis inv_conj : forall x, conj (inv x) == inv (conj x).
(* target instance *)
Variables D' k' : nat.
Variable blk' : nat -> nat.
Variable keep' : nat -> nat -> bool.
Variable cm' : nat -> bool.
Hypothesis keep_sym' : forall p q, keep' p q = keep' q p.
Hypothesis keep_refl' : forall p, keep' p p = true.
Hypothesis keep_blk' : forall p q, keep' p q = true -> blk' p = blk' q.
Hypothesis cm_blk' : forall p q, blk' p = blk' q -> cm' p = cm' q.
Hypothesis keep_eucl' : keep_eucl_on D' keep' cm'.
Variable E' : nat -> R0.
Variable inv' : R0 -> R0.
Hypothesis inv_spec' : forall p q, (p < D')%nat -> (q < D')%nat -> keep' p q = false ->
                                   (E' p - E' q) * inv' (E' p - E' q) == 1.
Hypothesis kept_equal' : forall p q, (p < D')%nat -> (q < D')%nat -> keep' p q = true -> E' p == E' q.
Hypothesis E_real' : forall p, conj (E' p) == E' p.
Hypothesis inv_P' : Proper (_==_ ==> _==_) inv'.
Hypothesis inv_opp' : forall x, inv' (- x) == - inv' x.
Hypothesis inv_conj' : forall x, conj (inv' x) == inv' (conj x).

Definition BA1 : BlockAlg (T D k R0) := series_BlockAlg D k blk keep cm keep_sym keep_blk cm_blk.
Definition BA2 : BlockAlg (T D' k' R0) := series_BlockAlg D' k' blk' keep' cm' keep_sym' keep_blk' cm_blk'.

Variable phi : T D k R0 -> T D' k' R0.
Hypothesis HL : LAHom (BA := BA1) (BA' := BA2) phi.
Hypothesis HS : SGHom (BA := BA1) (BA' := BA2) phi.
Hypothesis phi_Zc : forall x, phi (Zc (BlockAlg := BA1) x) == Zc (BlockAlg := BA2) (phi x).
Hypothesis phi_H0 : phi (SylvInst.H0 D k E) == SylvInst.H0 D' k' E'.

Variable gflag gflag' : string -> bool.
Variable rflag : string -> T D k R0 -> T D k R0.
Variable fenv : string -> list (T D k R0) -> T D k R0.
Variable rflag' : string -> T D' k' R0 -> T D' k' R0.
Variable fenv' : string -> list (T D' k' R0) -> T D' k' R0.
Hypothesis rflag_spec : forall x, rflag "commuting_blocks" x == Rw (BlockAlg := BA1) x.
Hypothesis fenv_spec : forall y, fenv "solve_sylvester" (cons y nil) == SylvInst.sylv E inv y.
Hypothesis rflag_spec' : forall x, rflag' "commuting_blocks" x == Rw (BlockAlg := BA2) x.
Hypothesis fenv_spec' : forall y, fenv' "solve_sylvester" (cons y nil) == SylvInst.sylv E' inv' y.

Variable sol : string -> T D k R0.
Variable sol' : string -> T D' k' R0.

Lemma it_zero' : Proper (_==_ ==> _==_) phi -> Zc (BlockAlg := BA1) (sol "H") == SylvInst.H0 D k E ->
  sol' "H" == phi (sol "H") -> Zc (BlockAlg := BA2) (sol' "H") == SylvInst.H0 D' k' E'.
Proof. intros hP H_zero Hin. exact (Zc_transport (BA := BA1) (BA' := BA2) phi hP phi_Zc H_zero phi_H0 Hin). Qed.

Section Main.
Hypothesis Hsol : solution (BA := BA1) (gflag_of false) rflag fenv sol main_alg.
Hypothesis Hsol' : solution (BA := BA2) (gflag_of false) rflag' fenv' sol' main_alg.
Hypothesis H_herm : adj (BlockAlg := BA1) (sol "H") == sol "H".
Hypothesis H_zero : Zc (BlockAlg := BA1) (sol "H") == SylvInst.H0 D k E.
Hypothesis Hin : sol' "H" == phi (sol "H").

Theorem inst_transport :
  sol' "U" == phi (sol "U") /\ sol' "U†" == phi (sol "U†") /\ sol' "H_tilde" == phi (sol "H_tilde").
Proof.
  pose proof HL as [hP _ _ _ _ _ _ _ _]. pose proof (it_zero' hP H_zero Hin) as Z'.
  refine (transport_outputs (BA := BA1) (BA' := BA2) phi HL rflag rflag' fenv fenv' sol sol' Hsol Hsol' _ _ Hin _).
  - exact (inst_wiring D k blk keep cm keep_sym keep_refl keep_blk cm_blk keep_eucl
             E inv inv_spec E_real inv_P inv_opp inv_conj rflag fenv rflag_spec fenv_spec (sol "H") H_herm H_zero).
  - refine (inst_wiring D' k' blk' keep' cm' keep_sym' keep_refl' keep_blk' cm_blk' keep_eucl'
              E' inv' inv_spec' E_real' inv_P' inv_opp' inv_conj' rflag' fenv' rflag_spec' fenv_spec' (sol' "H") _ Z').
    exact (herm_transport (BA := BA1) (BA' := BA2) phi HL H_herm Hin).
  - exact (sylv_left_inst D' k' blk' keep' cm' keep_sym' keep_blk' cm_blk' E' inv' inv_spec' fenv' (sol' "H") fenv_spec' Z').
Qed.
End Main.

Hypothesis Hsol : solution (BA := BA1) gflag rflag fenv sol nonhermitian_alg.
Hypothesis Hsol' : solution (BA := BA2) gflag' rflag' fenv' sol' nonhermitian_alg.
Hypothesis H_zero : Zc (BlockAlg := BA1) (sol "H") == SylvInst.H0 D k E.
Hypothesis Hin : sol' "H" == phi (sol "H").

Theorem inst_transport_nh :
  sol' "U" == phi (sol "U") /\ sol' "U†" == phi (sol "U†") /\ sol' "H_tilde" == phi (sol "H_tilde").
Proof.
  pose proof HS as [hP _ _ _ _ _ _].
  apply (nh_outputs_transport (BA := BA1) (BA' := BA2) phi HS rflag rflag' fenv fenv' sol sol' gflag gflag' Hsol Hsol').
  - exact (inst_nh_wiring D k blk keep cm keep_sym keep_refl keep_blk cm_blk E inv inv_spec kept_equal fenv fenv_spec (sol "H") H_zero).
  - exact (inst_nh_wiring D' k' blk' keep' cm' keep_sym' keep_refl' keep_blk' cm_blk' E' inv' inv_spec' kept_equal' fenv' fenv_spec'
             (sol' "H") (it_zero' hP H_zero Hin)).
  - exact Hin.
Qed.
End Inst2.

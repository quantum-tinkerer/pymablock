(** C15, shift of H_0 by a multiple of the identity and scaling of the whole Hamiltonian, both
    modes.  These two are NOT homomorphisms of the algebra; by [shift_outputs] / [scale_outputs]
    (Alg/Equivariance.v) a central, kept C leaves U, U† unchanged and shifts H_tilde by C, and a
    central S commuting with the selection scales H_tilde.  Here C = c * 1, S = s * 1 in the
    algebra of series of matrices; the solver of the shifted problem is the same [inv] (only
    energy differences enter), the solver of the scaled problem is any [inv'] inverting the
    scaled differences.  In the non-Hermitian mode c and s need not be real. *)
Require Import Ncring_tac String.
From PV.Base Require Import Classes AlgLemmas.
From PV.Series Require Import MultiIndex Inst SylvInst SymBase.
From PV.Block Require Import Mat Masks.
From PV.DSL Require Import Sem.
From PV.Gen Require Import Algorithms_gen.
From PV.Alg Require Import MainLift Equivariance MainInst.
Open Scope string_scope.

(** the order-zero part and the Hermiticity of a shifted / scaled input, in any [BlockAlg] *)
Section Abstract.
Context {T : Type} `{Rg : Ring T} {BA : BlockAlg T}.
Variables H H' C Z ZC : T.
Lemma Zc_of_sum : H' == H + C -> Zc H == Z -> Zc C == ZC -> Zc H' == Z + ZC.
Proof. intros E1 E2 E3. rewrite E1, (am_add (f := Zc)), E2, E3. reflexivity. Qed.
Lemma Zc_of_prod : H' == C * H -> Zc C == ZC -> Zc H == Z -> Zc H' == ZC * Z.
Proof. intros E1 E2 E3. rewrite E1, Zc_mul, E2, E3. reflexivity. Qed.
Lemma herm_of_sum : H' == H + C -> adj H == H -> adj C == C -> adj H' == H'.
Proof. intros E1 E2 E3. rewrite E1, adj_add, E2, E3. reflexivity. Qed.
Lemma herm_of_prod : H' == C * H -> adj H == H -> adj C == C -> (forall x, C * x == x * C) -> adj H' == H'.
Proof. intros E1 E2 E3 Cc. rewrite E1, adj_mul, E2, E3. symmetry. apply Cc. Qed.
End Abstract.

Section Concrete.
Variables D k : nat.
Context {R0 : Type} `{Rg : Ring R0} {CS : CStar R0}.
Variable blk : nat -> nat.
Variable keep : nat -> nat -> bool.
Variable cm : nat -> bool.
Hypothesis keep_sym : forall p q, keep p q = keep q p.
Hypothesis keep_refl : forall p, keep p p = true.
Hypothesis keep_blk : forall p q, keep p q = true -> blk p = blk q.
Hypothesis cm_blk : forall p q, blk p = blk q -> cm p = cm q.
Hypothesis keep_eucl : keep_eucl_on D keep cm.
Local Notation T := (T D k R0).
Local Notation BA := (series_BlockAlg D k blk keep cm keep_sym keep_blk cm_blk).
Local Hint Extern 0 (BlockAlg _) => exact BA : typeclass_instances.

(** the scalar c as an element of the algebra: c times the identity at order zero *)
Definition cst (c : R0) : T := SylvInst.H0 D k (fun _ => c).

Lemma cst_mul_l c (x : T) n p q : (p < D)%nat -> (q < D)%nat -> (cst c * x) n p q == c * x n p q.
Proof. intros Hp Hq. exact (H0_mul_l (k := k) (fun _ => c) x n Hp Hq). Qed.
Lemma cst_mul_r c (x : T) n p q : (p < D)%nat -> (q < D)%nat -> (x * cst c) n p q == x n p q * c.
Proof. intros Hp Hq. exact (H0_mul_r (k := k) (fun _ => c) x n Hp Hq). Qed.

Lemma cst_central c (x : T) : cst c * x == x * cst c.
Proof. intros n Hn p q Hp Hq. rewrite cst_mul_l, cst_mul_r by assumption. apply cs_comm. Qed.

Lemma cst_Sel c : Sel (cst c) == cst c.
Proof. exact (Sel_H0 (k := k) blk keep cm keep_sym keep_refl keep_blk cm_blk (fun _ => c)). Qed.

Lemma cst_Sel_mul c (y : T) : Sel (cst c * y) == cst c * Sel y.
Proof.
  intros n Hn p q Hp Hq. rewrite Sel_entry. rewrite (cst_mul_l c (Sel y) n p q Hp Hq), Sel_entry.
  destruct (keep p q). apply cst_mul_l; assumption. non_commutative_ring.
Qed.

Lemma cst_adj c : conj c == c -> adj (cst c) == cst c.
Proof. intros Hc. apply (adj_H0 (k := k) blk keep cm keep_sym keep_blk cm_blk). intros _. exact Hc. Qed.

Lemma H0_plus_cst E c : SylvInst.H0 D k E + cst c == SylvInst.H0 D k (fun p => E p + c).
Proof.
  intros n Hn p q Hp Hq. rewrite add_entry. unfold cst, SylvInst.H0. destruct (is_zero n).
  - unfold mdiag. destruct (Nat.eqb p q). reflexivity. non_commutative_ring.
  - change (mzero D p q) with (0 : R0). non_commutative_ring.
Qed.

Lemma cst_times_H0 E s : cst s * SylvInst.H0 D k E == SylvInst.H0 D k (fun p => s * E p).
Proof.
  intros n Hn p q Hp Hq. rewrite cst_mul_l by assumption. unfold SylvInst.H0. destruct (is_zero n).
  - unfold mdiag. destruct (Nat.eqb p q). reflexivity. non_commutative_ring.
  - change (mzero D p q) with (0 : R0). non_commutative_ring.
Qed.

Variable E : nat -> R0.

Lemma Zc_shift (H H' : T) c : H' == H + cst c -> Zc H == SylvInst.H0 D k E ->
  Zc H' == SylvInst.H0 D k (fun p => E p + c).
Proof.
  intros Hin HZ. etransitivity. 2: apply H0_plus_cst.
  exact (Zc_of_sum _ _ _ _ _ Hin HZ (Zc_H0 (k := k) blk keep cm keep_sym keep_blk cm_blk (fun _ => c))).
Qed.
Lemma Zc_scale (H H' : T) s : H' == cst s * H -> Zc H == SylvInst.H0 D k E ->
  Zc H' == SylvInst.H0 D k (fun p => s * E p).
Proof.
  intros Hin HZ. etransitivity. 2: apply cst_times_H0.
  exact (Zc_of_prod _ _ _ _ _ Hin (Zc_H0 (k := k) blk keep cm keep_sym keep_blk cm_blk (fun _ => s)) HZ).
Qed.

Variable inv : R0 -> R0.
Hypothesis inv_spec : forall p q, (p < D)%nat -> (q < D)%nat -> keep p q = false ->
                                  (E p - E q) * inv (E p - E q) == 1.

Lemma shift_inv_spec c : Proper (_==_ ==> _==_) inv ->
  forall p q, (p < D)%nat -> (q < D)%nat -> keep p q = false ->
  ((E p + c) - (E q + c)) * inv ((E p + c) - (E q + c)) == 1.
Proof.
  intros inv_P p q Hp Hq K. assert (X : (E p + c) - (E q + c) == E p - E q) by non_commutative_ring.
  rewrite X. now apply inv_spec.
Qed.

Variable rflag rflag' : string -> T -> T.
Variable fenv fenv' : string -> list T -> T.
Hypothesis fenv_spec : forall y, fenv "solve_sylvester" (cons y nil) == SylvInst.sylv E inv y.
Variable sol sol' : string -> T.
Hypothesis H_zero : Zc (sol "H") == SylvInst.H0 D k E.

Section Hermitian.
Hypothesis E_real : forall p, conj (E p) == E p.
Hypothesis inv_P : Proper (_==_ ==> _==_) inv.
Hypothesis inv_opp : forall x, inv (- x) == - inv x.
Hypothesis inv_conj : forall x, conj (inv x) == inv (conj x).
Hypothesis rflag_spec : forall x, rflag "commuting_blocks" x == Rw x.
Hypothesis rflag_spec' : forall x, rflag' "commuting_blocks" x == Rw x.
Hypothesis Hsol : solution (gflag_of false) rflag fenv sol main_alg.
Hypothesis Hsol' : solution (gflag_of false) rflag' fenv' sol' main_alg.
Hypothesis H_herm : adj (sol "H") == sol "H".

Let W := inst_wiring D k blk keep cm keep_sym keep_refl keep_blk cm_blk keep_eucl
           E inv inv_spec E_real inv_P inv_opp inv_conj rflag fenv rflag_spec fenv_spec (sol "H") H_herm H_zero.

(** the energies become E + c, the same [inv] solves the Sylvester equation *)
Theorem shift_covariant c : conj c == c ->
  (forall y, fenv' "solve_sylvester" (cons y nil) == SylvInst.sylv (fun p => E p + c) inv y) ->
  sol' "H" == sol "H" + cst c ->
  sol' "U" == sol "U" /\ sol' "U†" == sol "U†" /\ sol' "H_tilde" == sol "H_tilde" + cst c.
Proof.
  intros c_real fenv_spec' Hin. pose proof (Zc_shift _ _ c Hin H_zero) as Z'.
  refine (shift_outputs rflag rflag' fenv fenv' sol sol' Hsol Hsol' W _ _ (cst c) (cst_central c) (cst_Sel c) Hin).
  - refine (inst_wiring D k blk keep cm keep_sym keep_refl keep_blk cm_blk keep_eucl
              (fun p => E p + c) inv (shift_inv_spec c inv_P) _ inv_P inv_opp inv_conj rflag' fenv' rflag_spec' fenv_spec' (sol' "H") _ Z').
    + intros p. rewrite conj_add, E_real, c_real. reflexivity.
    + exact (herm_of_sum _ _ _ Hin H_herm (cst_adj c c_real)).
  - exact (sylv_left_inst D k blk keep cm keep_sym keep_blk cm_blk (fun p => E p + c) inv (shift_inv_spec c inv_P)
             fenv' (sol' "H") fenv_spec' Z').
Qed.

(** the energies become s * E; [inv'] is any inverse of the scaled differences *)
Theorem hscale_covariant s inv' : conj s == s ->
  (forall p q, (p < D)%nat -> (q < D)%nat -> keep p q = false ->
               (s * E p - s * E q) * inv' (s * E p - s * E q) == 1) ->
  Proper (_==_ ==> _==_) inv' -> (forall x, inv' (- x) == - inv' x) -> (forall x, conj (inv' x) == inv' (conj x)) ->
  (forall y, fenv' "solve_sylvester" (cons y nil) == SylvInst.sylv (fun p => s * E p) inv' y) ->
  sol' "H" == cst s * sol "H" ->
  sol' "U" == sol "U" /\ sol' "U†" == sol "U†" /\ sol' "H_tilde" == cst s * sol "H_tilde".
Proof.
  intros s_real inv_spec' inv_P' inv_opp' inv_conj' fenv_spec' Hin. pose proof (Zc_scale _ _ s Hin H_zero) as Z'.
  refine (scale_outputs rflag rflag' fenv fenv' sol sol' Hsol Hsol' W _ _ (cst s) (cst_central s) (cst_Sel_mul s) Hin).
  - refine (inst_wiring D k blk keep cm keep_sym keep_refl keep_blk cm_blk keep_eucl
              (fun p => s * E p) inv' inv_spec' _ inv_P' inv_opp' inv_conj' rflag' fenv' rflag_spec' fenv_spec' (sol' "H") _ Z').
    + intros p. rewrite conj_mul, E_real, s_real. reflexivity.
    + exact (herm_of_prod _ _ _ Hin H_herm (cst_adj s s_real) (cst_central s)).
  - exact (sylv_left_inst D k blk keep cm keep_sym keep_blk cm_blk (fun p => s * E p) inv' inv_spec'
             fenv' (sol' "H") fenv_spec' Z').
Qed.
End Hermitian.

Section NonHermitian.
Hypothesis kept_equal : forall p q, (p < D)%nat -> (q < D)%nat -> keep p q = true -> E p == E q.
Variable gflag gflag' : string -> bool.
Hypothesis Hsol : solution gflag rflag fenv sol nonhermitian_alg.
Hypothesis Hsol' : solution gflag' rflag' fenv' sol' nonhermitian_alg.

Let W := inst_nh_wiring D k blk keep cm keep_sym keep_refl keep_blk cm_blk E inv inv_spec kept_equal
           fenv fenv_spec (sol "H") H_zero.

Theorem shift_nh c : Proper (_==_ ==> _==_) inv ->
  (forall y, fenv' "solve_sylvester" (cons y nil) == SylvInst.sylv (fun p => E p + c) inv y) ->
  sol' "H" == sol "H" + cst c ->
  sol' "U" == sol "U" /\ sol' "U†" == sol "U†" /\ sol' "H_tilde" == sol "H_tilde" + cst c.
Proof.
  intros inv_P fenv_spec' Hin.
  refine (nh_shift_outputs rflag rflag' fenv fenv' sol sol' gflag gflag' Hsol Hsol' W _ (cst c) (cst_central c) (cst_Sel c) Hin).
  refine (inst_nh_wiring D k blk keep cm keep_sym keep_refl keep_blk cm_blk (fun p => E p + c) inv (shift_inv_spec c inv_P) _
            fenv' fenv_spec' (sol' "H") (Zc_shift _ _ c Hin H_zero)).
  intros p q Hp Hq K. rewrite (kept_equal p q Hp Hq K). reflexivity.
Qed.

Theorem hscale_nh s inv' :
  (forall p q, (p < D)%nat -> (q < D)%nat -> keep p q = false ->
               (s * E p - s * E q) * inv' (s * E p - s * E q) == 1) ->
  (forall y, fenv' "solve_sylvester" (cons y nil) == SylvInst.sylv (fun p => s * E p) inv' y) ->
  sol' "H" == cst s * sol "H" ->
  sol' "U" == sol "U" /\ sol' "U†" == sol "U†" /\ sol' "H_tilde" == cst s * sol "H_tilde".
Proof.
  intros inv_spec' fenv_spec' Hin.
  refine (nh_scale_outputs rflag rflag' fenv fenv' sol sol' gflag gflag' Hsol Hsol' W _ (cst s) (cst_central s) (cst_Sel_mul s) Hin).
  refine (inst_nh_wiring D k blk keep cm keep_sym keep_refl keep_blk cm_blk (fun p => s * E p) inv' inv_spec' _
            fenv' fenv_spec' (sol' "H") (Zc_scale _ _ s Hin H_zero)).
  intros p q Hp Hq K. rewrite (kept_equal p q Hp Hq K). reflexivity.
Qed.
End NonHermitian.
End Concrete.

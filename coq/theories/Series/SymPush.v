(** C13, push-forward of series along a morphism  pr : N^k' -> N^k  of the order monoids with
    finite fibres:  (push x) n := sum over the fibre of n of x a.  It is an [LAHom] from the
    algebra with k' parameters to the algebra with k parameters (the Cauchy product is
    preserved because the pairs (a, b) with pr (a + b) = n can be enumerated fibre-first or
    splitting-first, Series/SymIdx.v), commutes with the order-zero coefficient and fixes H_0.
    Instances: [mrg] (two perturbations given the same parameter: the result at order m is the
    sum of the two-parameter results over n1 + n2 = m) and [pw p] (lambda -> lambda^p). *)
Require Import Ncring_tac List.
From PV.Base Require Import Classes BigSum.
From PV.Series Require Import MultiIndex Inst SylvInst SymIdx.
From PV.Block Require Import Mat.
From PV.Alg Require Import Equivariance MainInst.
Open Scope string_scope.

Section Push.
Variables D k k' : nat.
Context {R0 : Type} `{Rg : Ring R0} {CS : CStar R0}.
Variable blk : nat -> nat.
Variable keep : nat -> nat -> bool.
Variable cm : nat -> bool.
Hypothesis keep_sym : forall p q, keep p q = keep q p.
Hypothesis keep_blk : forall p q, keep p q = true -> blk p = blk q.
Hypothesis cm_blk : forall p q, blk p = blk q -> cm p = cm q.
Local Notation Ts := (T D k' R0).
Local Notation Tt := (T D k R0).
Local Notation BAs := (series_BlockAlg D k' blk keep cm keep_sym keep_blk cm_blk).
Local Notation BAt := (series_BlockAlg D k blk keep cm keep_sym keep_blk cm_blk).

Variable pr : mi -> mi.
Variable fib : mi -> list mi.
Hypothesis fib_spec : forall n a, List.length n = k -> (In a (fib n) <-> List.length a = k' /\ pr a = n).
Hypothesis fib_nodup : forall n, List.length n = k -> NoDup (fib n).
Hypothesis pr_len : forall a, List.length a = k' -> List.length (pr a) = k.
Hypothesis pr_padd : forall a b, List.length a = k' -> List.length b = k' -> pr (padd a b) = padd (pr a) (pr b).
Hypothesis pr_zero : pr (MultiIndex.mzero k') = MultiIndex.mzero k.
Hypothesis pr_deg : forall a, List.length a = k' -> (deg a <= deg (pr a))%nat.

Definition push (x : Ts) : Tt := fun n p q => bigsum (fun a => x a p q) (fib n).

Lemma fib_len n a : List.length n = k -> In a (fib n) -> List.length a = k'.
Proof. intros L I. apply (fib_spec n a L) in I. tauto. Qed.

Lemma push_P : Proper (_==_ ==> _==_) push.
Proof.
  intros x y H n Hn p q Hp Hq. unfold push. apply bigsum_ext. intros a I.
  apply H; auto. exact (fib_len n a Hn I).
Qed.

(** sums over a fibre: over the zero order only the zero order contributes *)
Lemma push_zero_fibre (F : mi -> R0) n : List.length n = k -> is_zero n = true ->
  bigsum F (fib n) == F (MultiIndex.mzero k').
Proof.
  intros Hn Z. apply is_zero_mzero in Z. rewrite Hn in Z. subst n.
  apply bigsum_single. apply fib_nodup. apply mzero_length.
  - exact (fib_zero_in k k' pr fib fib_spec pr_zero).
  - intros a I Ne. elim Ne. exact (fib_zero_only k k' pr fib fib_spec pr_zero pr_deg a I).
Qed.

Lemma push_mul (x y : Ts) : push (x * y) == push x * push y.
Proof.
  intros n Hn p q Hp Hq. rewrite (mul_entry (Rg := Rg) (push x) (push y)). unfold push at 1.
  pose (G := fun ab : mi * mi => bigsum (fun r => x (fst ab) p r * y (snd ab) r q) (range D)).
  transitivity (bigsum G (pairs1 fib n)).
  - unfold pairs1. rewrite bigsum_flat_map. apply bigsum_ext. intros c _.
    rewrite (mul_entry (Rg := Rg)). reflexivity.
  - rewrite (bigsum_perm G (pairs_perm k k' pr fib fib_spec fib_nodup pr_len pr_padd n Hn)).
    unfold pairs2. rewrite bigsum_flat_map. apply bigsum_ext. intros (n1, n2) _. cbn [fst snd].
    unfold prodl. rewrite bigsum_flat_map.
    transitivity (bigsum (fun a => bigsum (fun b => G (a, b)) (fib n2)) (fib n1)).
    { apply bigsum_ext. intros a _. rewrite bigsum_map. reflexivity. }
    unfold G. cbn [fst snd]. unfold push.
    transitivity (bigsum (fun r => bigsum (fun a => bigsum (fun b => x a p r * y b r q) (fib n2)) (fib n1)) (range D)).
    { symmetry.
      etransitivity. apply (bigsum_exchange (fun r a => bigsum (fun b => x a p r * y b r q) (fib n2)) (range D) (fib n1)).
      apply bigsum_ext. intros a _.
      apply (bigsum_exchange (fun r b => x a p r * y b r q) (range D) (fib n2)). }
    apply bigsum_ext. intros r _. rewrite bigsum_mul_r. apply bigsum_ext. intros a _.
    rewrite bigsum_mul_l. reflexivity.
Qed.

Lemma push_LAHom : LAHom (BA := BAs) (BA' := BAt) push.
Proof.
  apply mkLAHom.
  - exact push_P.
  - intros x y n Hn p q Hp Hq. rewrite add_entry. unfold push. rewrite <- bigsum_add.
    apply bigsum_ext. intros a _. reflexivity.
  - intros x n Hn p q Hp Hq. rewrite opp_entry. unfold push. rewrite <- bigsum_opp.
    apply bigsum_ext. intros a _. reflexivity.
  - intros n Hn p q Hp Hq. unfold push. rewrite (one_entry D k). destruct (is_zero n) eqn:Z.
    + rewrite (push_zero_fibre (fun a => (1 : Ts) a p q) n Hn Z), one_entry, is_zero_mzero_k. reflexivity.
    + apply bigsum_zero. intros a I. rewrite one_entry.
      rewrite (fib_is_zero k k' pr fib fib_spec pr_zero pr_deg n a Hn I), Z. reflexivity.
  - exact push_mul.
  - intros x n Hn p q Hp Hq.
    change (bigsum (fun a => if keep p q then x a p q else 0) (fib n) == if keep p q then push x n p q else 0).
    destruct (keep p q). reflexivity. apply bigsum_const0.
  - intros m x Hx. apply (ord_iff (k := k) blk keep cm keep_sym keep_blk cm_blk).
    intros n p q Hn Hd Hp Hq. unfold push. apply bigsum_zero. intros a I.
    apply (proj1 (ord_iff (k := k') blk keep cm keep_sym keep_blk cm_blk m x) Hx a p q); auto.
    + exact (fib_len n a Hn I).
    + eapply Nat.le_lt_trans. 2: exact Hd. exact (fib_deg k k' pr fib fib_spec pr_deg n a Hn I).
  - intros x n Hn p q Hp Hq.
    change (bigsum (fun a => conj (x a q p)) (fib n) == conj (push x n q p)).
    symmetry. exact (bigsum_morph conj _ _ conj_zero conj_add).
Qed.

Lemma push_Zc (x : Ts) : push (Zc (BlockAlg := BAs) x) == Zc (BlockAlg := BAt) (push x).
Proof.
  intros n Hn p q Hp Hq.
  change (bigsum (fun a => (if is_zero a then x a else 0) p q) (fib n) == (if is_zero n then push x n else 0) p q).
  destruct (is_zero n) eqn:Z.
  - apply bigsum_ext. intros a I. rewrite (fib_is_zero k k' pr fib fib_spec pr_zero pr_deg n a Hn I), Z. reflexivity.
  - apply bigsum_zero. intros a I. rewrite (fib_is_zero k k' pr fib fib_spec pr_zero pr_deg n a Hn I), Z. reflexivity.
Qed.

Lemma push_H0 E : push (SylvInst.H0 D k' E) == SylvInst.H0 D k E.
Proof.
  intros n Hn p q Hp Hq. unfold push. destruct (is_zero n) eqn:Z.
  - rewrite (push_zero_fibre (fun a => SylvInst.H0 D k' E a p q) n Hn Z).
    unfold SylvInst.H0. rewrite is_zero_mzero_k, Z. reflexivity.
  - transitivity (0 : R0).
    + apply bigsum_zero. intros a I. unfold SylvInst.H0.
      rewrite (fib_is_zero k k' pr fib fib_spec pr_zero pr_deg n a Hn I), Z. reflexivity.
    + unfold SylvInst.H0. rewrite Z. reflexivity.
Qed.

End Push.

(** * the two instances of C13 *)
Section Instances.
Variables D k : nat.
Context {R0 : Type} `{Rg : Ring R0} {CS : CStar R0}.
Variable blk : nat -> nat.
Variable keep : nat -> nat -> bool.
Variable cm : nat -> bool.
Hypothesis keep_sym : forall p q, keep p q = keep q p.
Hypothesis keep_blk : forall p q, keep p q = true -> blk p = blk q.
Hypothesis cm_blk : forall p q, blk p = blk q -> cm p = cm q.
Local Notation BAk j := (series_BlockAlg D j blk keep cm keep_sym keep_blk cm_blk).

(** two perturbations given the same parameter *)
Lemma mrg_LAHom : LAHom (BA := BAk (S (S k))) (BA' := BAk (S k)) (push D (S k) (S (S k)) mrg_fib).
Proof.
  exact (push_LAHom D (S k) (S (S k)) blk keep cm keep_sym keep_blk cm_blk mrg mrg_fib
           (fun n a L => mrg_fib_spec k n a L) (fun n _ => mrg_fib_nodup n) (mrg_len k) (mrg_padd k) (mrg_zero k) (mrg_deg k)).
Qed.
Lemma mrg_Zc x : push D (S k) (S (S k)) mrg_fib (Zc (BlockAlg := BAk (S (S k))) x)
                 == Zc (BlockAlg := BAk (S k)) (push D (S k) (S (S k)) mrg_fib x).
Proof.
  exact (push_Zc D (S k) (S (S k)) blk keep cm keep_sym keep_blk cm_blk mrg mrg_fib
           (fun n a L => mrg_fib_spec k n a L) (mrg_zero k) (mrg_deg k) x).
Qed.
Lemma mrg_H0 E : push D (S k) (S (S k)) mrg_fib (SylvInst.H0 D (S (S k)) E) == SylvInst.H0 D (S k) E.
Proof.
  exact (push_H0 D (S k) (S (S k)) mrg mrg_fib (fun n a L => mrg_fib_spec k n a L) (fun n _ => mrg_fib_nodup n)
           (mrg_zero k) (mrg_deg k) E).
Qed.

(** lambda -> lambda^p, p >= 1 *)
Variable p : nat.
Hypothesis p_pos : (0 < p)%nat.
Lemma pw_LAHom : LAHom (BA := BAk k) (BA' := BAk k) (push D k k (pw_fib p)).
Proof.
  exact (push_LAHom D k k blk keep cm keep_sym keep_blk cm_blk (pw p) (pw_fib p)
           (fun n a L => pw_fib_spec p p_pos k n a L) (fun n _ => pw_fib_nodup p n) (pw_len p k)
           (fun a b La Lb => pw_padd p p_pos a b (eq_trans La (eq_sym Lb))) (pw_zero p p_pos k) (fun a _ => pw_deg p p_pos a)).
Qed.
Lemma pw_Zc x : push D k k (pw_fib p) (Zc (BlockAlg := BAk k) x) == Zc (BlockAlg := BAk k) (push D k k (pw_fib p) x).
Proof.
  exact (push_Zc D k k blk keep cm keep_sym keep_blk cm_blk (pw p) (pw_fib p)
           (fun n a L => pw_fib_spec p p_pos k n a L) (pw_zero p p_pos k) (fun a _ => pw_deg p p_pos a) x).
Qed.
Lemma pw_H0 E : push D k k (pw_fib p) (SylvInst.H0 D k E) == SylvInst.H0 D k E.
Proof.
  exact (push_H0 D k k (pw p) (pw_fib p) (fun n a L => pw_fib_spec p p_pos k n a L) (fun n _ => pw_fib_nodup p n)
           (pw_zero p p_pos k) (fun a _ => pw_deg p p_pos a) E).
Qed.
End Instances.

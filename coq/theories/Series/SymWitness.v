(** Computational confirmation of the covariance theorems on the witness of Alg/MainWitness.v
    (4 states, blocks {0} | {1,2} | {3}, two parameters, complex Hermitian perturbations, total
    order <= 2, the values computed by the implementation): the conjugated / rescaled /
    parameter-swapped tables of ALL series again satisfy every equation of [main_alg] - as the
    theorems of Props/C13.v and Props/C15.v predict, they are the solution for the transformed
    input. *)
Require Import List QArith String.
From PV.Series Require Import MultiIndex Exec SymScale.
From PV.Block Require Import QLemmas.
From PV.Gen Require Import Algorithms_gen.
From PV.Alg Require Import SemExec MainWitness.
Import ListNotations.
Open Scope string_scope.

Definition tmap (f : mi -> gq -> gq) (t : tser gq) : tser gq :=
  map (fun nm => (fst nm, map (map (f (fst nm))) (snd nm))) t.
Definition smap (f : mi -> gq -> gq) (s : list (string * tser gq)) : list (string * tser gq) :=
  map (fun st => (fst st, tmap f (snd st))) s.
Definition tkey (g : mi -> mi) (t : tser gq) : tser gq := map (fun nm => (g (fst nm), snd nm)) t.
Definition skey (g : mi -> mi) (s : list (string * tser gq)) : list (string * tser gq) :=
  map (fun st => (fst st, tkey g (snd st))) s.

Definition wit_check (s : list (string * tser gq)) : bool :=
  check_alg 4 2 2 [0;1;1;2]%nat
    [[true;false;false;false];[false;true;true;false];[false;true;true;false];[false;false;false;true]]
    [true;true;true] [((0#1),(0#1));((2#1),(0#1));((2#1),(0#1));((5#1),(0#1))]%Q false s main_alg.

Example wit_base : wit_check main_wit_sols = true.
Proof. vm_compute. reflexivity. Qed.

(** C15 conjugation *)
Example wit_conj : wit_check (smap (fun _ => gq_conj) main_wit_sols) = true.
Proof. vm_compute. reflexivity. Qed.

(** C13 scale with c = (2, -1/2) *)
Definition wit_c : list gq := [((2#1),(0#1)); ((-1#2),(0#1))]%Q.
Example wit_scale : wit_check (smap (fun n z => gq_mul (cpow wit_c n) z) main_wit_sols) = true.
Proof. vm_compute. reflexivity. Qed.

(** C13 permute: the two parameters exchanged *)
Example wit_swap : wit_check (skey (fun n => match n with [a; b] => [b; a] | _ => n end) main_wit_sols) = true.
Proof. vm_compute. reflexivity. Qed.

(** the conjugated table of U differs from the original one (the conjugation check is not vacuous) *)
Example wit_changed :
  negb (teqb 4 2 2 (tsol (smap (fun _ => gq_conj) main_wit_sols) "U") (tsol main_wit_sols "U")) = true.
Proof. vm_compute. reflexivity. Qed.

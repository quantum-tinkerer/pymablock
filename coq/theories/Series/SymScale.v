(** C13, scaling of the perturbation parameters: for central real scalars c_1 .. c_k the map
    (phi x) n := (prod_i c_i^(n_i)) * x n  is an [LAHom] of the concrete algebra to itself
    that fixes H_0.  Hence multiplying perturbation i by c_i multiplies H_tilde, U, U† at
    multi-order n by prod_i c_i^(n_i). *)
Require Import Ncring_tac List.
From PV.Base Require Import Classes BigSum.
From PV.Series Require Import MultiIndex Inst SylvInst.
From PV.Block Require Import Mat.
From PV.Alg Require Import Equivariance MainInst.
Open Scope string_scope.

Section Pow.
Context {R0 : Type} `{Rg : Ring R0} {CS : CStar R0}.

Fixpoint rpow (c : R0) (m : nat) : R0 :=
  match m with O => 1 | S m' => c * rpow c m' end.

(** prod_i c_i^(n_i) *)
Fixpoint cpow (c : list R0) (n : mi) : R0 :=
  match c, n with
  | cons c0 c', cons n0 n' => rpow c0 n0 * cpow c' n'
  | _, _ => 1
  end.

Lemma rpow_add c a b : rpow c (Nat.add a b) == rpow c a * rpow c b.
Proof.
  induction a as [|a IH]; cbn [Nat.add rpow]. non_commutative_ring.
  rewrite IH. non_commutative_ring.
Qed.

Lemma comm4 (a b x y : R0) : (a * b) * (x * y) == (a * x) * (b * y).
Proof.
  transitivity (a * (b * x) * y). non_commutative_ring.
  rewrite (cs_comm b x). non_commutative_ring.
Qed.

Lemma cpow_padd c a b :
  List.length a = List.length b -> cpow c (padd a b) == cpow c a * cpow c b.
Proof.
  revert a b. induction c as [|c0 c IH]; intros a b L.
  - destruct (padd a b), a, b; cbn [cpow]; non_commutative_ring.
  - destruct a as [|x a], b as [|y b]; try discriminate L; cbn [padd cpow].
    + non_commutative_ring.
    + rewrite rpow_add, IH by (injection L; auto). apply comm4.
Qed.

Lemma cpow_zero c n : is_zero n = true -> cpow c n == 1.
Proof.
  revert n. induction c as [|c0 c IH]; intros [|d n] Z; cbn [cpow]; try reflexivity.
  rewrite is_zero_cons in Z. apply andb_prop in Z. destruct Z as [Z1 Z2].
  apply Nat.eqb_eq in Z1. subst d. cbn [rpow]. rewrite (IH n Z2). non_commutative_ring.
Qed.

Lemma rpow_real c m : conj c == c -> conj (rpow c m) == rpow c m.
Proof.
  intros Hc. induction m as [|m IH]; cbn [rpow]. apply conj_one.
  rewrite conj_mul, Hc, IH. reflexivity.
Qed.

Lemma cpow_real c n : Forall (fun x => conj x == x) c -> conj (cpow c n) == cpow c n.
Proof.
  intros Hc. revert n. induction Hc as [|c0 c H0 Hc IH]; intros n.
  - destruct n; cbn [cpow]; apply conj_one.
  - destruct n as [|d n]; cbn [cpow]. apply conj_one.
    rewrite conj_mul, (rpow_real c0 d H0), IH. reflexivity.
Qed.
End Pow.

Section Scale.
Variables D k : nat.
Context {R0 : Type} `{Rg : Ring R0} {CS : CStar R0}.
Variable blk : nat -> nat.
Variable keep : nat -> nat -> bool.
Variable cm : nat -> bool.
Hypothesis keep_sym : forall p q, keep p q = keep q p.
Hypothesis keep_blk : forall p q, keep p q = true -> blk p = blk q.
Hypothesis cm_blk : forall p q, blk p = blk q -> cm p = cm q.
Local Notation T := (T D k R0).
Local Notation BA := (series_BlockAlg D k blk keep cm keep_sym keep_blk cm_blk).
Local Hint Extern 0 (BlockAlg _) => exact BA : typeclass_instances.

Variable c : list R0.

Definition pscale (x : T) : T := fun n p q => cpow c n * x n p q.

Lemma pscale_P : Proper (_==_ ==> _==_) pscale.
Proof. intros x y H n Hn p q Hp Hq. unfold pscale. rewrite (H n Hn p q Hp Hq). reflexivity. Qed.

Lemma pscale_mul (x y : T) : pscale (x * y) == pscale x * pscale y.
Proof.
  intros n Hn p q Hp Hq. unfold pscale at 1. rewrite !(mul_entry (Rg := Rg)).
  rewrite bigsum_mul_l. apply bigsum_ext. intros (a, b) I. cbn [fst snd].
  rewrite bigsum_mul_l. apply bigsum_ext. intros r _. unfold pscale.
  apply in_splits in I. destruct I as (La & Lb & P).
  rewrite <- P at 1. rewrite cpow_padd by congruence. apply comm4.
Qed.

(** the scalars may be complex here; the adjoint is preserved when they are real *)
Lemma pscale_SGHom : SGHom (BA := BA) (BA' := BA) pscale.
Proof.
  apply mkSGHom.
  - exact pscale_P.
  - intros x y n Hn p q Hp Hq. unfold pscale. rewrite !add_entry. unfold pscale. non_commutative_ring.
  - intros x n Hn p q Hp Hq. unfold pscale. rewrite !opp_entry. unfold pscale. non_commutative_ring.
  - intros n Hn p q Hp Hq. unfold pscale. rewrite one_entry.
    destruct (is_zero n) eqn:Z.
    + rewrite (cpow_zero c n Z). non_commutative_ring.
    + non_commutative_ring.
  - exact pscale_mul.
  - intros x n Hn p q Hp Hq. unfold pscale. rewrite !Sel_entry. unfold pscale.
    destruct (keep p q). reflexivity. non_commutative_ring.
  - intros m x Hx. apply ord_iff. intros n p q Hn Hd Hp Hq. unfold pscale.
    rewrite (proj1 (ord_iff blk keep cm keep_sym keep_blk cm_blk m x) Hx n p q Hn Hd Hp Hq).
    non_commutative_ring.
Qed.

Lemma pscale_LAHom : Forall (fun x => conj x == x) c -> LAHom (BA := BA) (BA' := BA) pscale.
Proof.
  intros c_real. apply (SGHom_LAHom _ pscale_SGHom).
  intros x n Hn p q Hp Hq. unfold pscale. rewrite !adj_entry. unfold pscale.
  rewrite conj_mul, (cpow_real c n c_real). reflexivity.
Qed.

Lemma pscale_Zc (x : T) : pscale (Zc x) == Zc (pscale x).
Proof.
  intros n Hn p q Hp Hq. unfold pscale at 1. rewrite !Zc_entry. unfold pscale.
  destruct (is_zero n). reflexivity. non_commutative_ring.
Qed.

Lemma pscale_H0 E : pscale (SylvInst.H0 D k E) == SylvInst.H0 D k E.
Proof.
  intros n Hn p q Hp Hq. unfold pscale, SylvInst.H0. destruct (is_zero n) eqn:Z.
  - rewrite (cpow_zero c n Z). non_commutative_ring.
  - change (mzero D p q) with (0 : R0). non_commutative_ring.
Qed.
End Scale.

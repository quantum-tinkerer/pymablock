(** Wiring facts of block_diagonalize in the concrete [BlockAlg] of Series/Inst.v:

    - [comm_sound_l], [comm_sound_r]: on the rows flagged commuting_blocks, a product of an
      eliminated part and a kept part has no kept part - provided the kept mask is
      "euclidean" on those rows ([keep_eucl_on], Block/Masks.v, with the three wirings
      under which it holds: [keep_eucl_blocks], [keep_eucl_equiv], [keep_eucl_flagged]);
    - the parity laws of the block-triangular parts when there are exactly two blocks. *)
Require Import Ncring_tac.
From PV.Base Require Import Classes BigSum AlgLemmas.
From PV.Series Require Import MultiIndex Cauchy Inst.
From PV.Block Require Import Mat Masks.
Set Implicit Arguments.

Section Wiring.
Variables D k : nat.
Context {R0 : Type} `{Rg : Ring R0} {CS : CStar R0}.
Variable blk : nat -> nat.
Variable keep : nat -> nat -> bool.
Variable cm : nat -> bool.
Hypothesis keep_sym : forall p q, keep p q = keep q p.
Hypothesis keep_blk : forall p q, keep p q = true -> blk p = blk q.
Hypothesis cm_blk : forall p q, blk p = blk q -> cm p = cm q.

Local Notation T := (T D k R0).
(* typeclass resolution produces the literal instance term of Series/Inst.v *)
Local Hint Extern 0 (BlockAlg _) =>
  exact (series_BlockAlg D k blk keep cm keep_sym keep_blk cm_blk) : typeclass_instances.

Section CommSound.
Hypothesis keep_eucl : keep_eucl_on D keep cm.

Lemma comm_sound_l (x y : T) : Rw (Sel (Rp x * Sel y)) == 0.
Proof.
  intros n Hn p q Hp Hq. rewrite Rw_entry, Sel_entry.
  destruct (cm p) eqn:C; [|reflexivity]. destruct (keep p q) eqn:K; [|reflexivity].
  rewrite (mul_entry (Rg := Rg)). apply bigsum_zero. intros (a, b) _. apply bigsum_zero.
  intros r Hr. apply in_range in Hr. cbn [fst snd].
  unfold Rp. rewrite sub_entry, !Sel_entry.
  destruct (keep r q) eqn:K2; [|non_commutative_ring].
  rewrite (keep_eucl Hp Hq Hr C K K2). non_commutative_ring.
Qed.

Lemma comm_sound_r (x y : T) : Rw (Sel (Sel y * Rp x)) == 0.
Proof.
  intros n Hn p q Hp Hq. rewrite Rw_entry, Sel_entry.
  destruct (cm p) eqn:C; [|reflexivity]. destruct (keep p q) eqn:K; [|reflexivity].
  rewrite (mul_entry (Rg := Rg)). apply bigsum_zero. intros (a, b) _. apply bigsum_zero.
  intros r Hr. apply in_range in Hr. cbn [fst snd].
  unfold Rp. rewrite sub_entry, !Sel_entry.
  destruct (keep p r) eqn:K2; [|non_commutative_ring].
  assert (K3 : keep r q = true).
  { apply (keep_eucl (p := r) (q := p) (r := q)); auto.
    - rewrite <- C. symmetry. apply cm_blk. now apply keep_blk.
    - now rewrite keep_sym.
    - now rewrite keep_sym. }
  rewrite K3. non_commutative_ring.
Qed.
End CommSound.

Local Notation eqT := (seq_eq (k := k) (R := mat D R0)).
Local Notation cv := (conv (k := k) (R := mat D R0)).
Local Notation lf m := (lift (k := k) (mmask (D := D) m)).

Lemma mask_prod_closed m1 m2 m3 (x y : T) :
  (forall i r j, (i < D)%nat -> (r < D)%nat -> (j < D)%nat -> m1 i r = true -> m2 r j = true -> m3 i j = true) ->
  eqT (lf m3 (cv (lf m1 x) (lf m2 y))) (cv (lf m1 x) (lf m2 y)).
Proof.
  intros H. apply (lift_conv_closed (mmask (D := D) m3)). intros a b _ _. unfold lift.
  now apply (mmask_mul_closed (Rg := Rg)).
Qed.

Lemma Dg_Dg_closed (x y : T) : Dg (Dg x * Dg y) == Dg x * Dg y.
Proof. apply (mask_prod_closed (dgm blk) (dgm blk) (dgm blk)). intros i r j _ _ _. apply dgm_dgm. Qed.
Lemma Up_Dg_Up (x y : T) : Up (Dg x * Up y) == Dg x * Up y.
Proof. apply (mask_prod_closed (dgm blk) (upm blk) (upm blk)). intros i r j _ _ _. apply dgm_upm. Qed.
Lemma Up_Up_Dg (x y : T) : Up (Up x * Dg y) == Up x * Dg y.
Proof. apply (mask_prod_closed (upm blk) (dgm blk) (upm blk)). intros i r j _ _ _. apply upm_dgm. Qed.
Lemma Lo_Dg_Lo (x y : T) : Lo (Dg x * Lo y) == Dg x * Lo y.
Proof. apply (mask_prod_closed (dgm blk) (lom blk) (lom blk)). intros i r j _ _ _. apply dgm_lom. Qed.
Lemma Lo_Lo_Dg (x y : T) : Lo (Lo x * Dg y) == Lo x * Dg y.
Proof. apply (mask_prod_closed (lom blk) (dgm blk) (lom blk)). intros i r j _ _ _. apply lom_dgm. Qed.

Section TwoBlocks.
Hypothesis two_blocks : forall p, (p < D)%nat -> (blk p < 2)%nat.

Lemma mask_prod_zero m1 m2 (x y : T) :
  (forall i r j, (i < D)%nat -> (r < D)%nat -> (j < D)%nat -> m1 i r = true -> m2 r j = true -> False) ->
  eqT (cv (lf m1 x) (lf m2 y)) (szero k).
Proof.
  intros H. apply (conv_zero_terms (Rg := mat_Ring D)). intros a b _ _. unfold lift.
  now apply (mmask_mul_zero (Rg := Rg)).
Qed.

Lemma Up_Up_zero (x y : T) : Up x * Up y == 0.
Proof. apply (mask_prod_zero (upm blk) (upm blk)). intros i r j. now apply upm_upm2. Qed.
Lemma Lo_Lo_zero (x y : T) : Lo x * Lo y == 0.
Proof. apply (mask_prod_zero (lom blk) (lom blk)). intros i r j. now apply lom_lom2. Qed.
Lemma Dg_Up_Lo (x y : T) : Dg (Up x * Lo y) == Up x * Lo y.
Proof. apply (mask_prod_closed (upm blk) (lom blk) (dgm blk)). intros i r j. now apply upm_lom2. Qed.
Lemma Dg_Lo_Up (x y : T) : Dg (Lo x * Up y) == Lo x * Up y.
Proof. apply (mask_prod_closed (lom blk) (upm blk) (dgm blk)). intros i r j. now apply lom_upm2. Qed.
End TwoBlocks.

End Wiring.

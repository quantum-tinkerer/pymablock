(** C15, permutation of the basis states and relabelling of the blocks.

    For a bijection [pi] of {0..D-1} the map (phi x) n p q := x n (pi p) (pi q) is an [LAHom]
    from the concrete algebra (blk, keep, cm) to the algebra (blk', keep o (pi, pi), cm') for
    ANY block labelling blk' and row flag cm' compatible with the transported kept mask: the
    defining conditions of the least-action transformation do not mention the block order
    (Up / Lo are NOT preserved when the blocks are reordered - that is why [LAHom], not
    [BAHom], is the right notion).  Special cases: blk' = blk o pi (the same blocks seen in the
    permuted basis) and pi = id with blk' = sigma o blk (pure relabelling of the blocks). *)
Require Import Ncring_tac.
From PV.Base Require Import Classes BigSum.
From PV.Series Require Import MultiIndex Inst SylvInst SymIdx.
From PV.Block Require Import Mat Masks.
From PV.Alg Require Import Equivariance MainInst.
Open Scope string_scope.

Section Perm.
Variables D k : nat.
Context {R0 : Type} `{Rg : Ring R0} {CS : CStar R0}.
Variable blk : nat -> nat.
Variable keep : nat -> nat -> bool.
Variable cm : nat -> bool.
Hypothesis keep_sym : forall p q, keep p q = keep q p.
Hypothesis keep_refl : forall p, keep p p = true.
Hypothesis keep_blk : forall p q, keep p q = true -> blk p = blk q.
Hypothesis cm_blk : forall p q, blk p = blk q -> cm p = cm q.

Variables pi pinv : nat -> nat.
Hypothesis pi_lt : forall p, (p < D)%nat -> (pi p < D)%nat.
Hypothesis pinv_lt : forall p, (p < D)%nat -> (pinv p < D)%nat.
Hypothesis pinv_pi : forall p, (p < D)%nat -> pinv (pi p) = p.
Hypothesis pi_pinv : forall p, (p < D)%nat -> pi (pinv p) = p.

(* the target structure: transported kept mask, arbitrary compatible block labels *)
Definition keep_pi (p q : nat) : bool := keep (pi p) (pi q).
Variable blk' : nat -> nat.
Variable cm' : nat -> bool.
Hypothesis keep_blk' : forall p q, keep_pi p q = true -> blk' p = blk' q.
Hypothesis cm_blk' : forall p q, blk' p = blk' q -> cm' p = cm' q.

Lemma keep_pi_sym p q : keep_pi p q = keep_pi q p.
Proof. apply keep_sym. Qed.
Lemma keep_pi_refl p : keep_pi p p = true.
Proof. apply keep_refl. Qed.

Local Notation T := (T D k R0).
Local Notation BAs := (series_BlockAlg D k blk keep cm keep_sym keep_blk cm_blk).
Local Notation BAt := (series_BlockAlg D k blk' keep_pi cm' keep_pi_sym keep_blk' cm_blk').

Definition sperm (x : T) : T := fun n p q => x n (pi p) (pi q).

Lemma sperm_P : Proper (_==_ ==> _==_) sperm.
Proof. intros x y H n Hn p q Hp Hq. unfold sperm. apply H; auto. Qed.

Lemma sum_pi (F : nat -> R0) : bigsum (fun r => F (pi r)) (range D) == bigsum F (range D).
Proof.
  rewrite <- (bigsum_map F pi). apply bigsum_perm.
  exact (perm_range D pi pinv pi_lt pinv_lt pinv_pi pi_pinv).
Qed.

Lemma sperm_mul (x y : T) : sperm (x * y) == sperm x * sperm y.
Proof.
  intros n Hn p q Hp Hq. unfold sperm at 1. rewrite !(mul_entry (Rg := Rg)).
  apply bigsum_ext. intros ab _. unfold sperm.
  symmetry. exact (sum_pi (fun r => x (fst ab) (pi p) r * y (snd ab) r (pi q))).
Qed.

Lemma sperm_LAHom : LAHom (BA := BAs) (BA' := BAt) sperm.
Proof.
  apply mkLAHom.
  - exact sperm_P.
  - intros x y n Hn p q Hp Hq. reflexivity.
  - intros x n Hn p q Hp Hq. reflexivity.
  - intros n Hn p q Hp Hq. unfold sperm. rewrite !one_entry.
    rewrite (pi_eqb D pi pinv pinv_pi p q Hp Hq). reflexivity.
  - exact sperm_mul.
  - intros x n Hn p q Hp Hq. reflexivity.
  - intros m x Hx. apply ord_iff. intros n p q Hn Hd Hp Hq. unfold sperm.
    apply (proj1 (ord_iff blk keep cm keep_sym keep_blk cm_blk m x) Hx n (pi p) (pi q) Hn Hd); auto.
  - intros x n Hn p q Hp Hq. reflexivity.
Qed.

Lemma sperm_Zc (x : T) :
  sperm (Zc (BlockAlg := BAs) x) == Zc (BlockAlg := BAt) (sperm x).
Proof.
  intros n Hn p q Hp Hq.
  change ((if is_zero n then x n else 0) (pi p) (pi q) == (if is_zero n then sperm x n else 0) p q).
  destruct (is_zero n); reflexivity.
Qed.

Variable E : nat -> R0.
Definition E_pi (p : nat) : R0 := E (pi p).

Lemma sperm_H0 : sperm (SylvInst.H0 D k E) == SylvInst.H0 D k E_pi.
Proof.
  intros n Hn p q Hp Hq. unfold sperm, SylvInst.H0. destruct (is_zero n); [|reflexivity].
  unfold mdiag, E_pi. rewrite (pi_eqb D pi pinv pinv_pi p q Hp Hq). reflexivity.
Qed.

Lemma inv_spec_pi inv :
  (forall p q, (p < D)%nat -> (q < D)%nat -> keep p q = false -> (E p - E q) * inv (E p - E q) == 1) ->
  forall p q, (p < D)%nat -> (q < D)%nat -> keep_pi p q = false -> (E_pi p - E_pi q) * inv (E_pi p - E_pi q) == 1.
Proof. intros H p q Hp Hq K. apply H; auto. Qed.
End Perm.

(** the two standard choices of the target labelling *)
Section Choices.
Variable D : nat.
Variable blk : nat -> nat.
Variable keep : nat -> nat -> bool.
Variable cm : nat -> bool.
Hypothesis keep_sym : forall p q, keep p q = keep q p.
Hypothesis keep_blk : forall p q, keep p q = true -> blk p = blk q.
Hypothesis cm_blk : forall p q, blk p = blk q -> cm p = cm q.
Hypothesis keep_eucl : keep_eucl_on D keep cm.

(* (a) the same blocks seen in the permuted basis *)
Variable pi : nat -> nat.
Hypothesis pi_lt : forall p, (p < D)%nat -> (pi p < D)%nat.
Lemma basis_keep_blk p q : keep_pi keep pi p q = true -> blk (pi p) = blk (pi q).
Proof. apply keep_blk. Qed.
Lemma basis_cm_blk p q : blk (pi p) = blk (pi q) -> cm (pi p) = cm (pi q).
Proof. apply cm_blk. Qed.
Lemma basis_keep_eucl : keep_eucl_on D (keep_pi keep pi) (fun p => cm (pi p)).
Proof. intros p q r Hp Hq Hr. unfold keep_pi. apply keep_eucl; auto. Qed.

(* (b) relabelling the blocks by an injective map sigma, basis unchanged *)
Variable sigma : nat -> nat.
Hypothesis sigma_inj : forall a b, sigma a = sigma b -> a = b.
Lemma relabel_keep_blk p q : keep_pi keep (fun p => p) p q = true -> sigma (blk p) = sigma (blk q).
Proof. intros K. f_equal. now apply keep_blk. Qed.
Lemma relabel_cm_blk p q : sigma (blk p) = sigma (blk q) -> cm p = cm q.
Proof. intros H. apply cm_blk. now apply sigma_inj. Qed.
Lemma relabel_keep_eucl : keep_eucl_on D (keep_pi keep (fun p => p)) cm.
Proof. exact keep_eucl. Qed.
End Choices.

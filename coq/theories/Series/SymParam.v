(** C13, re-indexing of the orders that keeps the number of states:

    - [pull f]: (pull f x) n := x (f n) for a degree-preserving automorphism f of the order
      monoid N^k (instance: a permutation of the k parameters, [pm sg]);
    - [vanish]: T D k -> T D (S k), a perturbation that does not occur is added in front:
      (vanish x) (m :: n) := x n if m = 0, and 0 otherwise.
    Both are [LAHom]s that commute with the order-zero coefficient and fix H_0. *)
Require Import Ncring_tac List.
From PV.Base Require Import Classes BigSum.
From PV.Series Require Import MultiIndex Inst SylvInst SymIdx.
From PV.Block Require Import Mat.
From PV.Alg Require Import Equivariance MainInst.
Open Scope string_scope.

Section Pull.
Variables D k : nat.
Context {R0 : Type} `{Rg : Ring R0} {CS : CStar R0}.
Variable blk : nat -> nat.
Variable keep : nat -> nat -> bool.
Variable cm : nat -> bool.
Hypothesis keep_sym : forall p q, keep p q = keep q p.
Hypothesis keep_refl : forall p, keep p p = true.
Hypothesis keep_blk : forall p q, keep p q = true -> blk p = blk q.
Hypothesis cm_blk : forall p q, blk p = blk q -> cm p = cm q.
Local Notation T := (T D k R0).
Local Notation BA := (series_BlockAlg D k blk keep cm keep_sym keep_blk cm_blk).
Local Hint Extern 0 (BlockAlg _) => exact BA : typeclass_instances.

Variables f g : mi -> mi.
Hypothesis f_len : forall n, List.length n = k -> List.length (f n) = k.
Hypothesis g_len : forall n, List.length n = k -> List.length (g n) = k.
Hypothesis gf : forall n, List.length n = k -> g (f n) = n.
Hypothesis fg : forall n, List.length n = k -> f (g n) = n.
Hypothesis f_padd : forall a b, List.length a = k -> List.length b = k -> f (padd a b) = padd (f a) (f b).
Hypothesis f_deg : forall n, List.length n = k -> deg (f n) = deg n.

Definition pull (x : T) : T := fun n => x (f n).

Lemma pull_P : Proper (_==_ ==> _==_) pull.
Proof. intros x y H n Hn p q Hp Hq. unfold pull. apply H; auto. Qed.

Lemma pull_mul (x y : T) : pull (x * y) == pull x * pull y.
Proof.
  intros n Hn p q Hp Hq. unfold pull at 1. rewrite !(mul_entry (Rg := Rg)).
  rewrite <- (bigsum_perm _ (auto_splits k f g f_len g_len gf fg f_padd n Hn)), bigsum_map.
  apply bigsum_ext. intros ab _. cbn [fst snd]. reflexivity.
Qed.

Lemma pull_LAHom : LAHom (BA := BA) (BA' := BA) pull.
Proof.
  apply mkLAHom.
  - exact pull_P.
  - intros x y n Hn p q Hp Hq. reflexivity.
  - intros x n Hn p q Hp Hq. reflexivity.
  - intros n Hn p q Hp Hq. unfold pull. rewrite !one_entry.
    rewrite (f_is_zero k f f_deg n Hn). reflexivity.
  - exact pull_mul.
  - intros x n Hn p q Hp Hq. reflexivity.
  - intros m x Hx. apply ord_iff. intros n p q Hn Hd Hp Hq. unfold pull.
    apply (proj1 (ord_iff blk keep cm keep_sym keep_blk cm_blk m x) Hx (f n) p q); auto.
    rewrite f_deg; auto.
  - intros x n Hn p q Hp Hq. reflexivity.
Qed.

Lemma pull_Zc (x : T) : pull (Zc x) == Zc (pull x).
Proof.
  intros n Hn p q Hp Hq. unfold pull at 1. rewrite !Zc_entry. unfold pull.
  rewrite (f_is_zero k f f_deg n Hn). reflexivity.
Qed.

Lemma pull_H0 E : pull (SylvInst.H0 D k E) == SylvInst.H0 D k E.
Proof.
  intros n Hn p q Hp Hq. unfold pull, SylvInst.H0.
  rewrite (f_is_zero k f f_deg n Hn). reflexivity.
Qed.

End Pull.

(** the instance of C13: a permutation [sg] of the k parameters ([sg'] its inverse) *)
Section Permute.
Variables D k : nat.
Context {R0 : Type} `{Rg : Ring R0} {CS : CStar R0}.
Variable blk : nat -> nat.
Variable keep : nat -> nat -> bool.
Variable cm : nat -> bool.
Hypothesis keep_sym : forall p q, keep p q = keep q p.
Hypothesis keep_blk : forall p q, keep p q = true -> blk p = blk q.
Hypothesis cm_blk : forall p q, blk p = blk q -> cm p = cm q.
Local Notation BA := (series_BlockAlg D k blk keep cm keep_sym keep_blk cm_blk).
Variables sg sg' : list nat.
Hypothesis sg_len : List.length sg = k.
Hypothesis sg_len' : List.length sg' = k.
Hypothesis sg_inv : List.map (fun j => List.nth j sg k) sg' = List.seq 0 k.
Hypothesis sg_inv' : List.map (fun j => List.nth j sg' k) sg = List.seq 0 k.

Lemma pm_LAHom : LAHom (BA := BA) (BA' := BA) (pull D k (pm sg)).
Proof.
  exact (pull_LAHom D k blk keep cm keep_sym keep_blk cm_blk (pm sg) (pm sg')
           (pm_len k sg sg_len) (pm_len k sg' sg_len') (pm_gf k sg sg' sg_len sg_inv) (pm_gf k sg' sg sg_len' sg_inv')
           (pm_padd k sg) (pm_deg k sg sg' sg_len sg_len' sg_inv')).
Qed.
Lemma pm_Zc x : pull D k (pm sg) (Zc (BlockAlg := BA) x) == Zc (BlockAlg := BA) (pull D k (pm sg) x).
Proof. exact (pull_Zc D k blk keep cm keep_sym keep_blk cm_blk (pm sg) (pm_deg k sg sg' sg_len sg_len' sg_inv') x). Qed.
Lemma pm_H0 E : pull D k (pm sg) (SylvInst.H0 D k E) == SylvInst.H0 D k E.
Proof. exact (pull_H0 D k (pm sg) (pm_deg k sg sg' sg_len sg_len' sg_inv') E). Qed.
End Permute.

(** * a vanishing perturbation, inserted as the first parameter *)
Section Vanish.
Variables D k : nat.
Context {R0 : Type} `{Rg : Ring R0} {CS : CStar R0}.
Variable blk : nat -> nat.
Variable keep : nat -> nat -> bool.
Variable cm : nat -> bool.
Hypothesis keep_sym : forall p q, keep p q = keep q p.
Hypothesis keep_refl : forall p, keep p p = true.
Hypothesis keep_blk : forall p q, keep p q = true -> blk p = blk q.
Hypothesis cm_blk : forall p q, blk p = blk q -> cm p = cm q.
Local Notation Ts := (T D k R0).
Local Notation Tt := (T D (S k) R0).
Local Notation BAs := (series_BlockAlg D k blk keep cm keep_sym keep_blk cm_blk).
Local Notation BAt := (series_BlockAlg D (S k) blk keep cm keep_sym keep_blk cm_blk).

Definition vanish (x : Ts) : Tt :=
  fun n p q => match n with cons O n' => x n' p q | _ => 0 end.

Lemma vanish_P : Proper (_==_ ==> _==_) vanish.
Proof.
  intros x y H n Hn p q Hp Hq. unfold vanish. destruct n as [|[|m] n']; try reflexivity.
  apply H; auto.
Qed.

Lemma vanish_mul (x y : Ts) : vanish (x * y) == vanish x * vanish y.
Proof.
  intros n Hn p q Hp Hq. rewrite (mul_entry (Rg := Rg) (vanish x) (vanish y)).
  destruct n as [|[|m] n'].
  - discriminate Hn.
  - unfold vanish at 1. rewrite (mul_entry (Rg := Rg)), splits_cons0, bigsum_map.
    apply bigsum_ext. intros ab _. cbn [fst snd]. reflexivity.
  - unfold vanish at 1. symmetry. apply bigsum_zero. intros (a, b) I. cbn [fst snd].
    apply bigsum_zero. intros r _.
    destruct (splits_cons_pos (S m) n' a b I (Nat.neq_succ_0 m)) as (i & j & a' & b' & -> & -> & Hij).
    unfold vanish. destruct i as [|i], j as [|j].
    + destruct Hij as [Hij|Hij]; now elim Hij.
    + non_commutative_ring.
    + non_commutative_ring.
    + non_commutative_ring.
Qed.

Lemma vanish_LAHom : LAHom (BA := BAs) (BA' := BAt) vanish.
Proof.
  apply mkLAHom.
  - exact vanish_P.
  - intros x y n Hn p q Hp Hq. rewrite add_entry. unfold vanish.
    destruct n as [|[|m] n']; try (rewrite add_entry; reflexivity); non_commutative_ring.
  - intros x n Hn p q Hp Hq. rewrite opp_entry. unfold vanish.
    destruct n as [|[|m] n']; try (rewrite opp_entry; reflexivity); non_commutative_ring.
  - intros n Hn p q Hp Hq. unfold vanish. rewrite one_entry.
    destruct n as [|[|m] n'].
    + discriminate Hn.
    + rewrite one_entry, is_zero_cons0. reflexivity.
    + rewrite (is_zero_cons_pos (S m) n' (Nat.neq_succ_0 m)). reflexivity.
  - exact vanish_mul.
  - intros x n Hn p q Hp Hq.
    change (vanish (Sel (BlockAlg := BAs) x) n p q == if keep p q then vanish x n p q else 0). unfold vanish.
    destruct n as [|[|m] n']; try (destruct (keep p q); reflexivity). reflexivity.
  - intros m x Hx. apply (ord_iff (k := S k) blk keep cm keep_sym keep_blk cm_blk).
    intros n p q Hn Hd Hp Hq. unfold vanish. destruct n as [|[|j] n']; try reflexivity.
    apply (proj1 (ord_iff blk keep cm keep_sym keep_blk cm_blk m x) Hx n' p q); auto.
  - intros x n Hn p q Hp Hq.
    change (vanish (adj (BlockAlg := BAs) x) n p q == conj (vanish x n q p)). unfold vanish.
    destruct n as [|[|m] n']; try (symmetry; apply conj_zero). reflexivity.
Qed.

Lemma vanish_Zc (x : Ts) : vanish (Zc (BlockAlg := BAs) x) == Zc (BlockAlg := BAt) (vanish x).
Proof.
  intros n Hn p q Hp Hq.
  change (vanish (fun a => if is_zero a then x a else 0) n p q == (if is_zero n then vanish x n else 0) p q).
  unfold vanish. destruct n as [|[|m] n'].
  - discriminate Hn.
  - rewrite is_zero_cons0. destruct (is_zero n'); reflexivity.
  - destruct (is_zero (S m :: n')); reflexivity.
Qed.

Lemma vanish_H0 E : vanish (SylvInst.H0 D k E) == SylvInst.H0 D (S k) E.
Proof.
  intros n Hn p q Hp Hq. unfold vanish, SylvInst.H0. destruct n as [|[|m] n'].
  - discriminate Hn.
  - rewrite is_zero_cons0. reflexivity.
  - rewrite (is_zero_cons_pos (S m) n' (Nat.neq_succ_0 m)). reflexivity.
Qed.

End Vanish.

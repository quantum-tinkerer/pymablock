(** Executable, list-based representation of truncated series of D x D matrices over an
    executable scalar ring ([ExecScalar]: Q, Gaussian rationals - Block/QInst.v), suitable
    for [vm_compute], with its denotation into the function representation of
    Series/Inst.v.

    [tser := list (mi * list (list R0))]: association list multi-order |-> rows of entries.
    Every executable operation except the product and the half-sum is
    [tab N (abstract operation applied to denotations)], i.e. the abstract operation tabulated
    on all multi-orders of total degree <= N and normalised entry by entry; [den_tab] is the
    correctness lemma and the [t*_den] lemmas are its instances.  [tmul] and [thsum] sum over
    the splittings of each multi-order themselves ([tmul_den], [thsum_den]).  [eqN N x y] is equality of all coefficients of
    total order <= N (equivalently [ord (S N) (x - y)]), a congruence for every operation
    of the [BlockAlg]; [teqb] decides it on denotations. *)
Require Import Ncring_tac List.
From PV.Base Require Import Classes BigSum.
From PV.Series Require Import MultiIndex Cauchy Lift Inst ExecIdx.
From PV.Block Require Import Mat BlockSel ExecScalar.
Set Implicit Arguments.

Section Exec.
Variables D k : nat.
Context {R0 : Type} `{Rg : Ring R0} {CS : CStar R0} {ES : ExecScalar R0}.
Variable blk : nat -> nat.
Variable keep : nat -> nat -> bool.
Variable cm : nat -> bool.
Hypothesis keep_sym : forall p q, keep p q = keep q p.
Hypothesis keep_blk : forall p q, keep p q = true -> blk p = blk q.
Hypothesis cm_blk : forall p q, blk p = blk q -> cm p = cm q.

Local Notation T := (T D k R0).
Local Hint Extern 0 (BlockAlg _) =>
  exact (series_BlockAlg D k blk keep cm keep_sym keep_blk cm_blk) : typeclass_instances.

Definition tser : Type := list (mi * list (list R0)).

Definition den (t : tser) : T :=
  fun n p q => match lookup n t with Some v => nth2 0 v p q | None => 0 end.

Definition tab (N : nat) (f : T) : tser :=
  map (fun n => (n, tabm D (fun p q => norm0 (f n p q)))) (idx k N).

(** equality up to total order N *)
Definition eqN (N : nat) (x y : T) : Prop :=
  forall n, length n = k -> (deg n <= N)%nat -> x n == y n.

Lemma den_tab N f : eqN N (den (tab N f)) f.
Proof.
  intros n Hn Hd p q Hp Hq. unfold den, tab.
  rewrite (lookup_tab (fun n => tabm D (fun p q => norm0 (f n p q)))).
  - rewrite nth2_tabm by assumption. apply norm0_eq.
  - apply in_idx. auto.
Qed.

Lemma den_tab_high N f n p q : (N < deg n)%nat -> den (tab N f) n p q = 0.
Proof.
  intros H. unfold den, tab.
  rewrite (lookup_tab_none (fun n => tabm D (fun p q => norm0 (f n p q)))). reflexivity.
  rewrite in_idx. intros [_ H']. apply (Nat.lt_irrefl N). eapply Nat.lt_le_trans; eauto.
Qed.

Definition tzero : tser := nil.
Definition tone (N : nat) : tser := tab N 1.
Definition tadd N (a b : tser) : tser := tab N (den a + den b).
Definition tsub N (a b : tser) : tser := tab N (den a - den b).
Definition topp N (a : tser) : tser := tab N (- den a).
Definition tadj N (a : tser) : tser := tab N (adj (den a)).
Definition tdivz N (a : tser) (z : Z) : tser := tab N (divz (den a) z).
Definition tDg N (a : tser) : tser := tab N (Dg (den a)).
Definition tUp N (a : tser) : tser := tab N (Up (den a)).
Definition tLo N (a : tser) : tser := tab N (Lo (den a)).
Definition tSel N (a : tser) : tser := tab N (Sel (den a)).
Definition tRw N (a : tser) : tser := tab N (Rw (den a)).
Definition tZc N (a : tser) : tser := tab N (Zc (den a)).
(** truncation / normalisation of a given table *)
Definition ttrunc N (a : tser) : tser := tab N (den a).

Lemma tzero_den : den tzero == 0.
Proof. intros n _ p q _ _. reflexivity. Qed.
Lemma tone_den N : eqN N (den (tone N)) 1. Proof. apply den_tab. Qed.
Lemma tadd_den N a b : eqN N (den (tadd N a b)) (den a + den b). Proof. apply den_tab. Qed.
Lemma tsub_den N a b : eqN N (den (tsub N a b)) (den a - den b). Proof. apply den_tab. Qed.
Lemma topp_den N a : eqN N (den (topp N a)) (- den a). Proof. apply den_tab. Qed.
Lemma tadj_den N a : eqN N (den (tadj N a)) (adj (den a)). Proof. apply den_tab. Qed.
Lemma tdivz_den N a z : eqN N (den (tdivz N a z)) (divz (den a) z). Proof. apply den_tab. Qed.
Lemma tDg_den N a : eqN N (den (tDg N a)) (Dg (den a)). Proof. apply den_tab. Qed.
Lemma tUp_den N a : eqN N (den (tUp N a)) (Up (den a)). Proof. apply den_tab. Qed.
Lemma tLo_den N a : eqN N (den (tLo N a)) (Lo (den a)). Proof. apply den_tab. Qed.
Lemma tSel_den N a : eqN N (den (tSel N a)) (Sel (den a)). Proof. apply den_tab. Qed.
Lemma tRw_den N a : eqN N (den (tRw N a)) (Rw (den a)). Proof. apply den_tab. Qed.
Lemma tZc_den N a : eqN N (den (tZc N a)) (Zc (den a)). Proof. apply den_tab. Qed.
Lemma ttrunc_den N a : eqN N (den (ttrunc N a)) (den a). Proof. apply den_tab. Qed.

(** ** products: the coefficient tables are looked up once per splitting and every partial
    sum is normalised (keeps rational numbers reduced) *)
Definition getm (t : tser) (n : mi) : list (list R0) :=
  match lookup n t with Some v => v | None => nil end.

Lemma den_getm t n p q : den t n p q = nth2 0 (getm t n) p q.
Proof.
  unfold den, getm. destruct (lookup n t). reflexivity.
  unfold nth2. destruct p; destruct q; reflexivity.
Qed.

Fixpoint nsum {A} (f : A -> R0) (l : list A) : R0 :=
  match l with nil => 0 | cons a l' => norm0 (f a + nsum f l') end.

Lemma nsum_bigsum {A} (f : A -> R0) l : nsum f l == bigsum f l.
Proof.
  induction l as [|a l IH]. reflexivity.
  cbn [nsum]. rewrite norm0_eq, IH. reflexivity.
Qed.

(** entry (p,q) of the product of two matrices given as lists of rows *)
Definition mm (A B : list (list R0)) (p q : nat) : R0 :=
  nsum (fun r => nth2 0 A p r * nth2 0 B r q) (range D).

Definition tmul N (a b : tser) : tser :=
  map (fun n =>
         (n, let prs := map (fun ab => (getm a (fst ab), getm b (snd ab))) (splits n) in
             tabm D (fun p q => nsum (fun AB => mm (fst AB) (snd AB) p q) prs)))
      (idx k N).

Lemma tmul_den N a b : eqN N (den (tmul N a b)) (den a * den b).
Proof.
  intros n Hn Hd p q Hp Hq. unfold tmul. unfold den at 1.
  rewrite (lookup_tab (fun n =>
             let prs := map (fun ab => (getm a (fst ab), getm b (snd ab))) (splits n) in
             tabm D (fun p q => nsum (fun AB => mm (fst AB) (snd AB) p q) prs)))
    by (apply in_idx; auto).
  cbv zeta. rewrite nth2_tabm by assumption.
  rewrite nsum_bigsum, bigsum_map, (mul_entry (Rg := Rg)).
  apply bigsum_ext. intros (a1, a2) _. cbn [fst snd]. unfold mm. rewrite nsum_bigsum.
  apply bigsum_ext. intros r _. rewrite !den_getm. reflexivity.
Qed.

Definition thsum N (a b : tser) : tser :=
  map (fun n =>
         (n, let prs := map (fun ab => (lexc (fst ab) (snd ab),
                                        (getm a (fst ab), getm b (snd ab)))) (splits n) in
             tabm D (fun p q =>
               if Nat.eqb (blk p) (blk q) then
                 nsum (fun t =>
                         match fst t with
                         | Gt => 0
                         | Eq => mm (fst (snd t)) (snd (snd t)) p q
                         | Lt => mm (fst (snd t)) (snd (snd t)) p q
                                 + conj (mm (fst (snd t)) (snd (snd t)) q p)
                         end) prs
               else 0)))
      (idx k N).

Lemma mm_tprod a b a1 a2 p q :
  mm (getm a a1) (getm b a2) p q == tprod (D := D) (den a) (den b) a1 a2 p q.
Proof.
  unfold mm, tprod. rewrite nsum_bigsum. apply bigsum_ext. intros r _.
  rewrite !den_getm. reflexivity.
Qed.

Lemma thsum_den N a b : eqN N (den (thsum N a b)) (hsum (den a) (den b)).
Proof.
  intros n Hn Hd p q Hp Hq. unfold thsum. unfold den at 1.
  rewrite (lookup_tab (fun n =>
     let prs := map (fun ab => (lexc (fst ab) (snd ab),
                                (getm a (fst ab), getm b (snd ab)))) (splits n) in
     tabm D (fun p q =>
       if Nat.eqb (blk p) (blk q) then
         nsum (fun t =>
                 match fst t with
                 | Gt => 0
                 | Eq => mm (fst (snd t)) (snd (snd t)) p q
                 | Lt => mm (fst (snd t)) (snd (snd t)) p q
                         + conj (mm (fst (snd t)) (snd (snd t)) q p)
                 end) prs
       else 0))) by (apply in_idx; auto).
  cbv zeta. rewrite nth2_tabm by assumption.
  rewrite (hsum_entry (Rg := Rg)). destruct (Nat.eqb (blk p) (blk q)); [|reflexivity].
  rewrite nsum_bigsum, bigsum_map. apply bigsum_ext. intros (a1, a2) _. cbn [fst snd].
  destruct (lexc a1 a2).
  - apply mm_tprod.
  - rewrite !mm_tprod. reflexivity.
  - reflexivity.
Qed.

Definition teqb (N : nat) (a b : tser) : bool :=
  forallb (fun n =>
    forallb (fun p =>
      forallb (fun q => eqb0 (den a n p q) (den b n p q)) (range D)) (range D)) (idx k N).

Lemma teqb_sound N a b : teqb N a b = true -> eqN N (den a) (den b).
Proof.
  unfold teqb. rewrite forallb_forall. intros H n Hn Hd p q Hp Hq.
  assert (I : In n (idx k N)) by (apply in_idx; auto).
  specialize (H n I). rewrite forallb_forall in H.
  specialize (H p (proj2 (in_range D p) Hp)). rewrite forallb_forall in H.
  specialize (H q (proj2 (in_range D q) Hq)). now apply eqb0_sound.
Qed.

Lemma eqN_refl N x : eqN N x x.
Proof. intros n _ _. reflexivity. Qed.
Lemma eqN_sym N x y : eqN N x y -> eqN N y x.
Proof. intros H n Hn Hd. symmetry. now apply H. Qed.
Lemma eqN_trans N x y z : eqN N x y -> eqN N y z -> eqN N x z.
Proof. intros H1 H2 n Hn Hd. rewrite (H1 n Hn Hd). now apply H2. Qed.

Global Instance eqN_Equivalence N : Equivalence (eqN N).
Proof. split. exact (@eqN_refl N). exact (@eqN_sym N). exact (@eqN_trans N). Qed.

Lemma eq_eqN N (x y : T) : x == y -> eqN N x y.
Proof. intros H n Hn _. now apply H. Qed.

Lemma eqN_le N N' x y : (N' <= N)%nat -> eqN N x y -> eqN N' x y.
Proof. intros L H n Hn Hd. apply H; auto. eapply Nat.le_trans; eauto. Qed.

Lemma eqN_ord N (x y : T) : eqN N x y <-> ord (S N) (x - y).
Proof.
  split.
  - intros H n Hn Hd. apply (proj1 (lt_S_le _ _)) in Hd.
    change ((x - y) n) with (x n - y n). rewrite (H n Hn Hd). non_commutative_ring.
  - intros H n Hn Hd. apply (proj2 (lt_S_le _ _)) in Hd. specialize (H n Hn Hd).
    change ((x - y) n) with (x n - y n) in H.
    transitivity ((x n - y n) + y n). non_commutative_ring.
    rewrite H. change ((0 : T) n) with (0 : mat D R0). non_commutative_ring.
Qed.

Lemma eqN_add N x x' y y' : eqN N x x' -> eqN N y y' -> eqN N (x + y) (x' + y').
Proof.
  intros Hx Hy n Hn Hd. change (x n + y n == x' n + y' n).
  rewrite (Hx n Hn Hd), (Hy n Hn Hd). reflexivity.
Qed.
Lemma eqN_sub N x x' y y' : eqN N x x' -> eqN N y y' -> eqN N (x - y) (x' - y').
Proof.
  intros Hx Hy n Hn Hd. change (x n - y n == x' n - y' n).
  rewrite (Hx n Hn Hd), (Hy n Hn Hd). reflexivity.
Qed.
Lemma eqN_opp N x x' : eqN N x x' -> eqN N (- x) (- x').
Proof.
  intros Hx n Hn Hd. change (- x n == - x' n). rewrite (Hx n Hn Hd). reflexivity.
Qed.

Lemma eqN_mul N x x' y y' : eqN N x x' -> eqN N y y' -> eqN N (x * y) (x' * y').
Proof.
  intros Hx Hy n Hn Hd.
  change (conv (k := k) x y n == conv (k := k) x' y' n). unfold conv.
  apply bigsum_ext. intros (a, b) I. cbn [fst snd].
  destruct (splits_deg_le _ _ _ I Hd) as [Da Db].
  apply splits_length in I. destruct I as [La Lb].
  rewrite (Hx a), (Hy b); auto; try congruence. reflexivity.
Qed.

(** coefficient-wise maps *)
Lemma eqN_lift N (phi : mat D R0 -> mat D R0) x x' :
  Proper (_==_ ==> _==_) phi -> eqN N x x' -> eqN N (lift (k := k) phi x) (lift (k := k) phi x').
Proof. intros HP Hx n Hn Hd. unfold lift. apply HP. now apply Hx. Qed.

Lemma eqN_adj N x x' : eqN N x x' -> eqN N (adj x) (adj x').
Proof. apply eqN_lift. apply (madj_P (D := D)). Qed.
Lemma eqN_divz N z x x' : eqN N x x' -> eqN N (divz x z) (divz x' z).
Proof. apply (eqN_lift (phi := fun A => mdivz A z)). apply (mdivz_P (D := D)). Qed.
Lemma eqN_Dg N x x' : eqN N x x' -> eqN N (Dg x) (Dg x').
Proof. apply eqN_lift. apply (mmask_P (Rg := Rg)). Qed.
Lemma eqN_Up N x x' : eqN N x x' -> eqN N (Up x) (Up x').
Proof. apply eqN_lift. apply (mmask_P (Rg := Rg)). Qed.
Lemma eqN_Lo N x x' : eqN N x x' -> eqN N (Lo x) (Lo x').
Proof. apply eqN_lift. apply (mmask_P (Rg := Rg)). Qed.
Lemma eqN_Sel N x x' : eqN N x x' -> eqN N (Sel x) (Sel x').
Proof. apply eqN_lift. apply (mmask_P (Rg := Rg)). Qed.
Lemma eqN_Rw N x x' : eqN N x x' -> eqN N (Rw x) (Rw x').
Proof. apply eqN_lift. apply (mmask_P (Rg := Rg)). Qed.

Lemma eqN_Zc N x x' : eqN N x x' -> eqN N (Zc x) (Zc x').
Proof.
  intros Hx n Hn Hd. change (sZc (k := k) x n == sZc (k := k) x' n). unfold sZc.
  destruct (is_zero n). now apply Hx. reflexivity.
Qed.

Lemma eqN_hsum N x x' y y' : eqN N x x' -> eqN N y y' -> eqN N (hsum x y) (hsum x' y').
Proof.
  intros Hx Hy n Hn Hd.
  change (mDg blk (s_half (k := k) (CA := T_CoefAlg D blk keep cm keep_sym keep_blk cm_blk) x y n)
          == mDg blk (s_half (k := k) (CA := T_CoefAlg D blk keep cm keep_sym keep_blk cm_blk) x' y' n)).
  apply (mmask_P (Rg := Rg)). unfold s_half. apply bigsum_ext. intros (a, b) I.
  destruct (splits_deg_le _ _ _ I Hd) as [Da Db].
  apply splits_length in I. destruct I as [La Lb].
  assert (E1 : x a == x' a) by (apply Hx; congruence).
  assert (E2 : y b == y' b) by (apply Hy; congruence).
  unfold hterm. cbn [fst snd]. destruct (lexc a b); rewrite ?E1, ?E2; reflexivity.
Qed.

End Exec.

Arguments tser R0 : clear implicits.
Arguments tab D k {R0 ring0 ring1 add mul sub opp ring_eq Ro ES} N f.
Arguments eqN D k {R0 ring0 ring1 add mul sub opp ring_eq Ro} N x y.

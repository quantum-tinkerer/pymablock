(** The pieces of the non-Hermitian corollaries (C13 / C15, hermitian=False) that the Hermitian
    files do not already provide.  Every symmetry of Series/Sym*.v is an [SGHom]; with
    [inst_transport_nh] (Series/SymBase.v) the outputs H_tilde, U, U_inv of [nonhermitian_alg]
    transform accordingly - in the domain of validity of the non-Hermitian similarity theorems:
    kept matrix elements connect equal unperturbed energies ([kept_equal], on both sides; known
    finding C05-kept-distinct-energies).  Energies may be complex, the input need not be
    Hermitian, the rotation matrix R only has to be invertible. *)
Require Import Ncring_tac.
From PV.Base Require Import Classes BigSum.
From PV.Series Require Import MultiIndex Inst SylvInst SymConj.
From PV.Block Require Import Mat.
From PV.Alg Require Import Equivariance.
(** * C15 conjugation: the problem for H is mapped to the problem for conj H (energies conj E) *)
Section ConjNH.
Variables D k : nat.
Context {R0 : Type} `{Rg : Ring R0} {CS : CStar R0}.
Variable keep : nat -> nat -> bool.
Variable E : nat -> R0.
Variable inv : R0 -> R0.
Hypothesis inv_spec : forall p q, (p < D)%nat -> (q < D)%nat -> keep p q = false ->
                                  (E p - E q) * inv (E p - E q) == 1.
Hypothesis kept_equal : forall p q, (p < D)%nat -> (q < D)%nat -> keep p q = true -> E p == E q.
Hypothesis inv_P : Proper (_==_ ==> _==_) inv.
Hypothesis inv_conj : forall x, conj (inv x) == inv (conj x).
Definition E_conj (p : nat) : R0 := conj (E p).
Lemma inv_spec_conj p q : (p < D)%nat -> (q < D)%nat -> keep p q = false ->
  (E_conj p - E_conj q) * inv (E_conj p - E_conj q) == 1.
Proof.
  intros Hp Hq K. unfold E_conj. rewrite <- conj_sub, <- inv_conj, <- conj_mul, (inv_spec p q Hp Hq K). apply conj_one.
Qed.
Lemma kept_equal_conj p q : (p < D)%nat -> (q < D)%nat -> keep p q = true -> E_conj p == E_conj q.
Proof. intros Hp Hq K. unfold E_conj. rewrite (kept_equal p q Hp Hq K). reflexivity. Qed.
Lemma cconj_H0_nh : cconj D k (SylvInst.H0 D k E) == SylvInst.H0 D k E_conj.
Proof.
  intros n Hn p q Hp Hq. unfold cconj, SylvInst.H0, E_conj. destruct (is_zero n).
  - unfold mdiag. destruct (Nat.eqb p q). reflexivity. apply conj_zero.
  - apply conj_zero.
Qed.
End ConjNH.

(** * C15 rotation by an invertible matrix R (inverse Ri) commuting with the kept mask and with H_0 *)
Section RingConjG.
Context {M : Type} `{Rg : Ring M}.
Variables R Ri : M.
Hypothesis RiR : Ri * R == 1.
Hypothesis RRi : R * Ri == 1.
Definition gc (a : M) : M := Ri * a * R.
Lemma gc_P : Proper (_==_ ==> _==_) gc.
Proof. intros a b H. unfold gc. rewrite H. reflexivity. Qed.
Lemma gc_add a b : gc (a + b) == gc a + gc b.
Proof. unfold gc. non_commutative_ring. Qed.
Lemma gc_opp a : gc (- a) == - gc a.
Proof. unfold gc. non_commutative_ring. Qed.
Lemma gc_zero : gc 0 == 0.
Proof. unfold gc. non_commutative_ring. Qed.
Lemma gc_one : gc 1 == 1.
Proof. unfold gc. transitivity (Ri * R). non_commutative_ring. exact RiR. Qed.
Lemma gc_mul a b : gc (a * b) == gc a * gc b.
Proof.
  unfold gc. transitivity (Ri * a * (R * Ri) * b * R).
  rewrite RRi. non_commutative_ring. non_commutative_ring.
Qed.
Lemma gc_bigsum {A} (F : A -> M) l : gc (bigsum F l) == bigsum (fun a => gc (F a)) l.
Proof. unfold gc. rewrite bigsum_mul_l, bigsum_mul_r. reflexivity. Qed.
End RingConjG.

Section RotNH.
Variables D k : nat.
Context {R0 : Type} `{Rg : Ring R0} {CS : CStar R0}.
Variable blk : nat -> nat.
Variable keep : nat -> nat -> bool.
Variable cm : nat -> bool.
Hypothesis keep_sym : forall p q, keep p q = keep q p.
Hypothesis keep_blk : forall p q, keep p q = true -> blk p = blk q.
Hypothesis cm_blk : forall p q, blk p = blk q -> cm p = cm q.
Local Notation T := (T D k R0).
Local Notation BA := (series_BlockAlg D k blk keep cm keep_sym keep_blk cm_blk).
Local Hint Extern 0 (BlockAlg _) => exact BA : typeclass_instances.
Local Notation M := (mat D R0).
Variables R Ri : M.
Hypothesis RiR : Ri * R == 1.
Hypothesis RRi : R * Ri == 1.
Hypothesis R_mask : forall y : M, mmask keep (Ri * y * R) == Ri * mmask keep y * R.
Local Notation gcm := (gc (Ro := mat_ops D) R Ri).

Definition rotg (x : T) : T := fun n => gcm (x n).

Lemma rotg_SGHom : SGHom (BA := BA) (BA' := BA) rotg.
Proof.
  apply mkSGHom.
  - intros x y H n Hn. unfold rotg. apply (gc_P (Rg := mat_Ring D)). exact (H n Hn).
  - intros x y n Hn. exact (gc_add (Rg := mat_Ring D) R Ri (x n) (y n)).
  - intros x n Hn. exact (gc_opp (Rg := mat_Ring D) R Ri (x n)).
  - intros n Hn. unfold rotg.
    change (gcm (if is_zero n then (1 : M) else 0) == (if is_zero n then (1 : M) else 0)).
    destruct (is_zero n). apply (gc_one (Rg := mat_Ring D) R Ri RiR). apply (gc_zero (Rg := mat_Ring D)).
  - intros x y n Hn.
    change (gcm (bigsum (fun ab => x (fst ab) * y (snd ab)) (splits n))
            == bigsum (fun ab => gcm (x (fst ab)) * gcm (y (snd ab))) (splits n)).
    rewrite (gc_bigsum (Rg := mat_Ring D)). apply bigsum_ext. intros ab _.
    apply (gc_mul (Rg := mat_Ring D) R Ri RRi).
  - intros x n Hn. symmetry. exact (R_mask (x n)).
  - intros m x Hx n Hn Hd. unfold rotg.
    transitivity (gcm 0). apply (gc_P (Rg := mat_Ring D)). exact (Hx n Hn Hd).
    apply (gc_zero (Rg := mat_Ring D)).
Qed.

Lemma rotg_Zc (x : T) : rotg (Zc x) == Zc (rotg x).
Proof.
  intros n Hn.
  change (gcm (if is_zero n then x n else 0) == (if is_zero n then gcm (x n) else 0)).
  destruct (is_zero n). reflexivity. apply (gc_zero (Rg := mat_Ring D)).
Qed.

Lemma rotg_H0 E : Ri * mdiag D E * R == mdiag D E -> rotg (SylvInst.H0 D k E) == SylvInst.H0 D k E.
Proof.
  intros R_H0 n Hn. unfold rotg, SylvInst.H0. destruct (is_zero n). exact R_H0.
  apply (gc_zero (Rg := mat_Ring D)).
Qed.

End RotNH.

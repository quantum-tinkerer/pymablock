(** Multi-index formal power series over an [Ncring] ring, with the Cauchy product.

    [series k R := mi -> R]; two series are equal when they agree on every well-formed
    index (length k).  [conv f g n := sum over (a,b) in splits n of f a * g b].
    - [series_Ring]: the ring instance (associativity from the triple-splitting
      permutation of Series/MultiIndex.v);
    - [lift phi]: coefficient-wise application of a map of the coefficient ring;
    - [sord], [sZc]: filtration by total degree and order-zero coefficient. *)
Require Import Ncring_tac.
From PV.Base Require Import Classes BigSum AlgLemmas.
From PV.Series Require Import MultiIndex.
Set Implicit Arguments.

Definition series (k : nat) (R : Type) : Type := mi -> R.

Section Cauchy.
Variable k : nat.
Context {R : Type} `{Rg : Ring R}.
Notation Ser := (series k R).

Definition seq_eq (f g : Ser) : Prop := forall n, length n = k -> f n == g n.
Definition szero : Ser := fun _ => 0.
Definition sone : Ser := fun n => if is_zero n then 1 else 0.
Definition sadd (f g : Ser) : Ser := fun n => f n + g n.
Definition ssub (f g : Ser) : Ser := fun n => f n - g n.
Definition sopp (f : Ser) : Ser := fun n => - f n.
Definition conv (f g : Ser) : Ser :=
  fun n => bigsum (fun p => f (fst p) * g (snd p)) (splits n).

Lemma seq_eq_Equivalence : Equivalence seq_eq.
Proof.
  split.
  - intros f n _. reflexivity.
  - intros f g H n Hn. symmetry. auto.
  - intros f g h H1 H2 n Hn. rewrite (H1 n Hn), (H2 n Hn). reflexivity.
Qed.

Lemma sadd_P : Proper (seq_eq ==> seq_eq ==> seq_eq) sadd.
Proof. intros f f' Hf g g' Hg n Hn. unfold sadd. rewrite (Hf n Hn), (Hg n Hn). reflexivity. Qed.
Lemma ssub_P : Proper (seq_eq ==> seq_eq ==> seq_eq) ssub.
Proof. intros f f' Hf g g' Hg n Hn. unfold ssub. rewrite (Hf n Hn), (Hg n Hn). reflexivity. Qed.
Lemma sopp_P : Proper (seq_eq ==> seq_eq) sopp.
Proof. intros f f' Hf n Hn. unfold sopp. rewrite (Hf n Hn). reflexivity. Qed.

Lemma conv_P : Proper (seq_eq ==> seq_eq ==> seq_eq) conv.
Proof.
  intros f f' Hf g g' Hg n Hn. unfold conv. apply bigsum_ext.
  intros (a, b) I. cbn [fst snd]. apply splits_length in I. destruct I as [La Lb].
  rewrite (Hf a), (Hg b) by congruence. reflexivity.
Qed.

Lemma sadd_0_l f : seq_eq (sadd szero f) f.
Proof. intros n _. unfold sadd, szero. non_commutative_ring. Qed.
Lemma sadd_comm f g : seq_eq (sadd f g) (sadd g f).
Proof. intros n _. unfold sadd. non_commutative_ring. Qed.
Lemma sadd_assoc f g h : seq_eq (sadd f (sadd g h)) (sadd (sadd f g) h).
Proof. intros n _. unfold sadd. non_commutative_ring. Qed.
Lemma ssub_def f g : seq_eq (ssub f g) (sadd f (sopp g)).
Proof. intros n _. unfold sadd, ssub, sopp. non_commutative_ring. Qed.
Lemma sopp_def f : seq_eq (sadd f (sopp f)) szero.
Proof. intros n _. unfold sadd, sopp, szero. non_commutative_ring. Qed.

(** product with a series concentrated at order zero *)
Lemma conv_const_l (c f : Ser) n :
  (forall a, is_zero a = false -> c a == 0) ->
  conv c f n == c (mzero (length n)) * f n.
Proof.
  intros Hc. unfold conv.
  rewrite (@bigsum_single _ _ _ _ _ _ _ _ _ _ _
             (fun p : mi * mi => c (fst p) * f (snd p)) (mzero (length n), n)).
  - reflexivity.
  - apply nodup_splits.
  - apply splits_zero_l.
  - intros (a, b) I Hne. cbn [fst snd]. destruct (is_zero a) eqn:Z.
    + destruct (splits_zero_l_inv _ _ _ I Z). subst. now elim Hne.
    + rewrite (Hc a Z). non_commutative_ring.
Qed.

Lemma conv_const_r (c f : Ser) n :
  (forall a, is_zero a = false -> c a == 0) ->
  conv f c n == f n * c (mzero (length n)).
Proof.
  intros Hc. unfold conv.
  rewrite (@bigsum_single _ _ _ _ _ _ _ _ _ _ _
             (fun p : mi * mi => f (fst p) * c (snd p)) (n, mzero (length n))).
  - reflexivity.
  - apply nodup_splits.
  - apply splits_zero_r.
  - intros (a, b) I Hne. cbn [fst snd]. destruct (is_zero b) eqn:Z.
    + destruct (splits_zero_r_inv _ _ _ I Z). subst. now elim Hne.
    + rewrite (Hc b Z). non_commutative_ring.
Qed.

Lemma sone_const a : is_zero a = false -> sone a == 0.
Proof. intros Z. unfold sone. rewrite Z. reflexivity. Qed.

Lemma conv_1_l f : seq_eq (conv sone f) f.
Proof.
  intros n Hn. rewrite (conv_const_l sone f n sone_const). unfold sone.
  rewrite is_zero_mzero_k. non_commutative_ring.
Qed.

Lemma conv_1_r f : seq_eq (conv f sone) f.
Proof.
  intros n Hn. rewrite (conv_const_r sone f n sone_const). unfold sone.
  rewrite is_zero_mzero_k. non_commutative_ring.
Qed.

Lemma conv_assoc f g h : seq_eq (conv f (conv g h)) (conv (conv f g) h).
Proof.
  intros n _. unfold conv.
  transitivity (bigsum (fun t : mi * mi * mi =>
                          f (fst (fst t)) * g (snd (fst t)) * h (snd t)) (trip1 n)).
  - unfold trip1. rewrite bigsum_flat_map. apply bigsum_ext. intros (a, bc) _. cbn [fst snd].
    rewrite bigsum_mul_l, bigsum_map. apply bigsum_ext. intros (b, c) _. cbn [fst snd].
    non_commutative_ring.
  - rewrite (bigsum_perm _ (trip_perm n)). unfold trip2. rewrite bigsum_flat_map.
    apply bigsum_ext. intros (ab, c) _. cbn [fst snd].
    rewrite bigsum_mul_r, bigsum_map. apply bigsum_ext. intros (a, b) _. cbn [fst snd].
    reflexivity.
Qed.

Lemma conv_distr_l f g h : seq_eq (conv (sadd f g) h) (sadd (conv f h) (conv g h)).
Proof.
  intros n _. unfold conv, sadd. rewrite <- bigsum_add. apply bigsum_ext.
  intros p _. non_commutative_ring.
Qed.

Lemma conv_distr_r f g h : seq_eq (conv h (sadd f g)) (sadd (conv h f) (conv h g)).
Proof.
  intros n _. unfold conv, sadd. rewrite <- bigsum_add. apply bigsum_ext.
  intros p _. non_commutative_ring.
Qed.

Global Instance series_ops : @Ring_ops Ser szero sone sadd conv ssub sopp seq_eq := {}.

Global Instance series_Ring : Ring (Ro := series_ops).
Proof.
  constructor.
  - exact seq_eq_Equivalence.
  - exact sadd_P.
  - exact conv_P.
  - exact ssub_P.
  - exact sopp_P.
  - exact sadd_0_l.
  - exact sadd_comm.
  - exact sadd_assoc.
  - exact conv_1_l.
  - exact conv_1_r.
  - exact conv_assoc.
  - exact conv_distr_l.
  - exact conv_distr_r.
  - exact ssub_def.
  - exact sopp_def.
Qed.

(** the swapped Cauchy sum *)
Lemma conv_swap f g n :
  conv f g n == bigsum (fun p => f (snd p) * g (fst p)) (splits n).
Proof.
  unfold conv. rewrite <- (bigsum_perm _ (splits_swap n)), bigsum_map.
  apply bigsum_ext. intros (a, b) _. reflexivity.
Qed.

(** coefficients of n-fold sums *)
Lemma nmul_coeff m (f : Ser) n : nmul m f n == nmul m (f n).
Proof.
  induction m as [|m IH]; cbn [nmul]. reflexivity.
  change ((f + nmul m f) n) with (f n + nmul m f n). rewrite IH. reflexivity.
Qed.

Lemma zmul_coeff z (f : Ser) n : zmul z f n == zmul z (f n).
Proof.
  destruct z; cbn [zmul]. reflexivity. apply nmul_coeff.
  change ((- nmul (Pos.to_nat p) f) n) with (- nmul (Pos.to_nat p) f n).
  rewrite nmul_coeff. reflexivity.
Qed.

Definition lift (phi : R -> R) (f : Ser) : Ser := fun n => phi (f n).

Lemma lift_P phi : Proper (_==_ ==> _==_) phi -> Proper (seq_eq ==> seq_eq) (lift phi).
Proof. intros HP f g H n Hn. unfold lift. apply HP. auto. Qed.

Global Instance lift_am (phi : R -> R) {AM : AddMap phi} : AddMap (lift phi).
Proof.
  split.
  - apply lift_P. apply am_P.
  - intros f g n _. exact (am_add (f n) (g n)).
  - intros f n _. exact (am_opp (f n)).
Qed.

Lemma am_sub (phi : R -> R) {AM : AddMap phi} x y : phi (x - y) == phi x - phi y.
Proof. exact (AlgLemmas.am_sub (f := phi) x y). Qed.
Arguments am_sub phi {AM} x y.

Lemma am_bigsum (phi : R -> R) {AM : AddMap phi} {A} (F : A -> R) l :
  phi (bigsum F l) == bigsum (fun a => phi (F a)) l.
Proof. apply bigsum_morph. apply (am_zero (f := phi)). apply am_add. Qed.
Arguments am_bigsum phi {AM} {A} F l.

(** pointwise identities lift *)
Lemma lift_ext phi psi (f : Ser) :
  (forall x, phi x == psi x) -> seq_eq (lift phi f) (lift psi f).
Proof. intros H n _. apply H. Qed.

Lemma lift_lift phi psi (f : Ser) : seq_eq (lift phi (lift psi f)) (lift (fun x => phi (psi x)) f).
Proof. intros n _. reflexivity. Qed.

Lemma lift_one (phi : R -> R) {AM : AddMap phi} : phi 1 == 1 -> seq_eq (lift phi sone) sone.
Proof.
  intros H n _. unfold lift, sone. destruct (is_zero n). exact H. apply (am_zero (f := phi)).
Qed.

(** multiplicative laws lift through the Cauchy sum *)
Lemma lift_conv (phi : R -> R) {AM : AddMap phi} (F G : Ser) n :
  lift phi (conv F G) n == bigsum (fun p => phi (F (fst p) * G (snd p))) (splits n).
Proof. unfold lift, conv. apply (am_bigsum phi). Qed.

Lemma lift_conv_closed (phi : R -> R) {AM : AddMap phi} (F G : Ser) :
  (forall a b, length a = k -> length b = k -> phi (F a * G b) == F a * G b) ->
  seq_eq (lift phi (conv F G)) (conv F G).
Proof.
  intros H n Hn. rewrite (lift_conv (AM := AM)). unfold conv. apply bigsum_ext.
  intros (a, b) I. cbn [fst snd]. apply splits_length in I. destruct I.
  apply H; congruence.
Qed.

Lemma conv_zero_terms (F G : Ser) :
  (forall a b, length a = k -> length b = k -> F a * G b == 0) ->
  seq_eq (conv F G) szero.
Proof.
  intros H n Hn. unfold conv, szero. apply bigsum_zero.
  intros (a, b) I. cbn [fst snd]. apply splits_length in I. destruct I.
  apply H; congruence.
Qed.

Definition sord (m : nat) (f : Ser) : Prop :=
  forall n, length n = k -> (deg n < m)%nat -> f n == 0.
Definition sZc (f : Ser) : Ser := fun n => if is_zero n then f n else 0.

Lemma sord_P m : Proper (seq_eq ==> iff) (sord m).
Proof.
  intros f g H. split; intros Hf n Hn Hd.
  - rewrite <- (H n Hn). auto.
  - rewrite (H n Hn). auto.
Qed.

Lemma sord_O f : sord O f.
Proof. intros n _ H. inversion H. Qed.

Lemma sord_S m f : sord (S m) f -> sord m f.
Proof. intros H n Hn Hd. apply H; auto. Qed.

Lemma sord_le m m' f : (m <= m')%nat -> sord m' f -> sord m f.
Proof. intros Hle H n Hn Hd. apply H; auto. eapply Nat.lt_le_trans; eauto. Qed.

Lemma sord_zero m : sord m szero.
Proof. intros n _ _. reflexivity. Qed.

Lemma sord_add m f g : sord m f -> sord m g -> sord m (sadd f g).
Proof. intros Hf Hg n Hn Hd. unfold sadd. rewrite Hf, Hg; auto. non_commutative_ring. Qed.

Lemma sord_opp m f : sord m f -> sord m (sopp f).
Proof. intros Hf n Hn Hd. unfold sopp. rewrite Hf; auto. non_commutative_ring. Qed.

Lemma sord_mul a b f g : sord a f -> sord b g -> sord (Nat.add a b) (conv f g).
Proof.
  intros Hf Hg n Hn Hd. unfold conv. apply bigsum_zero. intros (x, y) I. cbn [fst snd].
  pose proof (splits_deg _ _ _ I) as E. apply splits_length in I. destruct I as [Lx Ly].
  destruct (Nat.lt_ge_cases (deg x) a) as [Hx|Hx].
  - rewrite Hf; auto. non_commutative_ring. congruence.
  - rewrite (Hg y). non_commutative_ring. congruence.
    rewrite <- E in Hd. eapply Nat.add_lt_mono_l.
    eapply Nat.le_lt_trans. 2: exact Hd. apply Nat.add_le_mono_r. exact Hx.
Qed.

Lemma sord_sep f : (forall m, sord m f) -> seq_eq f szero.
Proof. intros H n Hn. apply (H (S (deg n))); auto. Qed.

Lemma sord_lift (phi : R -> R) {AM : AddMap phi} m f : sord m f -> sord m (lift phi f).
Proof.
  intros H n Hn Hd. unfold lift. rewrite (H n Hn Hd). apply (am_zero (f := phi)).
Qed.

Lemma sZc_P : Proper (seq_eq ==> seq_eq) sZc.
Proof. intros f g H n Hn. unfold sZc. destruct (is_zero n). auto. reflexivity. Qed.

Global Instance sZc_am : AddMap sZc.
Proof.
  split. exact sZc_P.
  - intros f g n _.
    change ((if is_zero n then f n + g n else 0)
            == (if is_zero n then f n else 0) + (if is_zero n then g n else 0)).
    destruct (is_zero n); non_commutative_ring.
  - intros f n _.
    change ((if is_zero n then - f n else 0) == - (if is_zero n then f n else 0)).
    destruct (is_zero n); non_commutative_ring.
Qed.

Lemma sZc_mul f g : seq_eq (sZc (conv f g)) (conv (sZc f) (sZc g)).
Proof.
  intros n Hn. unfold sZc at 1. unfold conv. destruct (is_zero n) eqn:Z.
  - apply bigsum_ext. intros (a, b) I. cbn [fst snd]. unfold sZc.
    rewrite (splits_is_zero _ _ _ I) in Z. apply andb_prop in Z. destruct Z as [-> ->].
    reflexivity.
  - symmetry. apply bigsum_zero. intros (a, b) I. cbn [fst snd]. unfold sZc.
    rewrite (splits_is_zero _ _ _ I) in Z.
    destruct (is_zero a), (is_zero b); try discriminate; non_commutative_ring.
Qed.

Lemma sZc_one : seq_eq (sZc sone) sone.
Proof. intros n _. unfold sZc, sone. destruct (is_zero n); reflexivity. Qed.

Lemma sZc_idem f : seq_eq (sZc (sZc f)) (sZc f).
Proof. intros n _. unfold sZc. destruct (is_zero n); reflexivity. Qed.

Lemma sZc_ord f : sord 1 f <-> seq_eq (sZc f) szero.
Proof.
  split.
  - intros H n Hn. unfold sZc, szero. destruct (is_zero n) eqn:Z; [|reflexivity].
    apply H; auto. apply is_zero_deg in Z. rewrite Z. constructor.
  - intros H n Hn Hd. specialize (H n Hn). unfold sZc, szero in H.
    assert (Z : is_zero n = true).
    { apply is_zero_deg. inversion Hd; auto. inversion H1. }
    now rewrite Z in H.
Qed.

Lemma sZc_lift (phi : R -> R) {AM : AddMap phi} f : seq_eq (sZc (lift phi f)) (lift phi (sZc f)).
Proof.
  intros n _. unfold sZc, lift. destruct (is_zero n). reflexivity.
  symmetry. apply (am_zero (f := phi)).
Qed.

End Cauchy.

Arguments am_sub {R ring0 ring1 add mul sub opp ring_eq Ro Rg} phi {AM} x y.
Arguments lift_conv_closed [k] {R ring0 ring1 add mul sub opp ring_eq Ro Rg} phi {AM} F G _ n _.
Arguments lift_conv [k] {R ring0 ring1 add mul sub opp ring_eq Ro Rg} phi {AM} F G n.
Arguments lift_one [k] {R ring0 ring1 add mul sub opp ring_eq Ro Rg} phi {AM} _ n _.
Arguments sord_lift [k] {R ring0 ring1 add mul sub opp ring_eq Ro Rg} phi {AM} [m f] _ n _ _.
Arguments sZc_lift [k] {R ring0 ring1 add mul sub opp ring_eq Ro Rg} phi {AM} f n _.

(** Multi-indices (orders in the k perturbation parameters) and their splittings.

    [mi := list nat]; a multi-index of a series in k parameters is a list of length k
    (well-formedness is carried as the side condition [length n = k]).
    [splits n] enumerates all (a, b) with a + b = n pointwise, in the order of
    Python itertools.product over the ranges range(d + 1), d in n (lexicographic, first
    component outermost), as in pymablock.series.product_by_order.

    Also here: the lexicographic comparison [lexc] that breaks ties in the half-sum, and
    [range D], the basis states 0 .. D-1.  This file does NOT import Ncring, whose notations
    capture + and * at every type: plain nat / list arithmetic is done in files like this one
    (see also ExecIdx.v, SymIdx.v). *)
Require Import List Arith Lia Permutation Bool.
Import ListNotations.
Set Implicit Arguments.

Definition mi := list nat.

Fixpoint deg (n : mi) : nat :=
  match n with [] => 0 | d :: r => d + deg r end.

(** pointwise sum (truncating at the shorter list; only used on equal lengths) *)
Fixpoint padd (a b : mi) : mi :=
  match a, b with
  | x :: a', y :: b' => (x + y) :: padd a' b'
  | _, _ => []
  end.

Fixpoint splits (n : mi) : list (mi * mi) :=
  match n with
  | [] => [([], [])]
  | d :: r =>
      flat_map (fun i => map (fun p => (i :: fst p, (d - i) :: snd p)) (splits r))
               (seq 0 (S d))
  end.

Definition mzero (k : nat) : mi := repeat 0 k.
Definition is_zero (n : mi) : bool := forallb (Nat.eqb 0) n.

Definition swap {A B} (p : A * B) : B * A := (snd p, fst p).

Lemma NoDup_app' {A} (l1 l2 : list A) :
  NoDup l1 -> NoDup l2 -> (forall a, In a l1 -> ~ In a l2) -> NoDup (l1 ++ l2).
Proof.
  induction l1 as [|a l IH]; cbn; intros H1 H2 H; auto.
  inversion H1; subst. constructor.
  - rewrite in_app_iff. intros [?|?]; auto. eapply H; eauto.
  - apply IH; auto.
Qed.

Lemma nodup_flat_map {A B} (g : A -> list B) l :
  NoDup l -> (forall a, In a l -> NoDup (g a)) ->
  (forall a a' b, In a l -> In a' l -> In b (g a) -> In b (g a') -> a = a') ->
  NoDup (flat_map g l).
Proof.
  induction 1 as [|a l Hn Hl IH]; cbn; intros Hg Hd. constructor.
  apply NoDup_app'. apply Hg; now left. apply IH; auto. intros; eapply Hd; eauto.
  intros b Hb Hb'. apply in_flat_map in Hb'. destruct Hb' as (a' & Ia' & Ib').
  assert (a = a') by (eapply Hd; eauto). subst. contradiction.
Qed.

Lemma nodup_map_inj {A B} (g : A -> B) l :
  (forall x y, In x l -> In y l -> g x = g y -> x = y) -> NoDup l -> NoDup (map g l).
Proof.
  intros Hinj. induction 1 as [|a l Hn Hl IH]; cbn. constructor.
  constructor.
  - rewrite in_map_iff. intros (x & E & I). apply Hinj in E; cbn; auto. subst. contradiction.
  - apply IH. intros; apply Hinj; cbn; auto.
Qed.

Lemma nodup_filter {A} (P : A -> bool) l : NoDup l -> NoDup (filter P l).
Proof. apply NoDup_filter. Qed.

Lemma padd_length a b : length a = length b -> length (padd a b) = length a.
Proof.
  revert b. induction a as [|x a IH]; intros [|y b]; cbn; intros H; try discriminate; auto.
Qed.

Lemma padd_comm a b : padd a b = padd b a.
Proof.
  revert b. induction a as [|x a IH]; intros [|y b]; cbn; auto.
  rewrite IH. f_equal. lia.
Qed.

Lemma padd_assoc a b c : padd a (padd b c) = padd (padd a b) c.
Proof.
  revert b c. induction a as [|x a IH]; intros [|y b] [|z c]; cbn; auto.
  rewrite IH. f_equal. lia.
Qed.

Lemma deg_padd a b : length a = length b -> deg (padd a b) = deg a + deg b.
Proof.
  revert b. induction a as [|x a IH]; intros [|y b]; cbn; intros H; try discriminate; auto.
  rewrite IH by lia. lia.
Qed.

Lemma mzero_length k : length (mzero k) = k.
Proof. apply repeat_length. Qed.

Lemma deg_mzero k : deg (mzero k) = 0.
Proof. induction k; cbn; auto. Qed.

Lemma is_zero_cons d n : is_zero (d :: n) = (Nat.eqb 0 d && is_zero n).
Proof. reflexivity. Qed.

Lemma is_zero_deg n : is_zero n = true <-> deg n = 0.
Proof.
  induction n as [|d n IH]. cbn; tauto.
  rewrite is_zero_cons, andb_true_iff, IH, Nat.eqb_eq. cbn [deg]. lia.
Qed.

Lemma is_zero_mzero n : is_zero n = true <-> n = mzero (length n).
Proof.
  induction n as [|d n IH]. cbn; tauto.
  rewrite is_zero_cons, andb_true_iff, IH, Nat.eqb_eq. cbn [length mzero repeat]. split.
  - intros [<- E]. unfold mzero in E. now rewrite <- E.
  - intros E. inversion E. unfold mzero. rewrite <- H1. auto.
Qed.

Lemma is_zero_mzero_k k : is_zero (mzero k) = true.
Proof. apply is_zero_deg, deg_mzero. Qed.

Lemma deg0_mzero k n : length n = k -> deg n = 0 -> n = mzero k.
Proof. intros <- H. apply is_zero_mzero, is_zero_deg, H. Qed.

Lemma is_zero_padd a b :
  length a = length b -> is_zero (padd a b) = is_zero a && is_zero b.
Proof.
  intros L. apply eq_true_iff_eq. rewrite andb_true_iff, !is_zero_deg, deg_padd by auto. lia.
Qed.

Definition issplit (a b n : mi) : Prop :=
  length a = length n /\ length b = length n /\ padd a b = n.

Lemma in_splits n a b : In (a, b) (splits n) <-> issplit a b n.
Proof.
  unfold issplit. revert a b. induction n as [|d r IH]; intros a b; cbn [splits].
  - cbn. split.
    + intros [E|[]]. inversion E; subst. auto.
    + intros (La & Lb & _). destruct a, b; try discriminate. auto.
  - rewrite in_flat_map. split.
    + intros (i & Ii & Ip). apply in_seq in Ii. apply in_map_iff in Ip.
      destruct Ip as ((u, v) & E & Ip). cbn [fst snd] in E. inversion E; subst.
      apply IH in Ip. destruct Ip as (Lu & Lv & P). cbn. rewrite Lu, Lv, P.
      repeat split; auto. f_equal. lia.
    + intros (La & Lb & P). destruct a as [|x a], b as [|y b]; try discriminate.
      cbn in La, Lb, P. inversion P; subst. exists x. split. apply in_seq; lia.
      apply in_map_iff. exists (a, b). cbn [fst snd]. split.
      * do 2 f_equal. lia.
      * apply IH. repeat split; lia.
Qed.

Lemma splits_length n a b :
  In (a, b) (splits n) -> length a = length n /\ length b = length n.
Proof. rewrite in_splits. unfold issplit. tauto. Qed.

Lemma splits_deg n a b : In (a, b) (splits n) -> deg a + deg b = deg n.
Proof.
  rewrite in_splits. intros (La & Lb & <-). rewrite deg_padd; lia.
Qed.

Lemma nodup_splits n : NoDup (splits n).
Proof.
  induction n as [|d r IH]; cbn [splits].
  - constructor. intros []. constructor.
  - apply nodup_flat_map. apply seq_NoDup.
    + intros i _. apply nodup_map_inj; auto.
      intros (u, v) (u', v') _ _ E. cbn [fst snd] in E. now inversion E.
    + intros i i' (a, b) _ _ I I'. apply in_map_iff in I, I'.
      destruct I as (p & E & _), I' as (p' & E' & _). inversion E; inversion E'; subst.
      congruence.
Qed.

Lemma splits_mzero k : splits (mzero k) = [(mzero k, mzero k)].
Proof.
  induction k as [|k IH]. reflexivity.
  change (mzero (S k)) with (0 :: mzero k). cbn [splits seq flat_map].
  rewrite IH. reflexivity.
Qed.

Lemma splits_zero_l n : In (mzero (length n), n) (splits n).
Proof.
  apply in_splits. unfold issplit. rewrite mzero_length. repeat split; auto.
  induction n as [|d n IH]; cbn; auto. unfold mzero in IH. now rewrite IH.
Qed.

Lemma splits_zero_r n : In (n, mzero (length n)) (splits n).
Proof.
  apply in_splits. unfold issplit. rewrite mzero_length. repeat split; auto.
  rewrite padd_comm.
  induction n as [|d n IH]; cbn; auto. unfold mzero in IH. now rewrite IH.
Qed.

(** swapping the two halves *)
Lemma splits_swap n : Permutation (map (@swap mi mi) (splits n)) (splits n).
Proof.
  apply NoDup_Permutation.
  - apply nodup_map_inj. 2: apply nodup_splits.
    intros (a, b) (a', b') _ _ E. unfold swap in E. cbn in E. now inversion E.
  - apply nodup_splits.
  - intros (a, b). rewrite in_map_iff. split.
    + intros ((u, v) & E & I). unfold swap in E. cbn in E. inversion E; subst.
      apply in_splits in I. apply in_splits. unfold issplit in *.
      rewrite padd_comm. tauto.
    + intros I. exists (b, a). split. reflexivity.
      apply in_splits in I. apply in_splits. unfold issplit in *.
      rewrite padd_comm. tauto.
Qed.

Definition trip1 (n : mi) : list (mi * mi * mi) :=
  flat_map (fun p => map (fun q => (fst p, fst q, snd q)) (splits (snd p))) (splits n).
Definition trip2 (n : mi) : list (mi * mi * mi) :=
  flat_map (fun p => map (fun q => (fst q, snd q, snd p)) (splits (fst p))) (splits n).

Definition istrip (a b c n : mi) : Prop :=
  length a = length n /\ length b = length n /\ length c = length n /\
  padd (padd a b) c = n.

Lemma in_trip1 n a b c : In (a, b, c) (trip1 n) <-> istrip a b c n.
Proof.
  unfold trip1, istrip. rewrite in_flat_map. split.
  - intros ((x, y) & I & J). apply in_splits in I. cbn [fst snd] in J.
    apply in_map_iff in J. destruct J as ((u, v) & E & J). apply in_splits in J.
    cbn [fst snd] in E. inversion E; subst. unfold issplit in *.
    destruct I as (I1 & I2 & I3), J as (J1 & J2 & J3).
    rewrite <- padd_assoc, J3. repeat split; congruence.
  - intros (La & Lb & Lc & P). exists (a, padd b c). split.
    + apply in_splits. unfold issplit. rewrite padd_assoc, padd_length by congruence. tauto.
    + cbn [fst snd]. apply in_map_iff. exists (b, c). split; auto.
      apply in_splits. unfold issplit. rewrite padd_length by congruence.
      repeat split; congruence.
Qed.

Lemma in_trip2 n a b c : In (a, b, c) (trip2 n) <-> istrip a b c n.
Proof.
  unfold trip2, istrip. rewrite in_flat_map. split.
  - intros ((x, y) & I & J). apply in_splits in I. cbn [fst snd] in J.
    apply in_map_iff in J. destruct J as ((u, v) & E & J). apply in_splits in J.
    cbn [fst snd] in E. inversion E; subst. unfold issplit in *.
    destruct I as (I1 & I2 & I3), J as (J1 & J2 & J3).
    rewrite J3. repeat split; congruence.
  - intros (La & Lb & Lc & P). exists (padd a b, c). split.
    + apply in_splits. unfold issplit. rewrite padd_length by congruence. tauto.
    + cbn [fst snd]. apply in_map_iff. exists (a, b). split; auto.
      apply in_splits. unfold issplit. rewrite padd_length by congruence.
      repeat split; congruence.
Qed.

Lemma nodup_trip1 n : NoDup (trip1 n).
Proof.
  apply nodup_flat_map. apply nodup_splits.
  - intros (x, y) _. apply nodup_map_inj. 2: apply nodup_splits.
    intros (u, v) (u', v') _ _ E. cbn [fst snd] in E. now inversion E.
  - intros (x, y) (x', y') ((a, b), c) I I' J J'. cbn [fst snd] in *.
    apply in_map_iff in J, J'.
    destruct J as ((u, v) & E & J), J' as ((u', v') & E' & J'). cbn [fst snd] in *.
    inversion E; inversion E'; subst.
    apply in_splits in J, J'. unfold issplit in *. f_equal.
    destruct J as (_ & _ & <-), J' as (_ & _ & <-). reflexivity.
Qed.

Lemma nodup_trip2 n : NoDup (trip2 n).
Proof.
  apply nodup_flat_map. apply nodup_splits.
  - intros (x, y) _. apply nodup_map_inj. 2: apply nodup_splits.
    intros (u, v) (u', v') _ _ E. cbn [fst snd] in E. now inversion E.
  - intros (x, y) (x', y') ((a, b), c) I I' J J'. cbn [fst snd] in *.
    apply in_map_iff in J, J'.
    destruct J as ((u, v) & E & J), J' as ((u', v') & E' & J'). cbn [fst snd] in *.
    inversion E; inversion E'; subst.
    apply in_splits in J, J'. unfold issplit in *. f_equal.
    destruct J as (_ & _ & <-), J' as (_ & _ & <-). reflexivity.
Qed.

Lemma trip_perm n : Permutation (trip1 n) (trip2 n).
Proof.
  apply NoDup_Permutation. apply nodup_trip1. apply nodup_trip2.
  intros ((a, b), c). rewrite in_trip1, in_trip2. tauto.
Qed.

(** * lexicographic comparison (Python tuple comparison) *)

Fixpoint lexc (a b : mi) : comparison :=
  match a, b with
  | [], [] => Eq
  | [], _ :: _ => Lt
  | _ :: _, [] => Gt
  | x :: a', y :: b' =>
      match Nat.compare x y with Eq => lexc a' b' | c => c end
  end.

Definition lex_ltb (a b : mi) : bool := match lexc a b with Lt => true | _ => false end.
Definition lex_leb (a b : mi) : bool := match lexc a b with Gt => false | _ => true end.
Definition mi_eqb (a b : mi) : bool := match lexc a b with Eq => true | _ => false end.

Lemma lexc_eq a b : lexc a b = Eq <-> a = b.
Proof.
  revert b. induction a as [|x a IH]; intros [|y b]; cbn; try (split; congruence).
  destruct (Nat.compare_spec x y); subst.
  - rewrite IH. split; congruence.
  - split. discriminate. intros E. inversion E. lia.
  - split. discriminate. intros E. inversion E. lia.
Qed.

Lemma lexc_refl a : lexc a a = Eq.
Proof. now apply lexc_eq. Qed.

Lemma lexc_antisym a b : lexc b a = CompOpp (lexc a b).
Proof.
  revert b. induction a as [|x a IH]; intros [|y b]; cbn; auto.
  rewrite (Nat.compare_antisym x y). destruct (Nat.compare x y); cbn; auto.
Qed.

Lemma mi_eqb_eq a b : mi_eqb a b = true <-> a = b.
Proof. unfold mi_eqb. rewrite <- lexc_eq. destruct (lexc a b); split; congruence. Qed.

Lemma lex_ltb_swap a b : lex_ltb b a = match lexc a b with Gt => true | _ => false end.
Proof. unfold lex_ltb. rewrite lexc_antisym. destruct (lexc a b); reflexivity. Qed.

(** * ranges of basis-state indices (kept here: no Ncring notations) *)
Definition range (D : nat) : list nat := seq 0 D.

Lemma in_range D i : In i (range D) <-> i < D.
Proof. unfold range. rewrite in_seq. lia. Qed.

Lemma nodup_range D : NoDup (range D).
Proof. apply seq_NoDup. Qed.

Lemma range_S D : range (S D) = range D ++ [D].
Proof. unfold range. rewrite seq_S. reflexivity. Qed.

Lemma padd_mzero_l n : padd (mzero (length n)) n = n.
Proof. induction n as [|d n IH]; cbn; auto. unfold mzero in IH. now rewrite IH. Qed.

Lemma splits_zero_l_inv n a b :
  In (a, b) (splits n) -> is_zero a = true -> a = mzero (length n) /\ b = n.
Proof.
  rewrite in_splits. intros (La & Lb & P) Z. apply is_zero_mzero in Z.
  rewrite La in Z. split; auto. subst a. rewrite <- Lb in P.
  now rewrite padd_mzero_l in P.
Qed.

Lemma splits_zero_r_inv n a b :
  In (a, b) (splits n) -> is_zero b = true -> a = n /\ b = mzero (length n).
Proof.
  rewrite in_splits. intros (La & Lb & P) Z. apply is_zero_mzero in Z.
  rewrite Lb in Z. split; auto. subst b. rewrite <- La, padd_comm in P.
  now rewrite padd_mzero_l in P.
Qed.

Lemma splits_is_zero n a b :
  In (a, b) (splits n) -> is_zero n = is_zero a && is_zero b.
Proof.
  rewrite in_splits. intros (La & Lb & <-). apply is_zero_padd. congruence.
Qed.

(** order arithmetic for files that import Ncring (kept here so that [lia] sees plain nat) *)
Lemma deg_split_cases m dx dy dn :
  dx + dy = dn -> dn < S m -> dx = 0 \/ dy = 0 \/ (dx < m /\ dy < m).
Proof. lia. Qed.

Lemma deg_lt1 d : d < 1 <-> d = 0.
Proof. lia. Qed.

Lemma splits_deg_le N n a b :
  In (a, b) (splits n) -> deg n <= N -> deg a <= N /\ deg b <= N.
Proof. intros I H. apply splits_deg in I. lia. Qed.

Lemma lt_S_le a b : a < S b <-> a <= b.
Proof. lia. Qed.

(** the enumeration order is that of itertools.product(range(2), range(3)) *)
Example splits_order :
  map fst (splits [1; 2]) = [[0; 0]; [0; 1]; [0; 2]; [1; 0]; [1; 1]; [1; 2]]
  /\ map snd (splits [1; 2]) = [[1; 2]; [1; 1]; [1; 0]; [0; 2]; [0; 1]; [0; 0]].
Proof. split; reflexivity. Qed.

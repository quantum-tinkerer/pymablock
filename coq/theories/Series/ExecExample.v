(** A concrete instance (3 basis states, blocks {0,1} and {2}, 2 parameters, rational
    coefficients) of the [BlockAlg] of Series/Inst.v, and the workflow of Series/Exec.v:
    an equation between denotations up to total order N is obtained from a [vm_compute]
    of [teqb] on tables, the [t*_den] lemmas and the congruence lemmas [eqN_*]. *)
Require Import List QArith Ncring.
From PV.Base Require Import Classes.
From PV.Series Require Import Inst Exec.
From PV.Block Require Import Masks QLemmas QInst.
Import ListNotations.

Definition ex_blk (p : nat) : nat := (match p with 0 => 0 | 1 => 0 | _ => 1 end)%nat.
Definition ex_keep (p q : nat) : bool := Nat.eqb (ex_blk p) (ex_blk q).
Definition ex_cm (p : nat) : bool := true.
Lemma ex_keep_sym p q : ex_keep p q = ex_keep q p.
Proof. apply Nat.eqb_sym. Qed.
Lemma ex_keep_blk p q : ex_keep p q = true -> ex_blk p = ex_blk q.
Proof. apply Nat.eqb_eq. Qed.
Lemma ex_cm_blk p q : ex_blk p = ex_blk q -> ex_cm p = ex_cm q.
Proof. reflexivity. Qed.

Definition ex_BA : BlockAlg (T 3 2 Q) :=
  series_BlockAlg 3 2 ex_blk ex_keep ex_cm ex_keep_sym ex_keep_blk ex_cm_blk.

(** a Hermitian series with coefficients at orders (0,0), (1,0), (0,1) *)
Definition ex_a : tser Q :=
  [([0;0]%nat, [[1;0;0];[0;2;0];[0;0;3]]);
   ([1;0]%nat, [[0;1;1#2];[1;0;0];[1#2;0;0]]);
   ([0;1]%nat, [[1;0;0];[0;0;1];[0;1;0]])]%Q.

Example ex_mul_table :
  tmul 3 2 2 ex_a ex_a =
  [([0;0]%nat, [[1;0;0];[0;4;0];[0;0;9]]);
   ([0;1]%nat, [[2;0;0];[0;0;5];[0;5;0]]);
   ([0;2]%nat, [[1;0;0];[0;1;0];[0;0;1]]);
   ([1;0]%nat, [[0;3;2];[3;0;0];[2;0;0]]);
   ([1;1]%nat, [[0;3#2;3#2];[3#2;0;0];[3#2;0;0]]);
   ([2;0]%nat, [[5#4;0;0];[0;1;1#2];[0;1#2;1#4]])]%Q.
Proof. vm_compute. reflexivity. Qed.

Local Close Scope Q_scope.

(** associativity instance, up to total order 2, from a computation on tables *)
Example ex_assoc :
  eqN 3 2 2 (den 3 2 ex_a * (den 3 2 ex_a * den 3 2 ex_a))
            ((den 3 2 ex_a * den 3 2 ex_a) * den 3 2 ex_a).
Proof.
  assert (C : teqb 3 2 2 (tmul 3 2 2 ex_a (tmul 3 2 2 ex_a ex_a))
                         (tmul 3 2 2 (tmul 3 2 2 ex_a ex_a) ex_a) = true)
    by (vm_compute; reflexivity).
  apply teqb_sound in C.
  (* den (tmul a (tmul a a)) =N den a * (den a * den a), and symmetrically *)
  pose proof (eqN_trans (tmul_den (N := 2) ex_a (tmul 3 2 2 ex_a ex_a))
                        (eqN_mul (eqN_refl (N := 2) (den 3 2 ex_a)) (tmul_den (N := 2) ex_a ex_a))) as L.
  pose proof (eqN_trans (tmul_den (N := 2) (tmul 3 2 2 ex_a ex_a) ex_a)
                        (eqN_mul (tmul_den (N := 2) ex_a ex_a) (eqN_refl (N := 2) (den 3 2 ex_a)))) as R.
  exact (eqN_trans (eqN_sym L) (eqN_trans C R)).
Qed.

(** the half-sum agrees with the diagonal blocks of the product when the second factor is
    the adjoint of the first (computation; cf. [hsum_spec]) *)
Example ex_hsum :
  teqb 3 2 3
    (thsum 3 2 ex_blk 3 ex_a (tadj 3 2 ex_blk ex_keep ex_cm ex_keep_sym ex_keep_blk ex_cm_blk 3 ex_a))
    (tDg 3 2 ex_blk ex_keep ex_cm ex_keep_sym ex_keep_blk ex_cm_blk 3
         (tmul 3 2 3 ex_a (tadj 3 2 ex_blk ex_keep ex_cm ex_keep_sym ex_keep_blk ex_cm_blk 3 ex_a)))
  = true.
Proof. vm_compute. reflexivity. Qed.

Print Assumptions ex_assoc.

(** the hypotheses of the solver lemmas of Series/SylvInst.v are satisfiable: energies
    0, 1, 2 and the field inverse on Q *)
From PV.Series Require Import SylvInst.
Require Import Lia.
Definition ex_E (p : nat) : Q := inject_Z (Z.of_nat p).
Definition ex_inv (x : Q) : Q := Qinv x.

Lemma ex_inv_spec p q :
  (p < 3)%nat -> (q < 3)%nat -> ex_keep p q = false ->
  Qeq (Qmult (Qminus (ex_E p) (ex_E q)) (ex_inv (Qminus (ex_E p) (ex_E q)))) 1%Q.
Proof.
  intros Hp Hq.
  destruct p as [|[|[|p]]]; try lia; destruct q as [|[|[|q]]]; try lia;
    cbn; intros K; try discriminate; reflexivity.
Qed.

Local Existing Instance ex_BA.
Example ex_sylv_spec (y : T 3 2 Q) :
  let X := H0 3 2 ex_E * sylv ex_E ex_inv y - sylv ex_E ex_inv y * H0 3 2 ex_E in
  X - Sel X == y - Sel y.
Proof.
  exact (sylv_spec (k := 2) ex_blk ex_keep ex_cm ex_keep_sym ex_keep_blk ex_cm_blk ex_E ex_inv
                   ex_inv_spec y).
Qed.
Print Assumptions ex_sylv_spec.

(** the euclidean condition [keep_eucl_on] (Block/Masks.v) holds for this wiring: case (a) there, no scope function *)
Example ex_eucl : keep_eucl_on 3 ex_keep ex_cm.
Proof. exact (@keep_eucl_blocks 3 ex_blk ex_cm). Qed.

(** Gaussian rationals: sigma_y = [[0, -i], [i, 0]] is Hermitian and squares to 1 *)
Definition ey_blk (p : nat) : nat := p.
Definition ey_keep (p q : nat) : bool := Nat.eqb p q.
Definition ey_cm (p : nat) : bool := true.
Lemma ey_keep_sym p q : ey_keep p q = ey_keep q p. Proof. apply Nat.eqb_sym. Qed.
Lemma ey_keep_blk p q : ey_keep p q = true -> ey_blk p = ey_blk q. Proof. apply Nat.eqb_eq. Qed.
Lemma ey_cm_blk p q : ey_blk p = ey_blk q -> ey_cm p = ey_cm q. Proof. reflexivity. Qed.
Definition sigma_y : tser gq :=
  cons (cons 0%nat nil, [[(0, 0); (0, -1)]; [(0, 1); (0, 0)]]%Q) nil.
Example ex_sigma_y :
  teqb 2 1 3 (tadj 2 1 ey_blk ey_keep ey_cm ey_keep_sym ey_keep_blk ey_cm_blk 3 sigma_y) sigma_y
  && teqb 2 1 3 (tmul 2 1 3 sigma_y sigma_y) (tone 2 1 3) = true.
Proof. vm_compute. reflexivity. Qed.

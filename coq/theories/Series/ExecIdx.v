(** Index enumeration, association-list lookup and list-of-lists tabulation used by the
    executable representation of truncated series (Series/Exec.v).  No Ncring here. *)
Require Import List Lia.
From PV.Series Require Import MultiIndex.
Import ListNotations.
Set Implicit Arguments.

(** all multi-indices of length k and total degree <= N *)
Fixpoint idx (k N : nat) : list mi :=
  match k with
  | 0 => [[]]
  | S k' => flat_map (fun d => map (cons d) (idx k' (N - d))) (seq 0 (S N))
  end.

Lemma in_idx k N n : In n (idx k N) <-> length n = k /\ deg n <= N.
Proof.
  revert N n. induction k as [|k IH]; intros N n; cbn [idx].
  - cbn. split.
    + intros [<-|[]]. cbn. lia.
    + intros [L _]. destruct n; try discriminate. auto.
  - rewrite in_flat_map. split.
    + intros (d & Hd & Hn). apply in_seq in Hd. apply in_map_iff in Hn.
      destruct Hn as (m & <- & Hm). apply IH in Hm. cbn. lia.
    + intros [L Hdeg]. destruct n as [|d m]; try discriminate. cbn in L, Hdeg.
      exists d. split. apply in_seq; lia. apply in_map. apply IH. lia.
Qed.

(** first-match lookup in an association list keyed by multi-indices *)
Fixpoint lookup {V} (n : mi) (t : list (mi * V)) : option V :=
  match t with
  | [] => None
  | (m, v) :: t' => if mi_eqb m n then Some v else lookup n t'
  end.

Lemma lookup_tab {V} (g : mi -> V) n l :
  In n l -> lookup n (map (fun m => (m, g m)) l) = Some (g n).
Proof.
  induction l as [|m l IH]; cbn [map lookup In]. contradiction.
  destruct (mi_eqb m n) eqn:E.
  - apply mi_eqb_eq in E. subst. reflexivity.
  - intros [->|H]; auto. rewrite (proj2 (mi_eqb_eq n n) eq_refl) in E. discriminate.
Qed.

Lemma lookup_tab_none {V} (g : mi -> V) n l :
  ~ In n l -> lookup n (map (fun m => (m, g m)) l) = None.
Proof.
  induction l as [|m l IH]; cbn [map lookup In]; intros H. reflexivity.
  destruct (mi_eqb m n) eqn:E.
  - apply mi_eqb_eq in E. subst. elim H. now left.
  - apply IH. tauto.
Qed.

(** matrices as lists of rows *)
Definition nth2 {A} (d : A) (v : list (list A)) (p q : nat) : A := nth q (nth p v []) d.

Definition tabm {A} (D : nat) (h : nat -> nat -> A) : list (list A) :=
  map (fun p => map (fun q => h p q) (range D)) (range D).

Lemma nth_map_range {A} (F : nat -> A) D p d : p < D -> nth p (map F (range D)) d = F p.
Proof.
  intros Hp. rewrite (nth_indep _ d (F 0)) by (rewrite map_length; unfold range; now rewrite seq_length).
  rewrite map_nth. unfold range. now rewrite seq_nth.
Qed.

Lemma nth2_tabm {A} (d : A) D h p q : p < D -> q < D -> nth2 d (tabm D h) p q = h p q.
Proof.
  intros Hp Hq. unfold nth2, tabm. rewrite nth_map_range by assumption.
  now rewrite nth_map_range.
Qed.

(** Series over a coefficient ring with a [CoefAlg] structure form a [BlockAlg]:
    all structure maps act coefficient-wise, the product is the Cauchy product,
    [ord]/[Zc] are the filtration by total degree and the order-zero coefficient,
    [hsum] is the half-sum of pymablock.series.product_by_order (hermitian, diagonal block). *)
Require Import Ncring_tac.
From PV.Base Require Import Classes BigSum AlgLemmas.
From PV.Series Require Import MultiIndex Cauchy.
From PV.Block Require Import CoefAlg.
Set Implicit Arguments.

Section Lift.
Variable k : nat.
Context {R : Type} `{Rg : Ring R} {CA : CoefAlg R}.
Notation Ser := (series k R).
Notation "f =s g" := (seq_eq (k := k) f g) (at level 70).

Definition s_adj : Ser -> Ser := lift cadj.
Definition s_divz (f : Ser) (z : Z) : Ser := fun n => cdivz (f n) z.
Definition s_Dg : Ser -> Ser := lift cDg.
Definition s_Up : Ser -> Ser := lift cUp.
Definition s_Lo : Ser -> Ser := lift cLo.
Definition s_Sel : Ser -> Ser := lift cSel.
Definition s_Rw : Ser -> Ser := lift cRw.

(** one term of the half-sum: the pair (a1, a2) of orders with a1 + a2 = n contributes
    nothing if a1 > a2 (tuple comparison), the plain product if a1 = a2, and the product
    plus its adjoint if a1 < a2 *)
Definition hterm (a b : Ser) (p : mi * mi) : R :=
  match lexc (fst p) (snd p) with
  | Lt => a (fst p) * b (snd p) + cadj (a (fst p) * b (snd p))
  | Eq => a (fst p) * b (snd p)
  | Gt => 0
  end.
Definition s_half (a b : Ser) : Ser := fun n => bigsum (hterm a b) (splits n).
Definition s_hsum (a b : Ser) : Ser := lift cDg (s_half a b).

Lemma s_adj_mul f g : s_adj (conv f g) =s conv (s_adj g) (s_adj f).
Proof.
  intros n _. unfold s_adj. rewrite (lift_conv (k := k) cadj), (conv_swap (Rg := Rg)).
  apply bigsum_ext. intros (a, b) _. cbn [fst snd]. apply cadj_mul.
Qed.

Lemma s_adj_inv f : s_adj (s_adj f) =s f.
Proof. intros n _. apply cadj_inv. Qed.

Lemma s_adj_one : s_adj (sone k) =s sone k.
Proof. exact (lift_one (k := k) cadj cadj_one). Qed.

Lemma s_divz_P z : Proper (seq_eq (k := k) ==> seq_eq (k := k)) (fun f => s_divz f z).
Proof. intros f g H n Hn. unfold s_divz. apply cdivz_P. auto. Qed.

Lemma s_divz_add z f g : s_divz (sadd f g) z =s sadd (s_divz f z) (s_divz g z).
Proof. intros n _. apply cdivz_add. Qed.

Lemma s_divz_opp z f : s_divz (sopp f) z =s sopp (s_divz f z).
Proof. intros n _. apply cdivz_opp. Qed.

Lemma s_divz_spec z (f : Ser) : z <> 0%Z -> zmul z (s_divz f z) =s f.
Proof. intros Hz n _. rewrite (zmul_coeff (Rg := Rg)). now apply cdivz_spec. Qed.

Lemma s_blk_split f : f =s sadd (sadd (s_Dg f) (s_Up f)) (s_Lo f).
Proof. intros n _. apply cblk_split. Qed.

Lemma s_Dg_mul_l f g : s_Dg (conv (s_Dg f) g) =s conv (s_Dg f) (s_Dg g).
Proof.
  intros n _. unfold s_Dg. rewrite (lift_conv (k := k) cDg). apply bigsum_ext.
  intros (a, b) _. apply cDg_mul_l.
Qed.

Lemma s_Dg_mul_r f g : s_Dg (conv f (s_Dg g)) =s conv (s_Dg f) (s_Dg g).
Proof.
  intros n _. unfold s_Dg. rewrite (lift_conv (k := k) cDg). apply bigsum_ext.
  intros (a, b) _. apply cDg_mul_r.
Qed.

Lemma s_Dg_one : s_Dg (sone k) =s sone k.
Proof. exact (lift_one (k := k) cDg cDg_one). Qed.

Lemma s_ord_divz m f z : sord (k := k) m f -> sord (k := k) m (s_divz f z).
Proof.
  intros H n Hn Hd. unfold s_divz. transitivity (cdivz 0 z).
  apply cdivz_P. exact (H n Hn Hd).
  apply (additive_zero (phi := fun x => cdivz x z)). apply cdivz_add. apply cdivz_P.
Qed.

Lemma hterm_P : Proper (seq_eq (k := k) ==> seq_eq (k := k) ==> seq_eq (k := k)) s_half.
Proof.
  intros a a' Ha b b' Hb n Hn. unfold s_half. apply bigsum_ext.
  intros (x, y) I. apply splits_length in I. destruct I as [Lx Ly].
  unfold hterm. cbn [fst snd].
  assert (E1 : a x == a' x) by (apply Ha; congruence).
  assert (E2 : b y == b' y) by (apply Hb; congruence).
  destruct (lexc x y); rewrite ?E1, ?E2; reflexivity.
Qed.

Lemma s_hsum_P : Proper (seq_eq (k := k) ==> seq_eq (k := k) ==> seq_eq (k := k)) s_hsum.
Proof.
  intros a a' Ha b b' Hb. unfold s_hsum. apply lift_P. apply am_P.
  now apply hterm_P.
Qed.

Lemma s_hsum_Dg a b : s_Dg (s_hsum a b) =s s_hsum a b.
Proof. intros n _. apply cDg_Dg. Qed.

(** The half-sum equals the full Cauchy sum at every order at which the second factor
    is the adjoint of the first on all the proper sub-orders. *)
Lemma half_full m a b :
  sord (k := k) 1 a -> sord (k := k) 1 b -> sord (k := k) m (ssub b (s_adj a)) ->
  forall n, length n = k -> (deg n < S m)%nat -> s_half a b n == conv a b n.
Proof.
  intros Ha Hb Hd n Hn Hdeg. unfold s_half, conv.
  pose (F := fun p : mi * mi => a (fst p) * b (snd p)).
  pose (lo := fun p : mi * mi =>
                match lexc (fst p) (snd p) with Gt => 0 | _ => F p end).
  transitivity (bigsum lo (splits n) +
                bigsum (fun p => match lexc (fst p) (snd p) with
                                 | Lt => cadj (F p) | _ => 0 end) (splits n)).
  { rewrite <- bigsum_add. apply bigsum_ext. intros p _. unfold hterm, lo, F.
    destruct (lexc (fst p) (snd p)); non_commutative_ring. }
  transitivity (bigsum lo (splits n) +
                bigsum (fun p => match lexc (fst p) (snd p) with
                                 | Gt => F p | _ => 0 end) (splits n)).
  2:{ rewrite <- bigsum_add. apply bigsum_ext. intros p _. unfold lo, F.
      destruct (lexc (fst p) (snd p)); non_commutative_ring. }
  apply ring_plus_comp. reflexivity.
  rewrite <- (bigsum_perm
                (fun p => match lexc (fst p) (snd p) with Gt => F p | _ => 0 end)
                (splits_swap n)), bigsum_map.
  apply bigsum_ext. intros (x, y) I. unfold swap. cbn [fst snd].
  rewrite (lexc_antisym x y). destruct (lexc x y) eqn:C; cbn [CompOpp]; try reflexivity.
  unfold F. cbn [fst snd].
  (* the term  adj (a x * b y) == a y * b x  for deg x + deg y <= m *)
  pose proof (splits_deg _ _ _ I) as E. apply splits_length in I. destruct I as [Lx Ly].
  assert (Lx' : length x = k) by congruence. assert (Ly' : length y = k) by congruence.
  destruct (@deg_split_cases m _ _ _ E Hdeg) as [Zx|[Zy|[Dx Dy]]].
  { rewrite (Ha x), (Hb x); auto; try (rewrite Zx; constructor).
    transitivity (cadj 0). apply am_P. non_commutative_ring.
    rewrite (am_zero (f := cadj)). non_commutative_ring. }
  { rewrite (Ha y), (Hb y); auto; try (rewrite Zy; constructor).
    transitivity (cadj 0). apply am_P. non_commutative_ring.
    rewrite (am_zero (f := cadj)). non_commutative_ring. }
  assert (Bx : b x == cadj (a x)).
  { pose proof (Hd x Lx' Dx) as H. unfold ssub, s_adj, lift in H.
    transitivity ((b x - cadj (a x)) + cadj (a x)). non_commutative_ring.
    rewrite H. non_commutative_ring. }
  assert (By : b y == cadj (a y)).
  { pose proof (Hd y Ly' Dy) as H. unfold ssub, s_adj, lift in H.
    transitivity ((b y - cadj (a y)) + cadj (a y)). non_commutative_ring.
    rewrite H. non_commutative_ring. }
  rewrite cadj_mul, By, cadj_inv, Bx. reflexivity.
Qed.

Lemma s_hsum_spec m a b :
  sord (k := k) 1 a -> sord (k := k) 1 b -> sord (k := k) m (ssub b (s_adj a)) ->
  sord (k := k) (S m) (ssub (s_hsum a b) (s_Dg (conv a b))).
Proof.
  intros Ha Hb Hd n Hn Hdeg. unfold ssub, s_hsum, s_Dg, lift.
  rewrite (half_full Ha Hb Hd n Hn Hdeg). non_commutative_ring.
Qed.

Local Notation "'pw' t" := (fun f n _ => t (f n)) (at level 10, only parsing).

Global Instance series_BlockAlg_gen : BlockAlg Ser := {|
  (* involution *)
  adj := s_adj;
  adj_am := lift_am k (phi := cadj);
  adj_mul := s_adj_mul;
  adj_inv := s_adj_inv;
  adj_one := s_adj_one;
  (* division by integer literals *)
  divz := s_divz;
  divz_P := s_divz_P;
  divz_add := s_divz_add;
  divz_opp := s_divz_opp;
  divz_spec := s_divz_spec;
  (* block projections *)
  Dg := s_Dg; Up := s_Up; Lo := s_Lo;
  Dg_am := lift_am k (phi := cDg);
  Up_am := lift_am k (phi := cUp);
  Lo_am := lift_am k (phi := cLo);
  blk_split := s_blk_split;
  Dg_Dg := pw cDg_Dg; Up_Up := pw cUp_Up; Lo_Lo := pw cLo_Lo;
  Dg_Up := pw cDg_Up; Dg_Lo := pw cDg_Lo;
  Up_Dg := pw cUp_Dg; Up_Lo := pw cUp_Lo;
  Lo_Dg := pw cLo_Dg; Lo_Up := pw cLo_Up;
  Dg_adj := pw cDg_adj; Up_adj := pw cUp_adj; Lo_adj := pw cLo_adj;
  Dg_mul_l := s_Dg_mul_l;
  Dg_mul_r := s_Dg_mul_r;
  Dg_one := s_Dg_one;
  (* selection *)
  Sel := s_Sel;
  Sel_am := lift_am k (phi := cSel);
  Sel_idem := pw cSel_idem;
  Sel_adj := pw cSel_adj;
  Sel_Dg := pw cSel_Dg;
  Dg_Sel := pw cDg_Sel;
  (* rows *)
  Rw := s_Rw;
  Rw_am := lift_am k (phi := cRw);
  Rw_idem := pw cRw_idem;
  Rw_Dg := pw cRw_Dg;
  Rw_Sel := pw cRw_Sel;
  Rw_adj_Dg := pw cRw_adj_Dg;
  (* filtration *)
  ord := sord (k := k);
  ord_P := sord_P (k := k);
  ord_O := sord_O (k := k);
  ord_S := sord_S (k := k);
  ord_zero := sord_zero (k := k);
  ord_add := sord_add (k := k);
  ord_opp := sord_opp (k := k);
  ord_mul := sord_mul (k := k);
  ord_sep := sord_sep (k := k);
  ord_adj := fun m f => sord_lift (k := k) cadj (m := m) (f := f);
  ord_divz := s_ord_divz;
  ord_Dg := fun m f => sord_lift (k := k) cDg (m := m) (f := f);
  ord_Up := fun m f => sord_lift (k := k) cUp (m := m) (f := f);
  ord_Lo := fun m f => sord_lift (k := k) cLo (m := m) (f := f);
  ord_Sel := fun m f => sord_lift (k := k) cSel (m := m) (f := f);
  ord_Rw := fun m f => sord_lift (k := k) cRw (m := m) (f := f);
  (* order-zero coefficient *)
  Zc := sZc (k := k);
  Zc_am := sZc_am k;
  Zc_mul := sZc_mul (k := k);
  Zc_one := sZc_one (k := k);
  Zc_idem := sZc_idem (k := k);
  Zc_ord := sZc_ord (k := k);
  Zc_adj := sZc_lift (k := k) cadj;
  Zc_Dg := sZc_lift (k := k) cDg;
  Zc_Up := sZc_lift (k := k) cUp;
  Zc_Lo := sZc_lift (k := k) cLo;
  Zc_Sel := sZc_lift (k := k) cSel;
  (* half-sum *)
  hsum := s_hsum;
  hsum_P := s_hsum_P;
  hsum_Dg := s_hsum_Dg;
  hsum_spec := s_hsum_spec
|}.

End Lift.

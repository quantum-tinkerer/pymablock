(** Index-level facts used by the symmetry files (no Ncring here: plain nat / list reasoning).

    - a bijection of the basis states {0..D-1} permutes [range D];
    - a degree-preserving automorphism of the order monoid permutes the splittings;
    - splittings of an order with a leading zero (vanishing perturbation);
    - permutation [pm] of the parameters;
    - the index maps [lo], [sh] and the labels [blkS], [keepS], [cmS] of a direct sum;
    - push-forward along a monoid morphism with finite fibres: [pairs_perm]. *)
Require Import List Arith Lia Permutation Bool.
From PV.Series Require Import MultiIndex.
From PV.Block Require Import Masks.
Import ListNotations.

Section StatePerm.
Variable D : nat.
Variables pi pinv : nat -> nat.
Hypothesis pi_lt : forall p, p < D -> pi p < D.
Hypothesis pinv_lt : forall p, p < D -> pinv p < D.
Hypothesis pinv_pi : forall p, p < D -> pinv (pi p) = p.
Hypothesis pi_pinv : forall p, p < D -> pi (pinv p) = p.

Lemma pi_inj p q : p < D -> q < D -> pi p = pi q -> p = q.
Proof. intros Hp Hq E. rewrite <- (pinv_pi p Hp), <- (pinv_pi q Hq), E. reflexivity. Qed.

Lemma pi_eqb p q : p < D -> q < D -> Nat.eqb (pi p) (pi q) = Nat.eqb p q.
Proof.
  intros Hp Hq. destruct (Nat.eqb_spec p q) as [->|N]. apply Nat.eqb_refl.
  apply Nat.eqb_neq. intros E. apply N. now apply pi_inj.
Qed.

Lemma perm_range : Permutation (map pi (range D)) (range D).
Proof.
  apply NoDup_Permutation.
  - apply nodup_map_inj. 2: apply nodup_range.
    intros x y Hx Hy. apply in_range in Hx, Hy. now apply pi_inj.
  - apply nodup_range.
  - intros x. rewrite in_map_iff. split.
    + intros (y & <- & Hy). apply in_range in Hy. apply in_range. now apply pi_lt.
    + intros Hx. apply in_range in Hx. exists (pinv x). split. now apply pi_pinv.
      apply in_range. now apply pinv_lt.
Qed.
End StatePerm.

Section OrderAuto.
Variable k : nat.
Variables f g : mi -> mi.
Hypothesis f_len : forall n, length n = k -> length (f n) = k.
Hypothesis g_len : forall n, length n = k -> length (g n) = k.
Hypothesis gf : forall n, length n = k -> g (f n) = n.
Hypothesis fg : forall n, length n = k -> f (g n) = n.
Hypothesis f_padd : forall a b, length a = k -> length b = k -> f (padd a b) = padd (f a) (f b).
Hypothesis f_deg : forall n, length n = k -> deg (f n) = deg n.

Lemma g_padd a b : length a = k -> length b = k -> g (padd a b) = padd (g a) (g b).
Proof.
  intros La Lb.
  rewrite <- (fg a La), <- (fg b Lb) at 1.
  rewrite <- f_padd by (apply g_len; assumption).
  apply gf. rewrite padd_length; rewrite !g_len; auto.
Qed.

Lemma f_is_zero n : length n = k -> is_zero (f n) = is_zero n.
Proof.
  intros L. apply eq_true_iff_eq. rewrite !is_zero_deg, f_deg by assumption. tauto.
Qed.

Lemma auto_splits n : length n = k ->
  Permutation (map (fun ab => (f (fst ab), f (snd ab))) (splits n)) (splits (f n)).
Proof.
  intros L. apply NoDup_Permutation.
  - apply nodup_map_inj. 2: apply nodup_splits.
    intros (a, b) (a', b') I I' E. cbn [fst snd] in E. injection E as E1 E2.
    apply splits_length in I, I'. destruct I as [La Lb], I' as [La' Lb'].
    rewrite L in *. f_equal.
    + rewrite <- (gf a La), <- (gf a' La'), E1. reflexivity.
    + rewrite <- (gf b Lb), <- (gf b' Lb'), E2. reflexivity.
  - apply nodup_splits.
  - intros (a', b'). rewrite in_map_iff. split.
    + intros ((a, b) & E & I). cbn [fst snd] in E. injection E as <- <-.
      apply in_splits in I. destruct I as (La & Lb & P). rewrite L in *.
      apply in_splits. unfold issplit. rewrite !f_len by assumption.
      repeat split. rewrite <- P. symmetry. now apply f_padd.
    + intros I. apply in_splits in I. destruct I as (La & Lb & P).
      rewrite f_len in La, Lb by assumption.
      exists (g a', g b'). cbn [fst snd]. split.
      * now rewrite !fg.
      * apply in_splits. unfold issplit. rewrite !g_len, L by assumption.
        repeat split. rewrite <- g_padd, P by assumption. now apply gf.
Qed.
End OrderAuto.

(** * orders with a leading entry (vanishing perturbation inserted in front) *)
Lemma splits_cons0 n :
  splits (0 :: n) = map (fun ab => (0 :: fst ab, 0 :: snd ab)) (splits n).
Proof. cbn [splits seq flat_map]. rewrite app_nil_r. reflexivity. Qed.

Lemma splits_cons_pos m n a b :
  In (a, b) (splits (m :: n)) -> m <> 0 ->
  exists i j a' b', a = i :: a' /\ b = j :: b' /\ (i <> 0 \/ j <> 0).
Proof.
  intros I Hm. apply in_splits in I. destruct I as (La & Lb & P).
  destruct a as [|i a'], b as [|j b']; try discriminate.
  cbn in P. injection P as P1 P2. exists i, j, a', b'. repeat split. lia.
Qed.

Lemma is_zero_cons0 n : is_zero (0 :: n) = is_zero n.
Proof. reflexivity. Qed.

Lemma is_zero_cons_pos m n : m <> 0 -> is_zero (m :: n) = false.
Proof. intros H. rewrite is_zero_cons. destruct (Nat.eqb_spec 0 m). congruence. reflexivity. Qed.

Lemma deg_cons0 n : deg (0 :: n) = deg n.
Proof. reflexivity. Qed.

(** * permutations of the k parameters given by a list [sg] (new position a reads old position
      [nth a sg]) together with the list [sg'] of the inverse permutation *)
Section ParamPerm.
Variable k : nat.
Variables sg sg' : list nat.
Hypothesis sg_len : length sg = k.
Hypothesis sg_len' : length sg' = k.
Hypothesis sg_inv : map (fun j => nth j sg k) sg' = seq 0 k.
Hypothesis sg_inv' : map (fun j => nth j sg' k) sg = seq 0 k.

Definition pm (s : list nat) (n : mi) : mi := map (fun i => nth i n 0) s.

Lemma pm_len n : length n = k -> length (pm sg n) = k.
Proof. intros _. unfold pm. now rewrite map_length. Qed.

Lemma nth_seq_map (n : mi) : map (fun i => nth i n 0) (seq 0 (length n)) = n.
Proof.
  induction n as [|d n IH]. reflexivity.
  cbn [length seq map nth]. f_equal. rewrite <- seq_shift, map_map. exact IH.
Qed.

Lemma pm_pm (s s' : list nat) n :
  length n = k -> length s = k -> map (fun j => nth j s k) s' = seq 0 k -> pm s' (pm s n) = n.
Proof.
  intros Ln Ls Hs. unfold pm.
  transitivity (map (fun j => nth (nth j s k) n 0) s').
  - apply map_ext. intros j.
    rewrite <- (map_nth (fun i => nth i n 0) s k j).
    rewrite (nth_overflow n (n := k)) by (rewrite Ln; apply le_n). reflexivity.
  - rewrite <- (map_map (fun j => nth j s k) (fun i => nth i n 0)), Hs, <- Ln. apply nth_seq_map.
Qed.

Lemma pm_gf n : length n = k -> pm sg' (pm sg n) = n.
Proof. intros L. now apply pm_pm. Qed.

Lemma nth_padd i a b : length a = length b -> nth i (padd a b) 0 = nth i a 0 + nth i b 0.
Proof.
  revert i b. induction a as [|x a IH]; intros i [|y b] L; try discriminate L.
  - destruct i; reflexivity.
  - destruct i; cbn [padd nth]. reflexivity. apply IH. now injection L.
Qed.

Lemma padd_map (F G : nat -> nat) l : padd (map F l) (map G l) = map (fun i => F i + G i) l.
Proof. induction l as [|x l IH]; cbn [map padd]. reflexivity. now rewrite IH. Qed.

Lemma pm_padd a b : length a = k -> length b = k -> pm sg (padd a b) = padd (pm sg a) (pm sg b).
Proof.
  intros La Lb. unfold pm. rewrite padd_map. apply map_ext. intros i. apply nth_padd. congruence.
Qed.

Lemma deg_perm l l' : Permutation l l' -> deg l = deg l'.
Proof. induction 1; cbn [deg]; lia. Qed.

Lemma sg_perm : Permutation sg (seq 0 k).
Proof.
  apply NoDup_Permutation_bis.
  - apply (NoDup_map_inv (fun j => nth j sg' k)). rewrite sg_inv'. apply seq_NoDup.
  - rewrite seq_length, sg_len. apply le_n.
  - intros j Hj. apply in_seq. split. lia. cbn.
    destruct (Nat.lt_ge_cases j k) as [H|H]; auto.
    assert (I : In (nth j sg' k) (seq 0 k)).
    { rewrite <- sg_inv'. apply in_map_iff. exists j. auto. }
    rewrite nth_overflow in I by lia. apply in_seq in I. lia.
Qed.

Lemma pm_deg n : length n = k -> deg (pm sg n) = deg n.
Proof.
  intros L. unfold pm.
  rewrite (deg_perm _ _ (Permutation_map (fun i => nth i n 0) sg_perm)), <- L, nth_seq_map.
  reflexivity.
Qed.
End ParamPerm.

Example pm_swap : pm [1; 0] [3; 5] = [5; 3].
Proof. reflexivity. Qed.

(** * direct sums: the states of the first summand are 0..D1-1, those of the second D1..D1+D2-1 *)
Section SumIdx.
Variables D1 D2 : nat.
Definition lo (p : nat) : bool := Nat.ltb p D1.
Definition sh (p : nat) : nat := p - D1.

Lemma map_add_seq a s l : map (fun r => a + r) (seq s l) = seq (a + s) l.
Proof.
  revert s. induction l as [|l IH]; intros s; cbn [seq map]. reflexivity.
  rewrite IH. f_equal. f_equal. lia.
Qed.

Lemma range_add : range (D1 + D2) = range D1 ++ map (fun r => D1 + r) (range D2).
Proof. unfold range. rewrite seq_app, map_add_seq. do 2 f_equal. lia. Qed.

Lemma lo_true r : r < D1 -> lo r = true.
Proof. intros H. apply Nat.ltb_lt. exact H. Qed.
Lemma lo_add r : lo (D1 + r) = false.
Proof. apply Nat.ltb_ge. lia. Qed.
Lemma sh_add r : sh (D1 + r) = r.
Proof. unfold sh. lia. Qed.
Lemma lo_lt p : lo p = true -> p < D1.
Proof. apply Nat.ltb_lt. Qed.
Lemma sh_lt p : p < D1 + D2 -> lo p = false -> sh p < D2.
Proof. intros H L. apply Nat.ltb_ge in L. unfold sh. lia. Qed.
Lemma sh_inv p : lo p = false -> D1 + sh p = p.
Proof. intros L. apply Nat.ltb_ge in L. unfold sh. lia. Qed.
Lemma eqb_lo_mixed p q : lo p = true -> lo q = false -> Nat.eqb p q = false.
Proof. intros Lp Lq. apply Nat.ltb_lt in Lp. apply Nat.ltb_ge in Lq. apply Nat.eqb_neq. lia. Qed.
Lemma eqb_sh p q : lo p = false -> lo q = false -> Nat.eqb (sh p) (sh q) = Nat.eqb p q.
Proof.
  intros Lp Lq. apply Nat.ltb_ge in Lp, Lq. unfold sh.
  destruct (Nat.eqb_spec p q) as [->|N]. apply Nat.eqb_refl. apply Nat.eqb_neq. lia.
Qed.

(** block structure of the sum: even labels for the first summand, odd for the second *)
Variables blk1 blk2 : nat -> nat.
Variables keep1 keep2 : nat -> nat -> bool.
Variables cm1 cm2 : nat -> bool.
Definition blkS (p : nat) : nat := if lo p then 2 * blk1 p else 2 * blk2 (sh p) + 1.
Definition keepS (p q : nat) : bool :=
  if lo p then (if lo q then keep1 p q else false) else (if lo q then false else keep2 (sh p) (sh q)).
Definition cmS (p : nat) : bool := if lo p then cm1 p else cm2 (sh p).

Hypothesis keep_sym1 : forall p q, keep1 p q = keep1 q p.
Hypothesis keep_sym2 : forall p q, keep2 p q = keep2 q p.
Hypothesis keep_refl1 : forall p, keep1 p p = true.
Hypothesis keep_refl2 : forall p, keep2 p p = true.
Hypothesis keep_blk1 : forall p q, keep1 p q = true -> blk1 p = blk1 q.
Hypothesis keep_blk2 : forall p q, keep2 p q = true -> blk2 p = blk2 q.
Hypothesis cm_blk1 : forall p q, blk1 p = blk1 q -> cm1 p = cm1 q.
Hypothesis cm_blk2 : forall p q, blk2 p = blk2 q -> cm2 p = cm2 q.

Lemma keepS_sym p q : keepS p q = keepS q p.
Proof. unfold keepS. destruct (lo p), (lo q); auto. Qed.
Lemma keepS_refl p : keepS p p = true.
Proof. unfold keepS. destruct (lo p); auto. Qed.
Lemma keepS_blk p q : keepS p q = true -> blkS p = blkS q.
Proof.
  unfold keepS, blkS. destruct (lo p), (lo q); intros K; try discriminate.
  - now rewrite (keep_blk1 _ _ K).
  - now rewrite (keep_blk2 _ _ K).
Qed.
Lemma cmS_blk p q : blkS p = blkS q -> cmS p = cmS q.
Proof.
  unfold cmS, blkS. destruct (lo p), (lo q); intros B.
  - apply cm_blk1. lia.
  - exfalso. lia.
  - exfalso. lia.
  - apply cm_blk2. lia.
Qed.

Lemma keepS_eucl :
  keep_eucl_on D1 keep1 cm1 -> keep_eucl_on D2 keep2 cm2 -> keep_eucl_on (D1 + D2) keepS cmS.
Proof.
  intros H1 H2 p q r Hp Hq Hr. unfold keepS, cmS.
  destruct (lo p) eqn:Lp, (lo q) eqn:Lq, (lo r) eqn:Lr; intros C K1 K2; try discriminate.
  - apply (H1 p q r); auto using lo_lt.
  - apply (H2 (sh p) (sh q) (sh r)); auto using sh_lt.
Qed.
End SumIdx.

(** * push-forward along a morphism  pr : N^k' -> N^k  of order monoids with finite fibres

    [fib n] enumerates the fibre of n.  The pairs (a, b) of source orders with
    pr (a + b) = n are enumerated in two ways: fibre of n, then splittings of its elements;
    splittings (n1, n2) of n, then fibre of n1 times fibre of n2. *)
Section Push.
Variables k k' : nat.
Variable pr : mi -> mi.
Variable fib : mi -> list mi.
Hypothesis fib_spec : forall n a, length n = k -> (In a (fib n) <-> length a = k' /\ pr a = n).
Hypothesis fib_nodup : forall n, length n = k -> NoDup (fib n).
Hypothesis pr_len : forall a, length a = k' -> length (pr a) = k.
Hypothesis pr_padd : forall a b, length a = k' -> length b = k' -> pr (padd a b) = padd (pr a) (pr b).

Definition pairs1 (n : mi) : list (mi * mi) := flat_map splits (fib n).
Definition prodl (la lb : list mi) : list (mi * mi) :=
  flat_map (fun a => map (fun b => (a, b)) lb) la.
Definition pairs2 (n : mi) : list (mi * mi) :=
  flat_map (fun n12 => prodl (fib (fst n12)) (fib (snd n12))) (splits n).

Lemma in_prodl la lb a b : In (a, b) (prodl la lb) <-> In a la /\ In b lb.
Proof.
  unfold prodl. rewrite in_flat_map. split.
  - intros (x & Hx & H). apply in_map_iff in H. destruct H as (y & E & Hy). inversion E; subst. auto.
  - intros [Ha Hb]. exists a. split; auto. apply in_map_iff. exists b. auto.
Qed.

Lemma nodup_prodl la lb : NoDup la -> NoDup lb -> NoDup (prodl la lb).
Proof.
  intros Ha Hb. unfold prodl. apply nodup_flat_map; auto.
  - intros a _. apply nodup_map_inj; auto. intros x y _ _ E. now inversion E.
  - intros a a' (x, y) _ _ I I'. apply in_map_iff in I, I'.
    destruct I as (? & E & _), I' as (? & E' & _). inversion E; inversion E'; subst. congruence.
Qed.

Lemma in_pairs1 n a b : length n = k ->
  (In (a, b) (pairs1 n) <-> length a = k' /\ length b = k' /\ pr (padd a b) = n).
Proof.
  intros L. unfold pairs1. rewrite in_flat_map. split.
  - intros (c & Hc & I). apply (fib_spec n c L) in Hc. destruct Hc as [Lc Pc].
    apply in_splits in I. destruct I as (La & Lb & P). subst c. repeat split; congruence.
  - intros (La & Lb & P). exists (padd a b). split.
    + apply (fib_spec n _ L). split; auto. rewrite padd_length; congruence.
    + apply in_splits. unfold issplit. rewrite padd_length by congruence. repeat split; congruence.
Qed.

Lemma in_pairs2 n a b : length n = k ->
  (In (a, b) (pairs2 n) <-> length a = k' /\ length b = k' /\ pr (padd a b) = n).
Proof.
  intros L. unfold pairs2. rewrite in_flat_map. split.
  - intros ((n1, n2) & I & J). cbn [fst snd] in J. apply in_prodl in J. destruct J as [Ja Jb].
    apply in_splits in I. destruct I as (L1 & L2 & P).
    apply (fib_spec n1 a) in Ja; [|congruence]. apply (fib_spec n2 b) in Jb; [|congruence].
    destruct Ja as [La Pa], Jb as [Lb Pb]. repeat split; auto. rewrite pr_padd; congruence.
  - intros (La & Lb & P). exists (pr a, pr b). cbn [fst snd]. split.
    + apply in_splits. unfold issplit. rewrite !pr_len by assumption. rewrite <- pr_padd by assumption.
      repeat split; congruence.
    + apply in_prodl. split.
      * apply (fib_spec (pr a) a). now apply pr_len. auto.
      * apply (fib_spec (pr b) b). now apply pr_len. auto.
Qed.

Lemma nodup_pairs1 n : length n = k -> NoDup (pairs1 n).
Proof.
  intros L. unfold pairs1. apply nodup_flat_map. now apply fib_nodup.
  - intros c _. apply nodup_splits.
  - intros c c' (a, b) _ _ I I'. apply in_splits in I, I'.
    destruct I as (_ & _ & <-), I' as (_ & _ & <-). reflexivity.
Qed.

Lemma nodup_pairs2 n : length n = k -> NoDup (pairs2 n).
Proof.
  intros L. unfold pairs2. apply nodup_flat_map. apply nodup_splits.
  - intros (n1, n2) I. apply in_splits in I. destruct I as (L1 & L2 & _). cbn [fst snd].
    apply nodup_prodl; apply fib_nodup; congruence.
  - intros (n1, n2) (n1', n2') (a, b) I I' J J'. cbn [fst snd] in J, J'.
    apply in_prodl in J, J'. destruct J as [Ja Jb], J' as [Ja' Jb'].
    apply in_splits in I, I'. destruct I as (L1 & L2 & _), I' as (L1' & L2' & _).
    apply (fib_spec n1 a) in Ja; [|congruence]. apply (fib_spec n2 b) in Jb; [|congruence].
    apply (fib_spec n1' a) in Ja'; [|congruence]. apply (fib_spec n2' b) in Jb'; [|congruence].
    destruct Ja as [_ <-], Jb as [_ <-], Ja' as [_ <-], Jb' as [_ <-]. reflexivity.
Qed.

Lemma pairs_perm n : length n = k -> Permutation (pairs1 n) (pairs2 n).
Proof.
  intros L. apply NoDup_Permutation. now apply nodup_pairs1. now apply nodup_pairs2.
  intros (a, b). rewrite (in_pairs1 n a b L), (in_pairs2 n a b L). tauto.
Qed.

(** fibres over zero and over non-zero orders *)
Hypothesis pr_zero : pr (mzero k') = mzero k.
Hypothesis pr_deg : forall a, length a = k' -> deg a <= deg (pr a).

Lemma fib_is_zero n a : length n = k -> In a (fib n) -> is_zero a = is_zero n.
Proof.
  intros L I. apply (fib_spec n a L) in I. destruct I as [La <-].
  apply eq_true_iff_eq. rewrite !is_zero_deg. split.
  - intros Z. rewrite (@deg0_mzero k' a La Z), pr_zero. apply deg_mzero.
  - intros Z. pose proof (pr_deg a La). lia.
Qed.

Lemma fib_zero_in : In (mzero k') (fib (mzero k)).
Proof. apply fib_spec. apply mzero_length. split. apply mzero_length. exact pr_zero. Qed.

Lemma fib_zero_only a : In a (fib (mzero k)) -> a = mzero k'.
Proof.
  intros I. pose proof (fib_is_zero (mzero k) a (mzero_length k) I) as Z.
  rewrite is_zero_mzero_k in Z. apply (fib_spec _ _ (mzero_length k)) in I. destruct I as [La _].
  apply is_zero_mzero in Z. now rewrite La in Z.
Qed.

Lemma fib_deg n a : length n = k -> In a (fib n) -> deg a <= deg n.
Proof. intros L I. apply (fib_spec n a L) in I. destruct I as [La <-]. now apply pr_deg. Qed.
End Push.

(** ** instance: two parameters given the same name (merge the first two) *)
Definition mrg (a : mi) : mi := match a with a0 :: a1 :: r => (a0 + a1) :: r | _ => [] end.
Definition mrg_fib (n : mi) : list mi :=
  match n with m :: r => map (fun i => i :: (m - i) :: r) (seq 0 (S m)) | [] => [] end.

Lemma mrg_fib_spec k n a : length n = S k -> (In a (mrg_fib n) <-> length a = S (S k) /\ mrg a = n).
Proof.
  intros L. destruct n as [|m r]; [discriminate|]. cbn [mrg_fib]. rewrite in_map_iff. split.
  - intros (i & <- & Hi). apply in_seq in Hi. cbn in L |- *. split. lia. f_equal. lia.
  - intros [La E]. destruct a as [|a0 [|a1 ra]]; try discriminate. cbn in E. inversion E; subst.
    exists a0. split. f_equal. f_equal. lia. apply in_seq. lia.
Qed.
Lemma mrg_fib_nodup n : NoDup (mrg_fib n).
Proof.
  destruct n as [|m r]. constructor. cbn [mrg_fib]. apply nodup_map_inj. 2: apply seq_NoDup.
  intros x y _ _ E. now inversion E.
Qed.
Lemma mrg_len k a : length a = S (S k) -> length (mrg a) = S k.
Proof. destruct a as [|a0 [|a1 r]]; try discriminate. cbn. lia. Qed.
Lemma mrg_padd k a b : length a = S (S k) -> length b = S (S k) -> mrg (padd a b) = padd (mrg a) (mrg b).
Proof.
  destruct a as [|a0 [|a1 ra]], b as [|b0 [|b1 rb]]; try discriminate. intros _ _. cbn. f_equal. lia.
Qed.
Lemma mrg_zero k : mrg (mzero (S (S k))) = mzero (S k).
Proof. reflexivity. Qed.
Lemma mrg_deg k a : length a = S (S k) -> deg a <= deg (mrg a).
Proof. destruct a as [|a0 [|a1 r]]; try discriminate. intros _. cbn. lia. Qed.

(** ** instance: substitution lambda -> lambda^p in the first parameter (p >= 1) *)
Section Pow.
Variable p : nat.
Hypothesis p_pos : 0 < p.
Definition pw (a : mi) : mi := match a with a0 :: r => (p * a0) :: r | [] => [] end.
Definition pw_fib (n : mi) : list mi :=
  match n with m :: r => if Nat.eqb (m mod p) 0 then [(m / p) :: r] else [] | [] => [[]] end.

Lemma pw_fib_spec k n a : length n = k -> (In a (pw_fib n) <-> length a = k /\ pw a = n).
Proof.
  intros L. destruct n as [|m r]; cbn [pw_fib].
  - cbn in L. subst k. split.
    + intros [<-|[]]. auto.
    + intros [La _]. destruct a; [left; auto|discriminate].
  - destruct (Nat.eqb_spec (m mod p) 0) as [Z|N].
    + split.
      * intros [<-|[]]. cbn in L |- *. split. lia. f_equal.
        symmetry. apply Nat.div_exact; lia.
      * intros [La E]. destruct a as [|a0 ra]; [discriminate|]. cbn in E. inversion E; subst.
        left. f_equal. rewrite Nat.mul_comm, Nat.div_mul; lia.
    + split. intros []. intros [La E]. destruct a as [|a0 ra]; [discriminate|]. cbn in E. inversion E; subst.
      elim N. rewrite Nat.mul_comm. apply Nat.mod_mul. lia.
Qed.
Lemma pw_fib_nodup n : NoDup (pw_fib n).
Proof.
  destruct n as [|m r]; cbn [pw_fib]. repeat constructor; auto.
  destruct (Nat.eqb (m mod p) 0); repeat constructor; auto.
Qed.
Lemma pw_len k a : length a = k -> length (pw a) = k.
Proof. destruct a; cbn; auto. Qed.
Lemma pw_padd a b : length a = length b -> pw (padd a b) = padd (pw a) (pw b).
Proof. destruct a as [|a0 ra], b as [|b0 rb]; try discriminate; intros _; cbn; auto. f_equal. lia. Qed.
Lemma pw_zero k : pw (mzero k) = mzero k.
Proof. destruct k; cbn; auto. f_equal. lia. Qed.
Lemma pw_deg a : deg a <= deg (pw a).
Proof. destruct a as [|a0 r]; cbn; auto. nia. Qed.
End Pow.

(** The concrete [BlockAlg]: multi-index formal power series in k parameters whose
    coefficients are D x D matrices over a commutative star-ring R0, with the Cauchy
    product, for a block labelling [blk], a mask [keep] of kept matrix elements inside the
    diagonal blocks and a per-block flag [cm].

    [series_BlockAlg] is the instance; the [*_entry] lemmas spell out what every structure
    map is on the entry (p, q) of the coefficient of multi-order n. *)
Require Import Ncring_tac.
From PV.Base Require Import Classes BigSum.
From PV.Series Require Import MultiIndex Cauchy Lift.
From PV.Block Require Import Mat Masks CoefAlg BlockSel.
Set Implicit Arguments.

Section Inst.
Variables D k : nat.
Context {R0 : Type} `{Rg : Ring R0} {CS : CStar R0}.
Variable blk : nat -> nat.
Variable keep : nat -> nat -> bool.
Variable cm : nat -> bool.
Hypothesis keep_sym : forall p q, keep p q = keep q p.
Hypothesis keep_blk : forall p q, keep p q = true -> blk p = blk q.
Hypothesis cm_blk : forall p q, blk p = blk q -> cm p = cm q.

Definition T : Type := series k (mat D R0).

Definition T_CoefAlg : CoefAlg (mat D R0) :=
  mat_CoefAlg D blk keep cm keep_sym keep_blk cm_blk.

Global Instance series_BlockAlg : BlockAlg T :=
  series_BlockAlg_gen k (CA := T_CoefAlg).

(** equality of T: all entries (p, q < D) of all coefficients of well-formed multi-orders *)
Lemma T_eq_entry (x y : T) :
  x == y <-> forall n p q, length n = k -> (p < D)%nat -> (q < D)%nat -> x n p q == y n p q.
Proof. split; intros H; [intros n p q Hn Hp Hq | intros n Hn p q Hp Hq]; now apply H. Qed.

Lemma zero_entry n p q : (0 : T) n p q = 0.
Proof. reflexivity. Qed.
Lemma one_entry n p q : (1 : T) n p q = if is_zero n then (if Nat.eqb p q then 1 else 0) else 0.
Proof. unfold one, one_notation. cbn. unfold sone. destruct (is_zero n); reflexivity. Qed.
Lemma add_entry (x y : T) n p q : (x + y) n p q = x n p q + y n p q.
Proof. reflexivity. Qed.
Lemma opp_entry (x : T) n p q : (- x) n p q = - x n p q.
Proof. reflexivity. Qed.
Lemma sub_entry (x y : T) n p q : (x - y) n p q = x n p q - y n p q.
Proof. reflexivity. Qed.
(** Cauchy product of series of matrices *)
Lemma mul_entry (x y : T) n p q :
  (x * y) n p q ==
  bigsum (fun ab => bigsum (fun r => x (fst ab) p r * y (snd ab) r q) (range D)) (splits n).
Proof.
  change ((x * y) n) with (bigsum (fun ab => x (fst ab) * y (snd ab)) (splits n)).
  rewrite (bigsum_entry (Rg := Rg)). reflexivity.
Qed.

Lemma adj_entry (x : T) n p q : adj x n p q = conj (x n q p).
Proof. reflexivity. Qed.
Lemma divz_entry (x : T) z n p q : divz x z n p q = divz0 (x n p q) z.
Proof. reflexivity. Qed.
Lemma Dg_entry (x : T) n p q : Dg x n p q = if Nat.eqb (blk p) (blk q) then x n p q else 0.
Proof. reflexivity. Qed.
Lemma Up_entry (x : T) n p q : Up x n p q = if Nat.ltb (blk p) (blk q) then x n p q else 0.
Proof. reflexivity. Qed.
Lemma Lo_entry (x : T) n p q : Lo x n p q = if Nat.ltb (blk q) (blk p) then x n p q else 0.
Proof. reflexivity. Qed.
Lemma Sel_entry (x : T) n p q : Sel x n p q = if keep p q then x n p q else 0.
Proof. reflexivity. Qed.
Lemma Rw_entry (x : T) n p q : Rw x n p q = if cm p then x n p q else 0.
Proof. reflexivity. Qed.
Lemma Zc_entry (x : T) n p q : Zc x n p q = if is_zero n then x n p q else 0.
Proof. unfold Zc. cbn. unfold sZc. destruct (is_zero n); reflexivity. Qed.
Lemma ord_iff m (x : T) :
  ord m x <-> forall n p q, length n = k -> (deg n < m)%nat -> (p < D)%nat -> (q < D)%nat ->
                            x n p q == 0.
Proof.
  split; intros H.
  - intros n p q Hn Hd Hp Hq. now apply (H n Hn Hd).
  - intros n Hn Hd p q Hp Hq. now apply H.
Qed.

(** the half-sum of product_by_order on a diagonal block: with
    t(a1,a2)[u,v] := sum_r a(a1)[u,r] * b(a2)[r,v]  (the product of the two coefficient
    matrices, summed over the intermediate states r of all blocks), the entry (p,q) is 0
    unless blk p = blk q, and then the sum over the splittings (a1,a2) of n of
      0                       if a1 > a2 (tuple comparison; skipped by the code),
      t[p,q]                  if a1 = a2,
      t[p,q] + conj (t[q,p])  if a1 < a2   (term + Dagger(term)). *)
Definition tprod (a b : T) (a1 a2 : mi) (u v : nat) : R0 :=
  bigsum (fun r => a a1 u r * b a2 r v) (range D).

Lemma hsum_entry (a b : T) n p q :
  hsum a b n p q ==
  if Nat.eqb (blk p) (blk q) then
    bigsum (fun s : mi * mi =>
              match lexc (fst s) (snd s) with
              | Gt => 0
              | Eq => tprod a b (fst s) (snd s) p q
              | Lt => tprod a b (fst s) (snd s) p q + conj (tprod a b (fst s) (snd s) q p)
              end) (splits n)
  else 0.
Proof.
  change (hsum a b n p q) with (mDg blk (s_half (k := k) (CA := T_CoefAlg) a b n) p q).
  unfold mDg, mmask, dgm. destruct (Nat.eqb (blk p) (blk q)); [|reflexivity].
  unfold s_half. rewrite (bigsum_entry (Rg := Rg)). apply bigsum_ext. intros (a1, a2) _.
  unfold hterm. cbn [fst snd]. destruct (lexc a1 a2); reflexivity.
Qed.

End Inst.

Arguments T D k R0 : clear implicits.

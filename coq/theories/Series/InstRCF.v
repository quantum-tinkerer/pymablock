(** A second concrete [BlockAlg], parallel to Series/Inst.v: multi-index formal power
    series in k parameters whose coefficients are row- and column-finite INFINITE matrices
    over a commutative star-ring R0 (Block/RCF.v) - operators on a countable (Fock) basis,
    e.g. all polynomials in creation / annihilation operators - with the Cauchy product, a
    block labelling [blk] of the basis, a mask [keep] and a per-block flag [cm].

    - [rcf_BlockAlg]: the instance (Series/Lift.v applied to [rcf_CoefAlg]);
    - [F*_entry]: what every structure map is on the entry (p,q) of the coefficient n;
    - the entry-wise diagonal Sylvester solver on H0 = diag(E) and its laws;
    - [Fcomm_sound_l/r]; [rcf_wiring]: the wiring hypotheses of Alg/MainCorrect.v hold. *)
Require Import Ncring_tac String.
From PV.Base Require Import Classes BigSum AlgLemmas.
From PV.Series Require Import MultiIndex Cauchy Lift.
From PV.Block Require Import Mat CoefAlg RCF RCFSel.
From PV.Alg Require Import MainCorrect.
Set Implicit Arguments.

Definition TF (k : nat) (R0 : Type) {r0 r1 : R0} {add mul sub : R0 -> R0 -> R0}
           {opp : R0 -> R0} {req : R0 -> R0 -> Prop}
           {Ro : @Ring_ops R0 r0 r1 add mul sub opp req} : Type :=
  series k (rcf R0).
Arguments TF k R0 {_ _ _ _ _ _ _ _}.

Section InstRCF.
Variable k : nat.
Context {R0 : Type} `{Rg : Ring R0} {CS : CStar R0}.
Variable blk : nat -> nat.
Variable keep : nat -> nat -> bool.
Variable cm : nat -> bool.
Hypothesis keep_sym : forall p q, keep p q = keep q p.
Hypothesis keep_refl : forall p, keep p p = true.
Hypothesis keep_blk : forall p q, keep p q = true -> blk p = blk q.
Hypothesis cm_blk : forall p q, blk p = blk q -> cm p = cm q.

Local Notation T := (TF k R0).

Definition TF_CoefAlg : CoefAlg (rcf R0) := rcf_CoefAlg blk keep cm keep_sym keep_blk cm_blk.

Global Instance rcf_BlockAlg : BlockAlg T := series_BlockAlg_gen k (CA := TF_CoefAlg).

Local Hint Extern 0 (BlockAlg _) => exact rcf_BlockAlg : typeclass_instances.

(** equality of T: all entries of all coefficients of well-formed multi-orders *)
Lemma TF_eq_entry (x y : T) :
  x == y <-> forall n p q, List.length n = k -> ent (x n) p q == ent (y n) p q.
Proof. split; intros H; [intros n p q Hn | intros n Hn p q]; now apply H. Qed.

Lemma Fzero_entry n p q : ent ((0 : T) n) p q = 0.
Proof. reflexivity. Qed.
Lemma Fadd_entry (x y : T) n p q : ent ((x + y) n) p q = ent (x n) p q + ent (y n) p q.
Proof. reflexivity. Qed.
Lemma Fopp_entry (x : T) n p q : ent ((- x) n) p q = - ent (x n) p q.
Proof. reflexivity. Qed.
Lemma Fsub_entry (x y : T) n p q : ent ((x - y) n) p q = ent (x n) p q - ent (y n) p q.
Proof. reflexivity. Qed.
(** Cauchy product; the inner sum over the intermediate basis states is finite because the
    rows of the left factor are *)
Lemma Fmul_entry (x y : T) n p q :
  ent ((x * y) n) p q ==
  bigsum (fun ab => bigsum (fun r => ent (x (fst ab)) p r * ent (y (snd ab)) r q)
                           (range (S (rb (x (fst ab)) p)))) (splits n).
Proof.
  change ((x * y) n) with (bigsum (fun ab => x (fst ab) * y (snd ab)) (splits n)).
  rewrite (rbigsum_entry (Rg := Rg)). reflexivity.
Qed.
Lemma Fadj_entry (x : T) n p q : ent (adj x n) p q = conj (ent (x n) q p).
Proof. reflexivity. Qed.
Lemma Fdivz_entry (x : T) z n p q : ent (divz x z n) p q = divz0 (ent (x n) p q) z.
Proof. reflexivity. Qed.
Lemma FDg_entry (x : T) n p q :
  ent (Dg x n) p q = if Nat.eqb (blk p) (blk q) then ent (x n) p q else 0.
Proof. reflexivity. Qed.
Lemma FUp_entry (x : T) n p q :
  ent (Up x n) p q = if Nat.ltb (blk p) (blk q) then ent (x n) p q else 0.
Proof. reflexivity. Qed.
Lemma FLo_entry (x : T) n p q :
  ent (Lo x n) p q = if Nat.ltb (blk q) (blk p) then ent (x n) p q else 0.
Proof. reflexivity. Qed.
Lemma FSel_entry (x : T) n p q : ent (Sel x n) p q = if keep p q then ent (x n) p q else 0.
Proof. reflexivity. Qed.
Lemma FRw_entry (x : T) n p q : ent (Rw x n) p q = if cm p then ent (x n) p q else 0.
Proof. reflexivity. Qed.
Lemma FZc_entry (x : T) n p q : ent (Zc x n) p q = if is_zero n then ent (x n) p q else 0.
Proof. unfold Zc. cbn. unfold sZc. destruct (is_zero n); reflexivity. Qed.
Lemma Ford_iff m (x : T) :
  ord m x <-> forall n p q, List.length n = k -> (deg n < m)%nat -> ent (x n) p q == 0.
Proof.
  split; intros H.
  - intros n p q Hn Hd. now apply (H n Hn Hd).
  - intros n Hn Hd p q. now apply H.
Qed.

Variable E : nat -> R0.        (* unperturbed energies of the basis states *)
Variable inv : R0 -> R0.

Definition H0F : T := fun n => if is_zero n then rdiag E else rzero.

Lemma rsylv_rb_ok (A : rcf R0) i j :
  (rb A i < j)%nat -> ent A i j * inv (E i - E j) == 0.
Proof. intros H. rewrite (rb_ok A i j H). non_commutative_ring. Qed.
Lemma rsylv_cb_ok (A : rcf R0) j i :
  (cb A j < i)%nat -> ent A i j * inv (E i - E j) == 0.
Proof. intros H. rewrite (cb_ok A j i H). non_commutative_ring. Qed.
Definition rsylv (A : rcf R0) : rcf R0 :=
  @mk_rcf _ _ _ _ _ _ _ _ _ (fun i j => ent A i j * inv (E i - E j)) (rb A) (cb A)
          (rsylv_rb_ok A) (rsylv_cb_ok A).
Definition sylvF (y : T) : T := fun n => rsylv (y n).

Lemma H0F_const a : is_zero a = false -> H0F a == 0.
Proof. intros Z. unfold H0F. rewrite Z. reflexivity. Qed.

Lemma H0F_mul_l (x : T) n p q : ent ((H0F * x) n) p q == E p * ent (x n) p q.
Proof.
  rewrite (conv_const_l (k := k) H0F x n H0F_const p q).
  unfold H0F. rewrite is_zero_mzero_k. apply rmul_diag_l.
Qed.
Lemma H0F_mul_r (x : T) n p q : ent ((x * H0F) n) p q == ent (x n) p q * E q.
Proof.
  rewrite (conv_const_r (k := k) H0F x n H0F_const p q).
  unfold H0F. rewrite is_zero_mzero_k. apply rmul_diag_r.
Qed.
Lemma comm_H0F_entry (x : T) n p q :
  ent ((H0F * x - x * H0F) n) p q == (E p - E q) * ent (x n) p q.
Proof.
  rewrite Fsub_entry, H0F_mul_l, H0F_mul_r.
  rewrite (cs_comm (ent (x n) p q) (E q)). non_commutative_ring.
Qed.

Lemma Sel_H0F : Sel H0F == H0F.
Proof.
  intros n _ p q. rewrite FSel_entry. unfold H0F. destruct (is_zero n).
  - cbn [ent rdiag]. destruct (Nat.eqb_spec p q).
    + subst. rewrite keep_refl. reflexivity.
    + destruct (keep p q); reflexivity.
  - destruct (keep p q); reflexivity.
Qed.
Lemma Zc_H0F : Zc H0F == H0F.
Proof. intros n _ p q. rewrite FZc_entry. unfold H0F. destruct (is_zero n); reflexivity. Qed.
Lemma adj_H0F : (forall p, conj (E p) == E p) -> adj H0F == H0F.
Proof.
  intros Er n _ p q. rewrite Fadj_entry. unfold H0F. destruct (is_zero n).
  - cbn [ent rdiag]. rewrite (Nat.eqb_sym q p). destruct (Nat.eqb_spec p q).
    + subst. apply Er.
    + apply conj_zero.
  - apply conj_zero.
Qed.

Global Instance sylvF_P : Proper (_==_ ==> _==_) sylvF.
Proof. intros x y H n Hn p q. cbn [sylvF rsylv ent]. rewrite (H n Hn p q). reflexivity. Qed.

Global Instance sylvF_am : AddMap sylvF.
Proof.
  split. exact sylvF_P.
  - intros x y n _ p q. rewrite Fadd_entry. cbn [sylvF rsylv ent]. rewrite Fadd_entry.
    non_commutative_ring.
  - intros x n _ p q. rewrite Fopp_entry. cbn [sylvF rsylv ent]. rewrite Fopp_entry.
    non_commutative_ring.
Qed.

Lemma sylvF_ord m y : ord m y -> ord m (sylvF y).
Proof.
  intros H n Hn Hd p q. cbn [sylvF rsylv ent]. rewrite (H n Hn Hd p q).
  change (0 * inv (E p - E q) == (0 : R0)). non_commutative_ring.
Qed.

Lemma Sel_comm_H0F x : Sel (H0F * x - x * H0F) == H0F * Sel x - Sel x * H0F.
Proof.
  intros n Hn p q.
  pose proof (comm_H0F_entry x n p q) as C1.
  pose proof (comm_H0F_entry (Sel x) n p q) as C2.
  rewrite C2. set (X := H0F * x - x * H0F) in *. rewrite !FSel_entry.
  destruct (keep p q). exact C1. non_commutative_ring.
Qed.

Hypothesis inv_spec : forall p q, keep p q = false -> (E p - E q) * inv (E p - E q) == 1.

Theorem sylvF_spec y :
  (H0F * sylvF y - sylvF y * H0F) - Sel (H0F * sylvF y - sylvF y * H0F) == y - Sel y.
Proof.
  intros n Hn p q.
  pose proof (comm_H0F_entry (sylvF y) n p q) as C.
  set (X := H0F * sylvF y - sylvF y * H0F) in *.
  rewrite !Fsub_entry, !FSel_entry. destruct (keep p q) eqn:K.
  - non_commutative_ring.
  - rewrite C. cbn [sylvF rsylv ent].
    transitivity (ent (y n) p q * ((E p - E q) * inv (E p - E q)) - 0).
    + rewrite (cs_comm (E p - E q) (ent (y n) p q * inv (E p - E q))),
        (cs_comm (E p - E q) (inv (E p - E q))).
      non_commutative_ring.
    + rewrite (@inv_spec p q K). non_commutative_ring.
Qed.

Hypothesis E_real : forall p, conj (E p) == E p.
Hypothesis inv_P : Proper (_==_ ==> _==_) inv.
Hypothesis inv_opp : forall x, inv (- x) == - inv x.
Hypothesis inv_conj : forall x, conj (inv x) == inv (conj x).

Lemma sylvF_adj y : sylvF (adj y) == - adj (sylvF y).
Proof.
  intros n Hn p q. rewrite Fopp_entry, Fadj_entry. cbn [sylvF rsylv ent]. rewrite Fadj_entry.
  rewrite conj_mul, inv_conj, conj_sub, !E_real.
  assert (X : inv (E p - E q) == - inv (E q - E p)).
  { rewrite <- inv_opp. apply inv_P. non_commutative_ring. }
  rewrite X. non_commutative_ring.
Qed.

Hypothesis keep_eucl :
  forall p q r, cm p = true -> keep p q = true -> keep r q = true -> keep p r = true.

Lemma Fcomm_sound_l (x y : T) : Rw (Sel (Rp x * Sel y)) == 0.
Proof.
  intros n Hn p q. rewrite FRw_entry, FSel_entry.
  destruct (cm p) eqn:C; [|reflexivity]. destruct (keep p q) eqn:K; [|reflexivity].
  rewrite Fmul_entry. rewrite Fzero_entry. apply bigsum_zero. intros (a, b) _.
  apply bigsum_zero. intros r _. cbn [fst snd].
  unfold Rp. rewrite Fsub_entry, !FSel_entry.
  destruct (keep r q) eqn:K2; [|non_commutative_ring].
  rewrite (keep_eucl C K K2). non_commutative_ring.
Qed.

Lemma Fcomm_sound_r (x y : T) : Rw (Sel (Sel y * Rp x)) == 0.
Proof.
  intros n Hn p q. rewrite FRw_entry, FSel_entry.
  destruct (cm p) eqn:C; [|reflexivity]. destruct (keep p q) eqn:K; [|reflexivity].
  rewrite Fmul_entry. rewrite Fzero_entry. apply bigsum_zero. intros (a, b) _.
  apply bigsum_zero. intros r _. cbn [fst snd].
  unfold Rp. rewrite Fsub_entry, !FSel_entry.
  destruct (keep p r) eqn:K2; [|non_commutative_ring].
  assert (K3 : keep r q = true).
  { apply (@keep_eucl r p q).
    - rewrite <- C. symmetry. apply cm_blk. now apply keep_blk.
    - now rewrite keep_sym.
    - now rewrite keep_sym. }
  rewrite K3. non_commutative_ring.
Qed.

(** * the wiring of block_diagonalize *)
Open Scope string_scope.
Variable rflag : string -> T -> T.
Variable fenv : string -> list T -> T.
Hypothesis rflag_spec : forall x, rflag "commuting_blocks" x == Rw x.
Hypothesis fenv_spec : forall y, fenv "solve_sylvester" (cons y nil) == sylvF y.
Variable H : T.
Hypothesis H_herm : adj H == H.
Hypothesis H_zero : Zc H == H0F.

Theorem rcf_wiring : wiring rflag fenv H.
Proof.
  exact (wiring_intro fenv H _ _ sylvF_P fenv_spec H_zero rflag H_herm rflag_spec Fcomm_sound_l Fcomm_sound_r
           sylvF_ord sylvF_adj Sel_H0F Sel_comm_H0F sylvF_spec).
Qed.

End InstRCF.

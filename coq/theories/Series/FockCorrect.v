(** The correctness theorems of the Hermitian algorithm (Alg/MainCorrect.v) instantiated at
    the [BlockAlg] of series of row- and column-finite infinite matrices (Series/InstRCF.v),
    with the wiring hypotheses discharged by [rcf_wiring]. *)
Require Import Ncring_tac String.
From PV.Base Require Import Classes AlgLemmas.
From PV.Series Require Import InstRCF.
From PV.Block Require Import Mat.
From PV.DSL Require Import Sem.
From PV.Gen Require Import Algorithms_gen.
From PV.Alg Require Import MainLift MainCorrect Unique.
Open Scope string_scope.

Section Fock.
Variable k : nat.
Context {R0 : Type} `{Rg : Ring R0} {CS : CStar R0}.
Variable blk : nat -> nat.
Variable keep : nat -> nat -> bool.
Variable cm : nat -> bool.
Hypothesis keep_sym : forall p q, keep p q = keep q p.
Hypothesis keep_refl : forall p, keep p p = true.
Hypothesis keep_blk : forall p q, keep p q = true -> blk p = blk q.
Hypothesis cm_blk : forall p q, blk p = blk q -> cm p = cm q.
Hypothesis keep_eucl :
  forall p q r, cm p = true -> keep p q = true -> keep r q = true -> keep p r = true.
Variable E : nat -> R0.
Variable inv : R0 -> R0.
Hypothesis inv_spec : forall p q, keep p q = false -> (E p - E q) * inv (E p - E q) == 1.
Hypothesis E_real : forall p, conj (E p) == E p.
Hypothesis inv_P : Proper (_==_ ==> _==_) inv.
Hypothesis inv_opp : forall x, inv (- x) == - inv x.
Hypothesis inv_conj : forall x, conj (inv x) == inv (conj x).

Local Notation T := (TF k R0).
Local Notation BA := (rcf_BlockAlg k blk keep cm keep_sym keep_blk cm_blk).
Local Hint Extern 0 (BlockAlg _) => exact BA : typeclass_instances.

Variable rflag : string -> T -> T.
Variable fenv : string -> list T -> T.
Variable sol : string -> T.
Hypothesis rflag_spec : forall x, rflag "commuting_blocks" x == Rw x.
Hypothesis fenv_spec : forall y, fenv "solve_sylvester" (cons y nil) == sylvF E inv y.
Hypothesis H_herm : adj (sol "H") == sol "H".
Hypothesis H_zero : Zc (sol "H") == H0F k E.
Hypothesis Hsol : solution (gflag_of false) rflag fenv sol main_alg.

Lemma fock_wiring : wiring rflag fenv (sol "H").
Proof.
  eapply rcf_wiring; eassumption.
Qed.

Lemma fock_kept : Sel (sol "U†" * sol "H" * sol "U") == sol "H_tilde".
Proof. exact (kept_general rflag fenv sol Hsol fock_wiring). Qed.
Lemma fock_eliminated : Rp (sol "U†" * sol "H" * sol "U") == 0.
Proof. exact (eliminated_general rflag fenv sol Hsol fock_wiring). Qed.
Lemma fock_unitary : sol "U†" * sol "U" == 1 /\ sol "U" * sol "U†" == 1.
Proof.
  split. exact (unitary_l_general rflag fenv sol Hsol fock_wiring).
  exact (unitary_r_general rflag fenv sol Hsol fock_wiring).
Qed.
Lemma fock_adjoint : adj (sol "U") == sol "U†" /\ adj (sol "H_tilde") == sol "H_tilde".
Proof.
  split. exact (adjoint_general rflag fenv sol Hsol fock_wiring).
  exact (Ht_herm_general rflag fenv sol Hsol fock_wiring).
Qed.
Lemma fock_gauge :
  Sel (half ((sol "U" - 1) - adj (sol "U" - 1))) == 0 /\ least_action (sol "H") (sol "U").
Proof.
  split. exact (gauge_general rflag fenv sol Hsol fock_wiring).
  exact (main_least_action rflag fenv sol Hsol fock_wiring).
Qed.
End Fock.

(** C15, direct sums: the block sum  x1 (+) x2  of a series of D1 x D1 matrices and a series of
    D2 x D2 matrices (same parameters) is multiplicative, unital (1 (+) 1 = 1) and commutes with
    subtraction, adjoint, selection and the filtration ([osum_Hom2]).  Hence (Alg/Equivariance.v,
    [Hom2]) the block sum of the least-action / similarity transformations of H1 and H2 is one
    of H1 (+) H2, and by uniqueness it is the one computed for the direct sum: the result for a
    direct sum of decoupled Hamiltonians is the direct sum of the results, in both modes.  The block structure of the sum:
    kept mask keep1 (+) keep2 (no kept element between the summands), energies E1 (+) E2, and a
    solver inverting ALL eliminated differences of the sum, in particular those between the two
    summands ("disjoint energy pools"). *)
Require Import Ncring_tac String.
From PV.Base Require Import Classes BigSum.
From PV.Series Require Import MultiIndex Inst SylvInst SymBase SymIdx.
From PV.Block Require Import Mat Masks.
From PV.DSL Require Import Sem.
From PV.Gen Require Import Algorithms_gen.
From PV.Alg Require Import MainLift Equivariance MainInst.
Open Scope string_scope.

Section Sum.
Variables D1 D2 k : nat.
Context {R0 : Type} `{Rg : Ring R0} {CS : CStar R0}.
Variables blk1 blk2 : nat -> nat.
Variables keep1 keep2 : nat -> nat -> bool.
Variables cm1 cm2 : nat -> bool.
Hypothesis keep_sym1 : forall p q, keep1 p q = keep1 q p.
Hypothesis keep_sym2 : forall p q, keep2 p q = keep2 q p.
Hypothesis keep_refl1 : forall p, keep1 p p = true.
Hypothesis keep_refl2 : forall p, keep2 p p = true.
Hypothesis keep_blk1 : forall p q, keep1 p q = true -> blk1 p = blk1 q.
Hypothesis keep_blk2 : forall p q, keep2 p q = true -> blk2 p = blk2 q.
Hypothesis cm_blk1 : forall p q, blk1 p = blk1 q -> cm1 p = cm1 q.
Hypothesis cm_blk2 : forall p q, blk2 p = blk2 q -> cm2 p = cm2 q.

Local Notation DS := (Nat.add D1 D2).
Local Notation T1 := (T D1 k R0).
Local Notation T2 := (T D2 k R0).
Local Notation TS := (T DS k R0).
Local Notation lo := (lo D1).
Local Notation sh := (sh D1).
Local Notation keepS := (keepS D1 keep1 keep2).
Local Notation blkS := (blkS D1 blk1 blk2).
Local Notation cmS := (cmS D1 cm1 cm2).
Local Notation kS_sym := (keepS_sym D1 keep1 keep2 keep_sym1 keep_sym2).
Local Notation kS_refl := (keepS_refl D1 keep1 keep2 keep_refl1 keep_refl2).
Local Notation kS_blk := (keepS_blk D1 blk1 blk2 keep1 keep2 keep_blk1 keep_blk2).
Local Notation cS_blk := (cmS_blk D1 blk1 blk2 cm1 cm2 cm_blk1 cm_blk2).
Local Notation B1 := (series_BlockAlg D1 k blk1 keep1 cm1 keep_sym1 keep_blk1 cm_blk1).
Local Notation B2 := (series_BlockAlg D2 k blk2 keep2 cm2 keep_sym2 keep_blk2 cm_blk2).
Local Notation BS := (series_BlockAlg DS k blkS keepS cmS kS_sym kS_blk cS_blk).

Definition osum (x1 : T1) (x2 : T2) : TS :=
  fun n p q => if lo p then (if lo q then x1 n p q else 0)
               else (if lo q then 0 else x2 n (sh p) (sh q)).

Ltac cases p q Hp Hq :=
  let Lp := fresh "Lp" in let Lq := fresh "Lq" in
  destruct (lo p) eqn:Lp; destruct (lo q) eqn:Lq;
  [ pose proof (lo_lt D1 p Lp); pose proof (lo_lt D1 q Lq)
  | pose proof (lo_lt D1 p Lp); pose proof (sh_lt D1 D2 q Hq Lq)
  | pose proof (sh_lt D1 D2 p Hp Lp); pose proof (lo_lt D1 q Lq)
  | pose proof (sh_lt D1 D2 p Hp Lp); pose proof (sh_lt D1 D2 q Hq Lq) ].

Lemma osum_P x1 y1 x2 y2 : x1 == y1 -> x2 == y2 -> osum x1 x2 == osum y1 y2.
Proof.
  intros H1 H2 n Hn p q Hp Hq. unfold osum. cases p q Hp Hq; try reflexivity.
  - apply H1; auto.
  - apply H2; auto.
Qed.

Lemma osum_zero : osum 0 0 == 0.
Proof. intros n Hn p q Hp Hq. unfold osum. destruct (lo p), (lo q); reflexivity. Qed.

Lemma osum_one : osum 1 1 == 1.
Proof.
  intros n Hn p q Hp Hq. refine (eq_ind_r (fun z => _ == z) _ (one_entry DS k n p q)). unfold osum. cases p q Hp Hq.
  - rewrite one_entry. reflexivity.
  - rewrite (eqb_lo_mixed D1 p q Lp Lq). destruct (is_zero n); reflexivity.
  - rewrite (Nat.eqb_sym p q), (eqb_lo_mixed D1 q p Lq Lp). destruct (is_zero n); reflexivity.
  - rewrite one_entry, (eqb_sh D1 p q Lp Lq). reflexivity.
Qed.

Lemma osum_sub x1 y1 x2 y2 : osum (x1 - y1) (x2 - y2) == osum x1 x2 - osum y1 y2.
Proof.
  intros n Hn p q Hp Hq. rewrite sub_entry. unfold osum.
  destruct (lo p), (lo q); rewrite ?sub_entry; try reflexivity; non_commutative_ring.
Qed.

Lemma osum_mul x1 y1 x2 y2 : osum (x1 * y1) (x2 * y2) == osum x1 x2 * osum y1 y2.
Proof.
  intros n Hn p q Hp Hq. rewrite (mul_entry (Rg := Rg) (osum x1 x2) (osum y1 y2)).
  assert (SP : forall F : nat -> R0,
             bigsum F (range DS) == bigsum F (range D1) + bigsum (fun r => F (Nat.add D1 r)) (range D2)).
  { intros F. rewrite (range_add D1 D2), bigsum_app, bigsum_map. reflexivity. }
  unfold osum at 1. cases p q Hp Hq.
  - rewrite (mul_entry (Rg := Rg)). apply bigsum_ext. intros ab _. rewrite SP.
    rewrite (bigsum_zero (fun r => osum x1 x2 (fst ab) p (Nat.add D1 r) * osum y1 y2 (snd ab) (Nat.add D1 r) q)).
    + assert (X : forall a b : R0, a == b -> a == b + 0) by (intros a b Hab; rewrite Hab; non_commutative_ring).
      apply X. apply bigsum_ext. intros r Hr. apply in_range in Hr.
      unfold osum. rewrite Lp, Lq, (lo_true D1 r Hr). reflexivity.
    + intros r _. unfold osum. rewrite Lp, Lq, (lo_add D1 r). non_commutative_ring.
  - symmetry. apply bigsum_zero. intros ab _. rewrite SP.
    rewrite !bigsum_zero. non_commutative_ring.
    + intros r _. unfold osum. rewrite Lp, Lq, (lo_add D1 r). non_commutative_ring.
    + intros r Hr. apply in_range in Hr. unfold osum. rewrite Lp, Lq, (lo_true D1 r Hr). non_commutative_ring.
  - symmetry. apply bigsum_zero. intros ab _. rewrite SP.
    rewrite !bigsum_zero. non_commutative_ring.
    + intros r _. unfold osum. rewrite Lp, Lq, (lo_add D1 r). non_commutative_ring.
    + intros r Hr. apply in_range in Hr. unfold osum. rewrite Lp, Lq, (lo_true D1 r Hr). non_commutative_ring.
  - rewrite (mul_entry (Rg := Rg)). apply bigsum_ext. intros ab _. rewrite SP.
    rewrite (bigsum_zero (fun r => osum x1 x2 (fst ab) p r * osum y1 y2 (snd ab) r q)).
    + assert (X : forall a b : R0, a == b -> a == 0 + b) by (intros a b Hab; rewrite Hab; non_commutative_ring).
      apply X. apply bigsum_ext. intros r Hr.
      unfold osum. rewrite Lp, Lq, (lo_add D1 r), (sh_add D1 r). reflexivity.
    + intros r Hr. apply in_range in Hr. unfold osum. rewrite Lp, Lq, (lo_true D1 r Hr). non_commutative_ring.
Qed.

Lemma osum_Zc x1 x2 : osum (Zc (BlockAlg := B1) x1) (Zc (BlockAlg := B2) x2) == Zc (BlockAlg := BS) (osum x1 x2).
Proof.
  intros n Hn p q Hp Hq.
  refine (eq_ind_r (fun z => _ == z) _ (Zc_entry (D := DS) blkS keepS cmS kS_sym kS_blk cS_blk (osum x1 x2) n p q)). unfold osum.
  destruct (lo p), (lo q); try (destruct (is_zero n); reflexivity).
  - rewrite (Zc_entry blk1 keep1 cm1 keep_sym1 keep_blk1 cm_blk1 x1 n p q). reflexivity.
  - rewrite (Zc_entry blk2 keep2 cm2 keep_sym2 keep_blk2 cm_blk2 x2 n (sh p) (sh q)). reflexivity.
Qed.

Theorem osum_Hom2 : Hom2 (BA1 := B1) (BA2 := B2) (BA' := BS) osum.
Proof.
  constructor.
  - intros x1 y1 E1 x2 y2 E2. now apply osum_P.
  - exact osum_zero.
  - exact osum_one.
  - exact osum_sub.
  - exact osum_mul.
  - intros x1 x2 n Hn p q Hp Hq.
    change (osum (adj (BlockAlg := B1) x1) (adj (BlockAlg := B2) x2) n p q == conj (osum x1 x2 n q p)).
    unfold osum. destruct (lo p), (lo q); try (symmetry; apply conj_zero); reflexivity.
  - intros x1 x2 n Hn p q Hp Hq.
    change (osum (Sel (BlockAlg := B1) x1) (Sel (BlockAlg := B2) x2) n p q == if keepS p q then osum x1 x2 n p q else 0).
    unfold osum, SymIdx.keepS. destruct (lo p), (lo q); reflexivity.
  - intros m x1 x2 O1 O2 n Hn Hd p q Hp Hq. unfold osum. cases p q Hp Hq; try reflexivity.
    + apply (O1 n Hn Hd p q); assumption.
    + apply (O2 n Hn Hd (sh p) (sh q)); assumption.
Qed.

Variables E1 E2 : nat -> R0.
Definition ES (p : nat) : R0 := if lo p then E1 p else E2 (sh p).
Variable inv : R0 -> R0.
(* the solver inverts every eliminated difference of the sum, including those between the summands *)
Hypothesis inv_specS : forall p q, (p < DS)%nat -> (q < DS)%nat -> keepS p q = false ->
                                   (ES p - ES q) * inv (ES p - ES q) == 1.

Lemma inv_spec1 p q : (p < D1)%nat -> (q < D1)%nat -> keep1 p q = false -> (E1 p - E1 q) * inv (E1 p - E1 q) == 1.
Proof.
  intros Hp Hq K. pose proof (inv_specS p q (Nat.lt_lt_add_r _ _ _ Hp) (Nat.lt_lt_add_r _ _ _ Hq)) as X.
  unfold SymIdx.keepS, ES in X. rewrite (lo_true D1 p Hp), (lo_true D1 q Hq) in X. exact (X K).
Qed.
Lemma inv_spec2 p q : (p < D2)%nat -> (q < D2)%nat -> keep2 p q = false -> (E2 p - E2 q) * inv (E2 p - E2 q) == 1.
Proof.
  intros Hp Hq K.
  pose proof (inv_specS (Nat.add D1 p) (Nat.add D1 q) (proj1 (Nat.add_lt_mono_l _ _ _) Hp) (proj1 (Nat.add_lt_mono_l _ _ _) Hq)) as X.
  unfold SymIdx.keepS, ES in X. rewrite !(lo_add D1), !(sh_add D1) in X. exact (X K).
Qed.

Lemma osum_H0 : osum (SylvInst.H0 D1 k E1) (SylvInst.H0 D2 k E2) == SylvInst.H0 DS k ES.
Proof.
  intros n Hn p q Hp Hq. unfold osum, SylvInst.H0, ES. destruct (is_zero n).
  - unfold mdiag. cases p q Hp Hq.
    + reflexivity.
    + rewrite (eqb_lo_mixed D1 p q Lp Lq). reflexivity.
    + rewrite (Nat.eqb_sym p q), (eqb_lo_mixed D1 q p Lq Lp). reflexivity.
    + rewrite (eqb_sh D1 p q Lp Lq). reflexivity.
  - destruct (lo p), (lo q); reflexivity.
Qed.

Variable rflag1 : string -> T1 -> T1.
Variable fenv1 : string -> list T1 -> T1.
Variable rflag2 : string -> T2 -> T2.
Variable fenv2 : string -> list T2 -> T2.
Variable rflagS : string -> TS -> TS.
Variable fenvS : string -> list TS -> TS.
Hypothesis fenv_spec1 : forall y, fenv1 "solve_sylvester" (cons y nil) == SylvInst.sylv E1 inv y.
Hypothesis fenv_spec2 : forall y, fenv2 "solve_sylvester" (cons y nil) == SylvInst.sylv E2 inv y.
Hypothesis fenv_specS : forall y, fenvS "solve_sylvester" (cons y nil) == SylvInst.sylv ES inv y.
Variable sol1 : string -> T1.
Variable sol2 : string -> T2.
Variable solS : string -> TS.
Hypothesis H_zero1 : Zc (BlockAlg := B1) (sol1 "H") == SylvInst.H0 D1 k E1.
Hypothesis H_zero2 : Zc (BlockAlg := B2) (sol2 "H") == SylvInst.H0 D2 k E2.
Hypothesis Hin : solS "H" == osum (sol1 "H") (sol2 "H").

Lemma ds_zeroS : Zc (BlockAlg := BS) (solS "H") == SylvInst.H0 DS k ES.
Proof. exact (Zc_transport2 _ osum_Hom2 osum_Zc H_zero1 H_zero2 osum_H0 Hin). Qed.

Section Hermitian.
Hypothesis E_real1 : forall p, conj (E1 p) == E1 p.
Hypothesis E_real2 : forall p, conj (E2 p) == E2 p.
Hypothesis keep_eucl1 : keep_eucl_on D1 keep1 cm1.
Hypothesis keep_eucl2 : keep_eucl_on D2 keep2 cm2.
Hypothesis inv_P : Proper (_==_ ==> _==_) inv.
Hypothesis inv_opp : forall x, inv (- x) == - inv x.
Hypothesis inv_conj : forall x, conj (inv x) == inv (conj x).
Hypothesis rflag_spec1 : forall x, rflag1 "commuting_blocks" x == Rw (BlockAlg := B1) x.
Hypothesis rflag_spec2 : forall x, rflag2 "commuting_blocks" x == Rw (BlockAlg := B2) x.
Hypothesis rflag_specS : forall x, rflagS "commuting_blocks" x == Rw (BlockAlg := BS) x.
Hypothesis Hsol1 : solution (BA := B1) (gflag_of false) rflag1 fenv1 sol1 main_alg.
Hypothesis Hsol2 : solution (BA := B2) (gflag_of false) rflag2 fenv2 sol2 main_alg.
Hypothesis HsolS : solution (BA := BS) (gflag_of false) rflagS fenvS solS main_alg.
Hypothesis H_herm1 : adj (BlockAlg := B1) (sol1 "H") == sol1 "H".
Hypothesis H_herm2 : adj (BlockAlg := B2) (sol2 "H") == sol2 "H".

Theorem direct_sum_outputs :
  solS "U" == osum (sol1 "U") (sol2 "U") /\ solS "U†" == osum (sol1 "U†") (sol2 "U†")
  /\ solS "H_tilde" == osum (sol1 "H_tilde") (sol2 "H_tilde").
Proof.
  refine (transport2_outputs (BA1 := B1) (BA2 := B2) (BA' := BS) osum osum_Hom2
            rflag1 fenv1 rflag2 fenv2 rflagS fenvS sol1 sol2 solS Hin Hsol1 Hsol2 HsolS _ _ _ _).
  - exact (inst_wiring D1 k blk1 keep1 cm1 keep_sym1 keep_refl1 keep_blk1 cm_blk1 keep_eucl1
             E1 inv inv_spec1 E_real1 inv_P inv_opp inv_conj rflag1 fenv1 rflag_spec1 fenv_spec1 (sol1 "H")
             H_herm1 H_zero1).
  - exact (inst_wiring D2 k blk2 keep2 cm2 keep_sym2 keep_refl2 keep_blk2 cm_blk2 keep_eucl2
             E2 inv inv_spec2 E_real2 inv_P inv_opp inv_conj rflag2 fenv2 rflag_spec2 fenv_spec2 (sol2 "H")
             H_herm2 H_zero2).
  - refine (inst_wiring DS k blkS keepS cmS kS_sym kS_refl kS_blk cS_blk
              (keepS_eucl D1 D2 keep1 keep2 cm1 cm2 keep_eucl1 keep_eucl2)
              ES inv inv_specS _ inv_P inv_opp inv_conj rflagS fenvS rflag_specS fenv_specS (solS "H") _ ds_zeroS).
    + intros p. unfold ES. destruct (lo p). apply E_real1. apply E_real2.
    + exact (herm_transport2 _ osum_Hom2 H_herm1 H_herm2 Hin).
  - exact (sylv_left_inst DS k blkS keepS cmS kS_sym kS_blk cS_blk ES inv inv_specS fenvS (solS "H") fenv_specS ds_zeroS).
Qed.
End Hermitian.

Section NonHermitian.
Hypothesis kept_equal1 : forall p q, (p < D1)%nat -> (q < D1)%nat -> keep1 p q = true -> E1 p == E1 q.
Hypothesis kept_equal2 : forall p q, (p < D2)%nat -> (q < D2)%nat -> keep2 p q = true -> E2 p == E2 q.
Variable gflag1 gflag2 gflagS : string -> bool.
Hypothesis Hsol1 : solution (BA := B1) gflag1 rflag1 fenv1 sol1 nonhermitian_alg.
Hypothesis Hsol2 : solution (BA := B2) gflag2 rflag2 fenv2 sol2 nonhermitian_alg.
Hypothesis HsolS : solution (BA := BS) gflagS rflagS fenvS solS nonhermitian_alg.

Theorem direct_sum_nh :
  solS "U" == osum (sol1 "U") (sol2 "U") /\ solS "U†" == osum (sol1 "U†") (sol2 "U†")
  /\ solS "H_tilde" == osum (sol1 "H_tilde") (sol2 "H_tilde").
Proof.
  refine (nh_transport2_outputs (BA1 := B1) (BA2 := B2) (BA' := BS) osum osum_Hom2
            rflag1 fenv1 rflag2 fenv2 rflagS fenvS sol1 sol2 solS Hin gflag1 gflag2 gflagS Hsol1 Hsol2 HsolS _ _ _).
  - exact (inst_nh_wiring D1 k blk1 keep1 cm1 keep_sym1 keep_refl1 keep_blk1 cm_blk1 E1 inv inv_spec1 kept_equal1
             fenv1 fenv_spec1 (sol1 "H") H_zero1).
  - exact (inst_nh_wiring D2 k blk2 keep2 cm2 keep_sym2 keep_refl2 keep_blk2 cm_blk2 E2 inv inv_spec2 kept_equal2
             fenv2 fenv_spec2 (sol2 "H") H_zero2).
  - refine (inst_nh_wiring DS k blkS keepS cmS kS_sym kS_refl kS_blk cS_blk ES inv inv_specS _
              fenvS fenv_specS (solS "H") ds_zeroS).
    intros p q Hp Hq. unfold SymIdx.keepS, ES.
    destruct (lo p) eqn:Lp, (lo q) eqn:Lq; intros K; try discriminate.
    + apply kept_equal1; auto using lo_lt.
    + apply kept_equal2; auto using sh_lt.
Qed.
End NonHermitian.
End Sum.
